(* FaultReopen.v -- C14's reopen clause for ONE operation hit by an injected I/O error.

   Fault plan (theories/FS.v do_call): `wfault w = Some n` makes the effective call with index n
   (the call counter wcount w reaches n) return EIO WITHOUT effect; the plan stays `Some n`, but
   the counter moves on, so exactly one call fails.

   Str m: what every program does to the plan, the counter and the trace of a world
       (str_prog: every member of WorldRel.IsProg).
   A two-run program logic.  [arm n w] is the fault-free world w with the plan `Some n`.
       FR m Q: run m from w (fault-free) and from arm n w.  Either the fault does not hit inside m
       and the two runs agree (same result, same world up to the plan), or it hits a call c and
       the filesystem left by the faulted run is reached from SOME PREFIX STATE of the fault-free
       run of m by calls of a small class T ("tail calls": the clean-up of the error path), and
       the result satisfies Q.  Rules for ret / do_call / bind (fr_bind).  FRS m Q is FR with Str,
       so that the derived rules carry no side conditions; TL m Q is a tail program: FRS and all
       calls in T (TailP, i.e. FaultLogic.Inv, valid under any plan) -- what the error branch of
       a bind must be (frs_bind_err).  The one place where the error path REPEATS the failed call
       (BufWriter::drop retries the flush: writer_close) is a leaf lemma: there the prefix grows
       by one.
   Calls C m: every call m can issue is of class C (calls_prog; log_and_apply: LogCall).
   FRS for every API operation (put, abort, remove, remove_range, checkpoint, the reads),
       once for any claim P about the memory a faulted operation returns (Section Ops): nothing
       (fr_step), or that it is unchanged when the failing call is not a LogCall (fr_step_same).
   The theorems:
         C14_reopen_after_any_single_fault_op     EVERY position of the fault, also the WAL class
         C14_reopen_after_fault_outside_known_class_op   (corollary)
       After the faulted operation the filesystem satisfies Rest for the old or for the new map,
       hence (CrashOpen.rest_open) a fresh open_with_recover succeeds with Inv' for that map.
         C14_benign_fault_keeps_invariant   a put / abort failing before its blob is published:
                                            memory unchanged and the FULL handle invariant Inv'
         C14_history_after_benign_fault     hence any further history (operations, restarts,
                                            crashes; CrashHist.run_ext) ends in an allowed map
   Computed instances on the toy hash (non-vacuity), next to the known refutation F4. *)
From Cas Require Import History.
From CasProofs Require Import CodecProofs StoreFS StoreInv StoreWrite StoreHist DiskInv
  RestartHist CrashInv CrashOpen CrashHist WorldRel FaultLogic Faults FaultHist FaultWitness.
Open Scope N_scope.

(* structural facts about every program: the plan is never changed, the counter and the trace
   only grow, and the recorded trace is faithful under every plan (a faulted call is recorded as
   TFault and replayed as a no-op) *)
Definition Str {A} (m : M A) : Prop :=
  forall w,
    wfault (snd (m w)) = wfault w /\ (wcount w <= wcount (snd (m w)))%nat /\
    exists tr, wtrace (snd (m w)) = tr ++ wtrace w /\
               replay_calls (rev tr) (wfs w) = wfs (snd (m w)).

Lemma str_ret : forall {A} (a : A), Str (ret a).
Proof.
  intros A a w. cbn [ret snd]. split; [reflexivity|]. split; [apply le_n|]. exists []. now split.
Qed.

(* R: what is known of the result of m in every world *)
Lemma str_bind_on : forall {A B} (m : M A) (f : A -> M B) (R : A -> Prop),
  Str m -> (forall w, R (fst (m w))) -> (forall a, R a -> Str (f a)) -> Str (bind m f).
Proof.
  intros A B m f R Sm HR Sf w. unfold bind. specialize (Sm w). specialize (HR w).
  destruct (m w) as [a w1]. cbn [fst snd] in Sm, HR. destruct Sm as (F1 & C1 & t1 & E1 & R1).
  specialize (Sf a HR w1). destruct (f a w1) as [b w2]. cbn [snd] in *.
  destruct Sf as (F2 & C2 & t2 & E2 & R2).
  split; [congruence|]. split; [lia|]. exists (t2 ++ t1). split.
  - rewrite E2, E1. apply app_assoc.
  - now rewrite rev_app_distr, replay_app, R1.
Qed.

Lemma str_do_call : forall c, Str (do_call c).
Proof.
  intros c w. destruct (do_call_run c w) as [e E|s' E _|s' E _]; cbn [snd wfault wcount wtrace wfs];
    (split; [reflexivity|]); (split; [auto|]).
  - exists []. now split.
  - exists [TCall c]. split; [reflexivity|]. cbn [rev app replay_calls]. now rewrite E.
  - exists [TFault c]. now split.
Qed.

Lemma str_get_fs : Str get_fs.
Proof. intros w. cbn [get_fs snd]. split; [reflexivity|]. split; [apply le_n|]. exists []. now split. Qed.

Lemma str_read_file : forall p, Str (read_file p).
Proof. intros p w. cbn [read_file snd]. split; [reflexivity|]. split; [apply le_n|]. exists []. now split. Qed.

Lemma str_prog : forall (C : call -> Prop) {A} (m : M A), IsProg C m -> Str m.
Proof.
  intros C A m Pm. induction Pm as [A a|A B m f _ Sm _ Sf|c _| |p].
  - apply str_ret.
  - exact (str_bind_on m f (fun _ => True) Sm (fun _ => I) (fun a _ => Sf a)).
  - apply str_do_call.
  - exact str_get_fs.
  - apply str_read_file.
Qed.

Section StrStore.
  Variable H : bytes -> bytes.

  Lemma str_mkdir_p : forall d, Str (mkdir_p d).
  Proof. of_prog str_prog prog_mkdir_p. Qed.
  Lemma str_mkdir_cas2 : forall a b, Str (mkdir_cas2 a b).
  Proof. of_prog str_prog prog_mkdir_cas2. Qed.
  Lemma str_atomic_write : forall t tmp data, Str (atomic_write t tmp data).
  Proof. of_prog str_prog prog_atomic_write. Qed.
  Lemma str_bw_flush : forall p buf, Str (bw_flush p buf).
  Proof. of_prog str_prog prog_bw_flush. Qed.
  Lemma str_bw_write_all : forall p buf data, Str (bw_write_all p buf data).
  Proof. of_prog str_prog prog_bw_write_all. Qed.
  Lemma str_writer_close : forall seg buf, Str (writer_close seg buf).
  Proof. of_prog str_prog prog_writer_close. Qed.
  Lemma str_writer_seal : forall seg buf, Str (writer_seal seg buf).
  Proof. of_prog str_prog prog_writer_seal. Qed.
  Lemma str_write_entry : forall seg buf ver payload, Str (write_entry H seg buf ver payload).
  Proof. of_prog str_prog prog_write_entry. Qed.
  Lemma str_unlink_all : forall ps, Str (unlink_all ps).
  Proof. of_prog str_prog prog_unlink_all. Qed.
  Lemma str_close : forall m, Str (close m).
  Proof. of_prog str_prog prog_close. Qed.

  Section Cfg.
    Variable cfg : config.
    Lemma str_append_op : forall wl payload, Str (append_op H cfg wl payload).
    Proof. of_prog str_prog prog_append_op. Qed.
    Lemma str_prune_below : forall bound, Str (prune_below bound).
    Proof. of_prog str_prog prog_prune_below. Qed.
    Lemma str_checkpoint_inner : forall reason m, Str (checkpoint_inner cfg reason m).
    Proof. of_prog str_prog prog_checkpoint_inner. Qed.
    Lemma str_delete_blobs : forall hs, Str (delete_blobs hs).
    Proof. of_prog str_prog prog_delete_blobs. Qed.
    Lemma str_log_and_apply : forall m o, Str (log_and_apply H cfg m o).
    Proof. of_prog str_prog prog_log_and_apply. Qed.
    Lemma str_new_staging : Str new_staging.
    Proof. of_prog str_prog prog_new_staging. Qed.
    Lemma str_drop_staging : forall p, Str (drop_staging p).
    Proof. of_prog str_prog prog_drop_staging. Qed.
    Lemma str_put : forall m k chunks, Str (put H cfg m k chunks).
    Proof. of_prog str_prog prog_put. Qed.
    Lemma str_abort : forall m k chunks, Str (abort m k chunks).
    Proof. of_prog str_prog prog_abort. Qed.
    Lemma str_remove : forall m k, Str (remove H cfg m k).
    Proof. of_prog str_prog prog_remove. Qed.
    Lemma str_remove_range : forall m lo hi, Str (remove_range H cfg m lo hi).
    Proof. of_prog str_prog prog_remove_range. Qed.
    Lemma str_checkpoint : forall m, Str (checkpoint cfg m).
    Proof. of_prog str_prog prog_checkpoint. Qed.
  End Cfg.

  Lemma str_step : forall hd o, Str (step H hd o).
  Proof. of_prog str_prog prog_step. Qed.
End StrStore.

(* the two-run logic *)
Definition arm (n : nat) (w : world) : world := mkWorld (wfs w) (wtrace w) (wcount w) (Some n).

Definition keepsT (T : call -> Prop) (I : fs -> Prop) : Prop :=
  forall c, T c -> WorldRel.call_keeps I c.

(* a program all of whose calls are of class T (the clean-up of an error path), with a pure
   statement Q about its result; valid under any fault plan *)
Definition TailP (T : call -> Prop) {A} (m : M A) (Q : A -> Prop) : Prop :=
  forall I, keepsT T I -> FaultLogic.Inv I m Q.

Lemma tailp_ret : forall T {A} (a : A) (Q : A -> Prop), Q a -> TailP T (ret a) Q.
Proof. intros T A a Q Qa I _. now apply inv_ret. Qed.

Lemma firstn_app_le : forall {A} (l1 l2 : list A) j, (j <= length l1)%nat ->
  firstn j (l1 ++ l2) = firstn j l1.
Proof.
  intros A l1 l2 j L. rewrite firstn_app. replace (j - length l1)%nat with 0%nat by lia.
  cbn [firstn]. apply app_nil_r.
Qed.

Lemma do_call_some : forall c w k s', apply_call c (wfs w) = Ok s' -> wfault w = Some k ->
  do_call c w = if Nat.eqb k (wcount w)
                then (Err EIO, mkWorld (wfs w) (TFault c :: wtrace w) (S (wcount w)) (Some k))
                else (Ok tt, mkWorld s' (TCall c :: wtrace w) (S (wcount w)) (Some k)).
Proof. intros c w k s' E F. unfold do_call. now rewrite E, F. Qed.

Definition iserr {E X} (r : res E X) : Prop := match r with Err _ => True | Ok _ => False end.

Section FR.
  Variable n : nat.                 (* index of the failing call *)
  Variable T : call -> Prop.        (* tail calls *)
  Variable K : call -> Prop.        (* a class of calls about which nothing is claimed *)

  Definition FR {A} (m : M A) (Q : A -> Prop) : Prop :=
    forall w, wfault w = None -> (wcount w <= n)%nat ->
      ((wcount (snd (m w)) <= n)%nat /\ m (arm n w) = (fst (m w), arm n (snd (m w))))
      \/
      ((n < wcount (snd (m w)))%nat /\ (n < wcount (snd (m (arm n w))))%nat /\
       wfault (snd (m (arm n w))) = Some n /\
       exists c tr' tr0,
         wtrace (snd (m (arm n w))) = tr' ++ wtrace w /\ In (TFault c) tr' /\
         wtrace (snd (m w)) = tr0 ++ wtrace w /\
         (~ K c ->
          Q (fst (m (arm n w))) /\
          exists j, (j <= length tr0)%nat /\
            forall I, keepsT T I ->
              I (replay_calls (firstn j (rev tr0)) (wfs w)) -> I (wfs (snd (m (arm n w)))))).

  Lemma fr_ret : forall {A} (a : A) Q, FR (ret a) Q.
  Proof. intros A a Q w F C. left. cbn [ret fst snd]. now split. Qed.

  Lemma fr_get_fs : forall Q, FR get_fs Q.
  Proof. intros Q w F C. left. cbn [get_fs fst snd]. now split. Qed.

  Lemma fr_read_file : forall p Q, FR (read_file p) Q.
  Proof. intros p Q w F C. left. cbn [read_file fst snd]. now split. Qed.

  (* what is claimed of the result may rest on the fault recorded in the faulted run, at a call
     outside K *)
  Lemma fr_conseq : forall {A} (m : M A) (Q Q' : A -> Prop), FR m Q ->
    (forall w c tr', wtrace (snd (m (arm n w))) = tr' ++ wtrace w -> In (TFault c) tr' -> ~ K c ->
                     Q (fst (m (arm n w))) -> Q' (fst (m (arm n w)))) ->
    FR m Q'.
  Proof.
    intros A m Q Q' Hm I0 w F C.
    destruct (Hm w F C) as [X|(X1 & X2 & X3 & c & tr' & tr0 & E1 & I1 & E0 & X)]; [now left|].
    right. split; [exact X1|]. split; [exact X2|]. split; [exact X3|].
    exists c, tr', tr0. split; [exact E1|]. split; [exact I1|]. split; [exact E0|].
    intros NK. destruct (X NK) as [Qa J]. split; [exact (I0 w c tr' E1 I1 NK Qa)|exact J].
  Qed.

  Lemma fr_weaken : forall {A} (m : M A) (Q Q' : A -> Prop),
    (forall a, Q a -> Q' a) -> FR m Q -> FR m Q'.
  Proof. intros A m Q Q' I0 Hm. apply (fr_conseq m Q Q' Hm). intros w c tr' _ _ _. apply I0. Qed.

  (* the single call: when the fault hits it, the result is EIO and nothing happened *)
  Lemma fr_do_call : forall c (Q : res errno unit -> Prop),
    (~ K c -> Q (Err EIO)) -> FR (do_call c) Q.
  Proof.
    intros c Q HQ w F C. destruct (apply_call c (wfs w)) as [s'|e] eqn:E.
    - rewrite (do_call_ok c w s' F E), (do_call_some c (arm n w) n s' E eq_refl).
      cbn [arm wcount wfs wtrace].
      destruct (Nat.eqb_spec n (wcount w)) as [Eq|Ne].
      + right. cbn [fst snd wcount wfault wtrace wfs]. rewrite Eq.
        split; [apply le_n|]. split; [apply le_n|]. split; [reflexivity|].
        exists c, [TFault c], [TCall c]. split; [reflexivity|]. split; [now left|].
        split; [reflexivity|]. intros NK. split; [exact (HQ NK)|]. exists 0%nat.
        split; [apply Nat.le_0_l|]. intros I _ X. exact X.
      + left. cbn [fst snd wcount]. split; [|reflexivity]. apply Nat.le_neq. split; [exact C|auto].
    - rewrite (do_call_err c w e E), (do_call_err c (arm n w) e E).
      left. cbn [fst snd]. split; [exact C|reflexivity].
  Qed.

  (* a call of the class K: nothing to show *)
  Lemma fr_do_call_K : forall c Q, K c -> FR (do_call c) Q.
  Proof. intros c Q Kc. apply fr_do_call. intros NK. destruct (NK Kc). Qed.

  (* sequencing.  R: what is known of the result of m in every world (a pure fact, e.g.
     WorldRel.new_staging_shape); Qm: what is known of it when the fault hit inside m (an error).
     If the fault hit inside m, the continuation runs the clean-up of the error path: calls of
     the class T only. *)
  Lemma fr_bind : forall {A B} (m : M A) (f : A -> M B) (R Qm : A -> Prop) (Q : B -> Prop),
    Str m -> (forall a, R a -> Str (f a)) ->
    (forall w, R (fst (m w))) ->
    FR m Qm ->
    (forall a, R a -> FR (f a) Q) ->
    (forall a, R a -> Qm a -> TailP T (f a) Q) ->
    FR (bind m f) Q.
  Proof.
    intros A B m f R Qm Q Sm Sf HR Hm Hf Ht w F C. unfold bind.
    pose proof (Sm w) as (F1 & C1 & t1 & E1 & R1). pose proof (HR w) as Ra.
    pose proof (HR (arm n w)) as Ra'. specialize (Hm w F C).
    destruct (m w) as [a0 w1]. cbn [fst snd] in F1, E1, R1, Ra, Hm.
    destruct Hm as [(Cn & Er)|(X1 & X2 & X3 & c & tr' & tr0 & Et' & Ic & Et0 & X)].
    - (* the fault does not hit inside m *)
      rewrite Er. rewrite F in F1. specialize (Hf a0 Ra w1 F1 Cn).
      destruct (f a0 w1) as [b0 w2]. cbn [fst snd] in Hf |- *.
      destruct Hf as [Hf|(Y1 & Y2 & Y3 & c & tr' & tr0 & Et' & Ic & Et0 & Y)]; [now left|].
      right. split; [exact Y1|]. split; [exact Y2|]. split; [exact Y3|].
      exists c, (tr' ++ t1), (tr0 ++ t1).
      split; [rewrite Et', E1; apply app_assoc|]. split; [apply in_or_app; now left|].
      split; [rewrite Et0, E1; apply app_assoc|].
      intros NK. destruct (Y NK) as (Qb & j & Lj & J). split; [exact Qb|].
      exists (length t1 + j)%nat.
      split; [rewrite app_length, (Nat.add_comm (length tr0)); apply Nat.add_le_mono_l, Lj|].
      intros I KI X. apply (J I KI).
      rewrite rev_app_distr, <- (rev_length t1), firstn_app_2, replay_app, R1 in X.
      exact X.
    - (* the fault hits inside m: the rest is clean-up *)
      destruct (m (arm n w)) as [a wf1]. cbn [fst snd] in Ra', X2, X3, Et', X |- *.
      pose proof (Sf a Ra' wf1) as (F2 & C2 & t2 & E2 & _).
      pose proof (Sf a0 Ra w1) as (_ & C2' & t2' & E2' & _).
      right. split; [exact (Nat.lt_le_trans _ _ _ X1 C2')|].
      split; [exact (Nat.lt_le_trans _ _ _ X2 C2)|]. split; [now rewrite F2|].
      exists c, (t2 ++ tr'), (t2' ++ tr0).
      split; [rewrite E2, Et'; apply app_assoc|]. split; [apply in_or_app; now right|].
      split; [rewrite E2', Et0; apply app_assoc|].
      intros NK. destruct (X NK) as (Qa & j & Lj & J).
      pose proof (Ht a Ra' Qa) as Tl. split.
      + assert (KT : keepsT T (fun _ => True)) by (intros c0 _ s s' _ _; exact I).
        exact (proj2 (Tl _ KT wf1 I)).
      + exists j. split; [rewrite app_length; exact (Nat.le_trans _ _ _ Lj (Nat.le_add_l _ _))|].
        intros I KI Xj. refine (proj1 (Tl I KI wf1 _)). apply (J I KI).
        rewrite rev_app_distr, firstn_app_le in Xj by (rewrite rev_length; exact Lj). exact Xj.
  Qed.

  (* FR together with Str: the rules for FRS have no side conditions *)
  Definition FRS {A} (m : M A) (Q : A -> Prop) : Prop := Str m /\ FR m Q.

  Lemma frs_ret : forall {A} (a : A) Q, FRS (ret a) Q.
  Proof. intros A a Q. split; [apply str_ret|apply fr_ret]. Qed.

  Lemma frs_call : forall c (Q : res errno unit -> Prop), (~ K c -> Q (Err EIO)) -> FRS (do_call c) Q.
  Proof. intros c Q HQ. split; [apply str_do_call|now apply fr_do_call]. Qed.

  Lemma frs_if : forall {A} (b : bool) (m1 m2 : M A) Q,
    FRS m1 Q -> FRS m2 Q -> FRS (if b then m1 else m2) Q.
  Proof. intros A b m1 m2 Q H1 H2. now destruct b. Qed.

  Lemma frs_bind_on : forall {A B} (m : M A) (f : A -> M B) (R Qm : A -> Prop) (Q : B -> Prop),
    (forall w, R (fst (m w))) -> FRS m Qm ->
    (forall a, R a -> FRS (f a) Q) ->
    (forall a, R a -> Qm a -> TailP T (f a) Q) ->
    FRS (bind m f) Q.
  Proof.
    intros A B m f R Qm Q HR [Sm Hm] Hf Ht. split.
    - exact (str_bind_on m f R Sm HR (fun a Ra => proj1 (Hf a Ra))).
    - exact (fr_bind m f R Qm Q Sm (fun a Ra => proj1 (Hf a Ra)) HR Hm
                     (fun a Ra => proj2 (Hf a Ra)) Ht).
  Qed.

  Lemma frs_bind : forall {A B} (m : M A) (f : A -> M B) (Qm : A -> Prop) (Q : B -> Prop),
    FRS m Qm -> (forall a, FRS (f a) Q) -> (forall a, Qm a -> TailP T (f a) Q) ->
    FRS (bind m f) Q.
  Proof.
    intros A B m f Qm Q Hm Hf Ht. apply (frs_bind_on m f (fun _ => True) Qm Q); auto.
  Qed.

  Lemma frs_bind_ret : forall {A B} (a : A) (f : A -> M B) Q, FRS (f a) Q -> FRS (bind (ret a) f) Q.
  Proof. intros A B a f Q Hf. exact Hf. Qed.

  Lemma frs_bind_get_fs : forall {B} (f : fs -> M B) Q,
    (forall s, FRS (f s) Q) -> FRS (do! s <- get_fs ;; f s) Q.
  Proof.
    intros B f Q Hf. apply (frs_bind get_fs f (fun _ => False)); [|exact Hf|intros s []].
    split; [apply str_get_fs|apply fr_get_fs].
  Qed.

  Lemma frs_fmap : forall {A B} (m : M A) (g : A -> B) (Qm : A -> Prop) (Q : B -> Prop),
    FRS m Qm -> (forall a, Qm a -> Q (g a)) -> FRS (do! a <- m ;; ret (g a)) Q.
  Proof.
    intros A B m g Qm Q Hm HQ. apply (frs_bind m _ Qm); [exact Hm|intros a; apply frs_ret|].
    intros a Qa. apply tailp_ret, HQ, Qa.
  Qed.

  (* tail programs: what an error path runs, whether or not the fault has struck already *)
  Definition TL {A} (m : M A) (Q : A -> Prop) : Prop := FRS m Q /\ TailP T m Q.

  Lemma tl_ret : forall {A} (a : A) (Q : A -> Prop), Q a -> TL (ret a) Q.
  Proof. intros A a Q Qa. split; [apply frs_ret|now apply tailp_ret]. Qed.

  Lemma tl_call : forall c, T c -> TL (do_call c) (fun _ => True).
  Proof.
    intros c Tc. split; [now apply frs_call|]. intros I KI. apply inv_call, KI, Tc.
  Qed.

  Lemma frs_bind_tl : forall {A B} (m : M A) (f : A -> M B) (Qm : A -> Prop) (Q : B -> Prop),
    FRS m Qm -> (forall a, TL (f a) Q) -> FRS (bind m f) Q.
  Proof.
    intros A B m f Qm Q Hm Hf. apply (frs_bind m f Qm); [exact Hm|intros a|intros a _]; apply Hf.
  Qed.

  Lemma tl_bind : forall {A B} (m : M A) (f : A -> M B) (Q : B -> Prop),
    TL m (fun _ => True) -> (forall a, TL (f a) Q) -> TL (bind m f) Q.
  Proof.
    intros A B m f Q [Hm Tm] Hf. split; [exact (frs_bind_tl m f _ Q Hm Hf)|].
    intros I KI. apply (inv_bind I m f (fun _ => True)); [exact (Tm I KI)|].
    intros a _. now apply Hf.
  Qed.

  (* m returns an error when the fault hits it; the error branch of the continuation is a tail *)
  Lemma frs_bind_err : forall {E X B} (m : M (res E X)) (f : res E X -> M B) (Q : B -> Prop),
    FRS m iserr -> (forall x, FRS (f (Ok x)) Q) -> (forall e, TL (f (Err e)) Q) ->
    FRS (bind m f) Q.
  Proof.
    intros E X B m f Q Hm Ho He. apply (frs_bind m f iserr); [exact Hm| |].
    - intros [x|e]; [apply Ho|apply He].
    - intros [x|e] Qa; [destruct Qa|apply He].
  Qed.

  Lemma frs_bind_err2 : forall {E X Y B} (m : M (res E X * Y)) (f : res E X * Y -> M B) (Q : B -> Prop),
    FRS m (fun r => iserr (fst r)) ->
    (forall x y, FRS (f (Ok x, y)) Q) -> (forall e y, TL (f (Err e, y)) Q) ->
    FRS (bind m f) Q.
  Proof.
    intros E X Y B m f Q Hm Ho He. apply (frs_bind m f (fun r => iserr (fst r))); [exact Hm| |].
    - intros [[x|e] y]; [apply Ho|apply He].
    - intros [[x|e] y] Qa; [destruct Qa|apply He].
  Qed.
End FR.

(* which calls a program can issue at all: Calls *)
Definition Calls (C : call -> Prop) {A} (m : M A) : Prop :=
  forall w, exists tr, wtrace (snd (m w)) = tr ++ wtrace w /\
                       Forall (fun e => match e with TCall c | TFault c => C c end) tr.

Lemma calls_get_fs : forall C, Calls C get_fs.
Proof. intros C w. exists []. split; [reflexivity|constructor]. Qed.

Lemma calls_prog : forall (C : call -> Prop) {A} (m : M A), IsProg C m -> Calls C m.
Proof.
  intros C A m Pm. induction Pm as [A a|A B m f _ Cm _ Cf|c Cc| |p]; intros w.
  - exists []. split; [reflexivity|constructor].
  - unfold bind. destruct (Cm w) as (t1 & E1 & F1). destruct (m w) as [a w1]. cbn [snd] in *.
    destruct (Cf a w1) as (t2 & E2 & F2). destruct (f a w1) as [b w2]. cbn [snd] in *.
    exists (t2 ++ t1). split; [rewrite E2, E1; apply app_assoc|]. apply Forall_app. now split.
  - destruct (do_call_run c w) as [e _|s' _ _|s' _ _]; cbn [snd wtrace].
    + exists []. split; [reflexivity|constructor].
    + exists [TCall c]. split; [reflexivity|]. constructor; [exact Cc|constructor].
    + exists [TFault c]. split; [reflexivity|]. constructor; [exact Cc|constructor].
  - apply calls_get_fs.
  - exists []. split; [reflexivity|constructor].
Qed.

Lemma calls_weaken : forall (C C' : call -> Prop) {A} (m : M A),
  (forall c, C c -> C' c) -> Calls C m -> Calls C' m.
Proof.
  intros C C' A m I0 Cm w. destruct (Cm w) as (tr & E & Fa). exists tr. split; [exact E|].
  eapply Forall_impl; [|exact Fa]. intros [c|c]; apply I0.
Qed.

(* the calls of log_and_apply and of a checkpoint: on WAL segments, on index.tmp / index, and
   the removal of blobs; as a predicate on the path alone it holds of a few calls more than
   WorldRel.log_call (log_call_LogCall) *)
Definition LogCall (c : call) : Prop :=
  match c with
  | CCreate q | COpenAppend q | CAppend q _ | CSync q =>
    match q with PWal _ | PIndexTmp => True | _ => False end
  | CRename PIndexTmp PIndex => True
  | CUnlink (PWal _) | CUnlink (PCas _) => True
  | _ => False
  end.

Lemma log_call_LogCall : forall c, log_call c = true -> LogCall c.
Proof.
  intros c L. destruct c as [d|q|q|q|q b|q|a b|q]; try discriminate;
    try (destruct q; try discriminate; exact I).
  destruct a; try discriminate. destruct b; try discriminate. exact I.
Qed.

Section CallsStore.
  Variable H : bytes -> bytes.
  Variable cfg : config.

  Lemma calls_bw_flush : forall seg buf, Calls LogCall (bw_flush (PWal seg) buf).
  Proof. intros. apply calls_prog, prog_bw_flush. intros b. exact I. Qed.
  Lemma calls_bw_write_all : forall seg buf data, Calls LogCall (bw_write_all (PWal seg) buf data).
  Proof. intros. apply calls_prog, prog_bw_write_all. intros b. exact I. Qed.
  Lemma calls_writer_close : forall seg buf, Calls LogCall (writer_close seg buf).
  Proof. intros. apply calls_prog, prog_writer_close; [intros b|]; exact I. Qed.
  Lemma calls_writer_seal : forall seg buf, Calls LogCall (writer_seal seg buf).
  Proof. intros. apply calls_prog, prog_writer_seal; [intros b|]; exact I. Qed.
  Lemma calls_write_entry : forall seg buf ver payload, Calls LogCall (write_entry H seg buf ver payload).
  Proof. intros. apply calls_prog, prog_write_entry; [intros b|]; exact I. Qed.
  Lemma calls_append_op : forall wl payload, Calls LogCall (append_op H cfg wl payload).
  Proof.
    intros. apply calls_prog, prog_append_op. intros c E. apply log_call_LogCall, wal_log_call, E.
  Qed.
  Lemma calls_unlink_wals : forall ids, Calls LogCall (unlink_all (map PWal ids)).
  Proof. intros. apply calls_prog, prog_unlink_wals. intros i _. exact I. Qed.
  Lemma calls_prune_below : forall b, Calls LogCall (prune_below b).
  Proof. intros. apply calls_prog, prog_prune_below. intros i _. exact I. Qed.
  Lemma calls_write_index : forall data, Calls LogCall (atomic_write PIndex PIndexTmp data).
  Proof. intros. apply calls_prog, prog_atomic_write; try intros b; exact I. Qed.
  Lemma calls_checkpoint_inner : forall reason m, Calls LogCall (checkpoint_inner cfg reason m).
  Proof.
    intros. apply calls_prog, prog_checkpoint_inner. intros c E.
    apply log_call_LogCall, load_log_call, E.
  Qed.
  Lemma calls_delete_blobs : forall hs, Calls LogCall (delete_blobs hs).
  Proof. intros. apply calls_prog, prog_delete_blobs. intros h _. exact I. Qed.
  Lemma calls_log_and_apply : forall m o, Calls LogCall (log_and_apply H cfg m o).
  Proof. intros. apply calls_prog, prog_log_and_apply, log_call_LogCall. Qed.
End CallsStore.

(* FR for the programs of the store *)
Section Progs.
  Variable n : nat.
  Variable T K : call -> Prop.
  (* the tail calls: a write to, and the removal of, a staging file *)
  Hypothesis TA : forall i b, T (CAppend (PStaging i) b).
  Hypothesis TU : forall i, T (CUnlink (PStaging i)).
  Variable H : bytes -> bytes.
  Variable cfg : config.

  Local Notation FR := (FR n T K).
  Local Notation FRS := (FRS n T K).
  Local Notation TL := (TL n T K).

  Lemma frs_call_err : forall c, FRS (do_call c) iserr.
  Proof. intros c. now apply frs_call. Qed.

  Lemma frs_call_any : forall c, FRS (do_call c) (fun _ => True).
  Proof. intros c. now apply frs_call. Qed.

  Lemma frs_mkdir_p : forall d, FRS (mkdir_p d) iserr.
  Proof.
    intros d. apply frs_bind_get_fs. intros s. apply frs_if; [apply frs_ret|apply frs_call_err].
  Qed.

  Lemma frs_mkdir_cas2 : forall a b, FRS (mkdir_cas2 a b) iserr.
  Proof.
    intros a b. apply frs_bind_err; [apply frs_mkdir_p|intros _; apply frs_mkdir_p|].
    intros e. now apply tl_ret.
  Qed.

  Lemma frs_new_staging : FRS new_staging iserr.
  Proof.
    apply frs_bind_get_fs. intros s. apply frs_bind_err; [apply frs_call_err|intros _; apply frs_ret|].
    intros e. now apply tl_ret.
  Qed.

  Lemma tl_drop_ret : forall {B} i (b : B) (Q : B -> Prop), Q b ->
    TL (do! _ <- drop_staging (PStaging i) ;; ret b) Q.
  Proof.
    intros B i b Q Qb. apply tl_bind; [|intros _; now apply tl_ret].
    apply tl_bind; [apply tl_call, TU|intros _; now apply tl_ret].
  Qed.

  Lemma frs_atomic_write : forall target tmp data, FRS (atomic_write target tmp data) iserr.
  Proof.
    intros target tmp data.
    apply frs_bind_err; [apply frs_call_err|intros _|intros e; now apply tl_ret].
    apply frs_bind_err; [|intros _|intros e; now apply tl_ret].
    { destruct data; [apply frs_ret|apply frs_call_err]. }
    apply frs_bind_err; [apply frs_call_err|intros _; apply frs_call_err|intros e; now apply tl_ret].
  Qed.

  Lemma frs_unlink_all : forall ps, FRS (unlink_all ps) iserr.
  Proof.
    induction ps as [|p ps IH]; cbn [unlink_all]; [apply frs_ret|].
    apply frs_bind_err; [apply frs_call_err|intros _; exact IH|intros e; now apply tl_ret].
  Qed.

  Lemma frs_prune_below : forall b, FRS (prune_below b) (fun _ => True).
  Proof.
    intros b. apply frs_bind_get_fs. intros s. apply (frs_fmap n T K _ _ iserr); [apply frs_unlink_all|auto].
  Qed.

  Lemma frs_checkpoint_inner : forall reason m, FRS (checkpoint_inner cfg reason m) (fun _ => True).
  Proof.
    intros reason m. unfold checkpoint_inner. cbv zeta. apply frs_if; [apply frs_ret|].
    apply frs_bind_err; [apply frs_atomic_write|intros _|intros e; now apply tl_ret].
    apply (frs_fmap n T K _ _ (fun _ => True)); [|auto].
    apply frs_if; [apply frs_ret|apply frs_prune_below].
  Qed.

  (* a failed unlink of a blob ends the loop unless the blob was absent: EIO ends it *)
  Lemma frs_delete_blobs : forall hs, FRS (delete_blobs hs) iserr.
  Proof.
    induction hs as [|h hs IH]; cbn [delete_blobs]; [apply frs_ret|].
    apply (frs_bind n T K _ _ (fun r => r = Err EIO)); [now apply frs_call| |].
    - intros [u|[| |]]; try exact IH; apply frs_ret.
    - intros a ->. now apply tailp_ret.
  Qed.

  Lemma frs_bw_flush : forall p buf, FRS (bw_flush p buf) (fun r => iserr (fst r)).
  Proof.
    intros p buf. destruct buf as [|x buf]; [apply frs_ret|].
    apply frs_bind_err; [apply frs_call_err|intros _; apply frs_ret|intros e; now apply tl_ret].
  Qed.

  Lemma frs_bw_write_all : forall p buf data, FRS (bw_write_all p buf data) (fun r => iserr (fst r)).
  Proof.
    intros p buf data. unfold bw_write_all. cbv zeta. apply frs_if; [apply frs_ret|].
    apply frs_bind_err2; [|intros _ b1|intros e y; now apply tl_ret].
    - apply frs_if; [apply frs_bw_flush|apply frs_ret].
    - apply frs_if; [|apply frs_ret]. apply (frs_fmap n T K _ _ iserr); [apply frs_call_err|auto].
  Qed.

  (* a failing WAL append or fdatasync: the operation stops there, there is no clean-up call *)
  Lemma frs_write_entry : forall seg buf ver payload,
    FRS (write_entry H seg buf ver payload) (fun r => iserr (fst r)).
  Proof.
    intros seg buf ver payload. unfold write_entry. cbv zeta.
    apply frs_bind_err2; [apply frs_bw_write_all|intros _ b|intros e y; now apply tl_ret].
    apply frs_bind_err2; [apply frs_bw_flush|intros _ b'|intros e y; now apply tl_ret].
    apply frs_bind_err; [apply frs_call_err|intros _; apply frs_ret|intros e; now apply tl_ret].
  Qed.

  (* SegmentWriter::close with a non-empty buffer: when the flush fails, the BufWriter's Drop
     retries it -- the retried call IS the next call of the fault-free run *)
  Lemma writer_close_cons_unfold : forall seg x b w0,
    writer_close seg (x :: b) w0 =
    let '(r, w1) := do_call (CAppend (PWal seg) (x :: b)) w0 in
    match r with
    | Ok _ => let '(r2, w2) := do_call (CSync (PWal seg)) w1 in
              (match r2 with Ok _ => Ok tt | Err _ => Err EWalIo end, w2)
    | Err _ => let '(_, w2) := do_call (CAppend (PWal seg) (x :: b)) w1 in (Err EWalIo, w2)
    end.
  Proof.
    intros seg x b w0. unfold writer_close, bw_flush, bind, ret.
    destruct (do_call (CAppend (PWal seg) (x :: b)) w0) as [[u|e] w1].
    - destruct (do_call (CSync (PWal seg)) w1) as [[u2|e2] w2]; reflexivity.
    - destruct (do_call (CAppend (PWal seg) (x :: b)) w1) as [[u2|e2] w2]; reflexivity.
  Qed.

  Lemma fr_writer_close_cons : forall seg x b, FR (writer_close seg (x :: b)) iserr.
  Proof.
    intros seg x b w F C.
    (* the two runs are computed aside, E0 the fault-free and Ef the faulted one *)
    pose proof (writer_close_cons_unfold seg x b w) as E0.
    pose proof (writer_close_cons_unfold seg x b (arm n w)) as Ef.
    set (c1 := CAppend (PWal seg) (x :: b)) in *. set (c2 := CSync (PWal seg)) in *.
    destruct (apply_call c1 (wfs w)) as [s1|e1] eqn:E1.
    2:{ (* the append fails by itself, also when retried: no call is counted *)
        rewrite (do_call_err c1 w e1 E1) in E0. rewrite (do_call_err c1 w e1 E1) in E0.
        rewrite (do_call_err c1 (arm n w) e1 E1) in Ef. rewrite (do_call_err c1 (arm n w) e1 E1) in Ef.
        rewrite E0, Ef. left. now split. }
    rewrite (do_call_ok c1 w s1 F E1) in E0.
    rewrite (do_call_some c1 (arm n w) n s1 E1 eq_refl) in Ef. cbn [arm wcount wfs wtrace] in Ef.
    set (w1 := mkWorld s1 (TCall c1 :: wtrace w) (S (wcount w)) None) in E0.
    (* in every case below the faulted run ends in s1, the state of the fault-free run after
       its first call *)
    assert (G : forall tr0 : list tev, firstn 1 (rev tr0) = [TCall c1] ->
               exists j, (j <= length tr0)%nat /\ forall I0 : fs -> Prop, keepsT T I0 ->
                 I0 (replay_calls (firstn j (rev tr0)) (wfs w)) -> I0 s1).
    { intros tr0 Fj. exists 1%nat. split.
      - destruct tr0 as [|e0 tr0]; [discriminate|]. apply le_n_S, Nat.le_0_l.
      - intros I0 _ X. rewrite Fj in X. cbn [replay_calls] in X. now rewrite E1 in X. }
    destruct (Nat.eqb_spec n (wcount w)) as [Q1|Q1].
    - (* the append is hit and the retry succeeds, whatever the fault-free run does next *)
      rewrite (do_call_some c1 (mkWorld _ _ _ _) n s1 E1 eq_refl) in Ef. cbn [wcount wfs wtrace] in Ef.
      rewrite (proj2 (Nat.eqb_neq n (S (wcount w)))) in Ef by (rewrite Q1; apply Nat.neq_succ_diag_r).
      pose proof (str_do_call c2 w1) as (_ & C2 & t2 & Et2 & _).
      destruct (do_call c2 w1) as [r2 w2]. cbn [snd w1 wcount wtrace] in C2, Et2.
      rewrite E0, Ef. right. cbn [fst snd wcount wfault wtrace wfs]. rewrite Q1.
      split; [exact C2|]. split; [apply le_S, le_n|]. split; [reflexivity|].
      exists c1, [TCall c1; TFault c1], (t2 ++ [TCall c1]).
      split; [reflexivity|]. split; [right; now left|].
      split; [rewrite Et2; now rewrite <- app_assoc|].
      intros _. split; [exact I|]. apply G. now rewrite rev_app_distr.
    - assert (C1 : (S (wcount w) <= n)%nat) by (apply Nat.le_neq; split; [exact C|auto]).
      set (wb := mkWorld s1 (TCall c1 :: wtrace w) (S (wcount w)) (Some n)) in Ef.
      destruct (apply_call c2 s1) as [s2|e2] eqn:E2.
      + rewrite (do_call_ok c2 w1 s2 eq_refl E2) in E0.
        rewrite (do_call_some c2 wb n s2 E2 eq_refl) in Ef. cbn [wb wcount wfs wtrace] in Ef.
        destruct (Nat.eqb_spec n (S (wcount w))) as [Q2|Q2]; rewrite E0, Ef.
        * (* the fdatasync is hit *)
          right. cbn [fst snd w1 wcount wfault wtrace wfs]. rewrite Q2.
          split; [apply le_n|]. split; [apply le_n|]. split; [reflexivity|].
          exists c2, [TFault c2; TCall c1], [TCall c2; TCall c1].
          split; [reflexivity|]. split; [now left|]. split; [reflexivity|].
          intros _. split; [exact I|]. apply G. reflexivity.
        * left. cbn [fst snd w1 wcount]. split; [|reflexivity].
          apply Nat.le_neq. split; [exact C1|auto].
      + rewrite (do_call_err c2 w1 e2 E2) in E0. rewrite (do_call_err c2 wb e2 E2) in Ef.
        rewrite E0, Ef. left. cbn [fst snd w1 wcount]. split; [exact C1|reflexivity].
  Qed.

  Lemma fr_writer_close_nil : forall seg, FR (writer_close seg []) iserr.
  Proof.
    intros seg. refine (proj2 (frs_bind_ret n T K (Ok tt, []) _ _ _)).
    apply frs_bind_err; [apply frs_call_err|intros _; apply frs_ret|intros e; now apply tl_ret].
  Qed.

  Lemma frs_writer_seal_nil : forall seg, FRS (writer_seal seg []) iserr.
  Proof.
    intros seg. split; [apply str_writer_seal|].
    change (writer_seal seg []) with (writer_close seg (0 :: repeat 0 43)). apply fr_writer_close_cons.
  Qed.

  (* hypothesis: the segment writer holds no bytes, as in a handle at rest (CrashInv.inv'_buf) *)
  Lemma frs_append_op : forall wl payload, (forall s b, writer wl = Some (s, b) -> b = []) ->
    FRS (append_op H cfg wl payload) (fun r => iserr (fst r)).
  Proof.
    intros wl payload Hb. unfold append_op. cbv zeta.
    assert (OPEN : forall (w2 w3 : wal),
      FRS (do! r <- do_call (COpenAppend (PWal (seg_of cfg (nextv wl)))) ;;
           match r with
           | Err _ => ret (Err EWalIo : res serr unit, w2)
           | Ok _ => ret (Ok tt, w3)
           end) (fun r => iserr (fst r))).
    { intros w2 w3.
      apply frs_bind_err; [apply frs_call_err|intros _; apply frs_ret|intros e; now apply tl_ret]. }
    apply frs_bind_err2; [|intros _ w2|intros e y; now apply tl_ret].
    - destruct (writer wl) as [[s b]|].
      + rewrite (Hb s b eq_refl). apply frs_if; [|apply frs_ret].
        apply frs_bind_err; [apply frs_writer_seal_nil|intros _; apply OPEN|intros e; now apply tl_ret].
      + apply frs_bind_ret, OPEN.
    - destruct (writer w2) as [[s b]|]; [|apply frs_ret].
      apply frs_bind_err2; [apply frs_write_entry|intros u b'; apply frs_ret|intros e b'; now apply tl_ret].
  Qed.

  Lemma frs_log_and_apply : forall m o, (forall s b, writer (mwal m) = Some (s, b) -> b = []) ->
    FRS (log_and_apply H cfg m o) (fun _ => True).
  Proof.
    intros m o Hb. unfold log_and_apply. cbv zeta.
    apply frs_bind_err2; [now apply frs_append_op|intros ver w'|intros e y; now apply tl_ret].
    destruct (apply_op (key_cmp (c_kt cfg)) (idx m) o) as [[i' unref]|e]; [|apply frs_ret].
    apply frs_bind_err; [apply frs_delete_blobs|intros _|intros e; now apply tl_ret].
    apply frs_if; [apply frs_checkpoint_inner|apply frs_ret].
  Qed.

  (* when every call of m is in K nothing is claimed of a fault inside m *)
  Lemma frs_all_K : forall {A} (m : M A) (Q' Q : A -> Prop), FRS m Q' -> Calls K m -> FRS m Q.
  Proof.
    intros A m Q' Q [Sm Hm] Cm. split; [exact Sm|]. apply (fr_conseq n T K m Q' Q Hm).
    intros w c tr' E1 I1 NK _. exfalso. apply NK. destruct (Cm (arm n w)) as (tr & Et & Fa).
    change (wtrace (arm n w)) with (wtrace w) in Et. rewrite E1 in Et.
    apply app_inv_tail in Et. subst tr. rewrite Forall_forall in Fa. exact (Fa _ I1).
  Qed.

  (* the API operations; P: what is claimed of the memory a faulted operation returns.
     With P := fun _ => True nothing, whatever the failing call; with P := eq m and
     K := LogCall: unchanged, when the failing call is not a LogCall *)
  Section Ops.
    Variable P : mem -> Prop.
    Variable m : mem.
    Hypothesis Pm : P m.
    Hypothesis HL : forall o, FRS (log_and_apply H cfg m o) (fun rm => P (snd rm)).
    Local Notation Qm := (fun rm : _ * mem => P (snd rm)).

    (* put and abort begin with the staging file *)
    Lemma frs_staged : forall (rest : path -> M (res serr unit * mem)),
      (forall i, FRS (rest (PStaging i)) Qm) ->
      FRS (do! rp <- new_staging ;; match rp with Err e => ret (Err e, m) | Ok p => rest p end) Qm.
    Proof.
      intros rest Hr.
      apply (frs_bind_on n T K) with
        (R := fun rp => match rp with Ok p => exists i, p = PStaging i | Err _ => True end)
        (Qm := iserr); [exact new_staging_shape|apply frs_new_staging| |].
      - intros [p|e] Rp; [|apply frs_ret]. destruct Rp as [i ->]. apply Hr.
      - intros [p|e] _ Qa; [destruct Qa|]. now apply tailp_ret.
    Qed.

    Lemma frs_put : forall k chunks, FRS (put H cfg m k chunks) Qm.
    Proof.
      intros k chunks. unfold put. cbv zeta. apply frs_staged. intros i.
      assert (Drop : forall e, TL (do! _ <- drop_staging (PStaging i) ;; ret (Err e : res serr unit, m)) Qm)
        by (intros e; now apply tl_drop_ret).
      apply frs_bind_err; [|intros _|intros _].
      { destruct (concat chunks); [apply frs_ret|apply frs_call_err]. }
      2:{ apply tl_bind; [|intros _; apply Drop].
          destruct (bw_sim 0 chunks); [now apply tl_ret|apply tl_call, TA]. }
      apply frs_bind_err; [apply frs_if; [apply frs_call_err|apply frs_ret]|intros _|intros _; apply Drop].
      apply frs_bind_err; [apply frs_if; [apply frs_ret|apply frs_mkdir_cas2]|intros _|intros _; apply Drop].
      apply frs_bind_err; [apply frs_call_err|intros _; apply HL|intros _; apply Drop].
    Qed.

    Lemma frs_abort : forall k chunks, FRS (abort m k chunks) Qm.
    Proof.
      intros k chunks. unfold abort. apply frs_staged. intros i.
      apply frs_bind_err; [apply frs_if; [apply frs_call_err|apply frs_ret]|intros _|].
      2:{ intros _. now apply tl_drop_ret. }
      (* the buffered bytes are flushed after the unlink: a tail whether or not the unlink failed *)
      apply (frs_bind_tl n T K _ _ (fun _ => True)); [apply frs_call_any|intros u].
      apply tl_bind; [|intros _; now apply tl_ret].
      destruct u; destruct (concat chunks); try (now apply tl_ret).
      destruct (bw_sim 0 chunks); [now apply tl_ret|apply tl_call, TA].
    Qed.

    Lemma frs_remove : forall k, FRS (remove H cfg m k) Qm.
    Proof.
      intros k. unfold remove.
      destruct (sm_get (key_cmp (c_kt cfg)) (km (idx m)) k); [|apply frs_ret].
      apply (frs_bind n T K _ _ Qm); [apply HL|intros [[u|e] m']; apply frs_ret|].
      intros [[u|e] m'] Pa; now apply tailp_ret.
    Qed.

    Lemma frs_remove_range : forall lo hi, FRS (remove_range H cfg m lo hi) Qm.
    Proof.
      intros lo hi. unfold remove_range. apply frs_if; [apply frs_ret|].
      destruct (keys_in_range cfg m lo hi) as [|k0 ks]; [apply frs_ret|].
      apply (frs_bind n T K _ _ Qm); [apply HL|intros [[u|e] m']; apply frs_ret|].
      intros [[u|e] m'] Pa; now apply tailp_ret.
    Qed.

    Lemma frs_step : forall os o, api_op cfg o -> FRS (checkpoint cfg m) Qm ->
      FRS (step H (Some (mkHandle cfg m os)) o)
          (fun r => exists m', snd r = Some (mkHandle cfg m' os) /\ P m').
    Proof.
      intros os o A HC.
      assert (Wrap : forall {X} (g : res serr X -> out) (op : M (res serr X * mem)), FRS op Qm ->
                FRS (do! r <- op ;; ret (g (fst r), Some (mkHandle cfg (snd r) os)))
                    (fun r => exists m', snd r = Some (mkHandle cfg m' os) /\ P m')).
      { intros X g op Hop. apply (frs_fmap n T K _ _ Qm); [exact Hop|].
        intros rm Prm. exists (snd rm). now split. }
      destruct o; cbn [StoreHist.api_op] in A; try contradiction;
        cbn [step h_cfg h_mem h_ostats]; try apply frs_ret;
        try (apply frs_bind_get_fs; intros s; apply frs_ret).
      - apply Wrap, frs_put.
      - apply Wrap, frs_abort.
      - apply Wrap, frs_remove.
      - apply Wrap, frs_remove_range.
      - apply Wrap, HC.
    Qed.
  End Ops.

  Lemma fr_step : forall m os o, (forall s b, writer (mwal m) = Some (s, b) -> b = []) ->
    api_op cfg o ->
    FR (step H (Some (mkHandle cfg m os)) o) (fun _ => True).
  Proof.
    intros m os o Hb A. eapply fr_weaken; [|apply (frs_step (fun _ => True) m I)]; auto.
    - intros ro. now apply frs_log_and_apply.
    - apply frs_checkpoint_inner.
  Qed.

  (* the memory a failed operation returns, when the failing call is not a LogCall *)
  Hypothesis KL : forall c, LogCall c -> K c.

  Lemma fr_step_same : forall m os o, (forall s b, writer (mwal m) = Some (s, b) -> b = []) ->
    api_op cfg o ->
    FR (step H (Some (mkHandle cfg m os)) o) (fun r => snd r = Some (mkHandle cfg m os)).
  Proof.
    intros m os o Hb A. eapply fr_weaken; [|apply (frs_step (eq m) m eq_refl)]; auto.
    - intros r (m' & E & <-). exact E.
    - intros ro. eapply frs_all_K; [now apply frs_log_and_apply|].
      eapply calls_weaken; [exact KL|apply calls_log_and_apply].
    - eapply frs_all_K; [apply frs_checkpoint_inner|].
      eapply calls_weaken; [exact KL|apply calls_checkpoint_inner].
  Qed.
End Progs.

(* the theorems *)
(* the known-finding class F4 (FaultWitness.v): an append to, or an fdatasync of, a WAL segment *)
Definition KnownClass (c : call) : Prop :=
  match c with CAppend (PWal _) _ | CSync (PWal _) => True | _ => False end.

(* the clean-up calls of the error paths: the retried flush into, and the removal of, the
   operation's own staging file *)
Definition StageTail (c : call) : Prop :=
  match c with CAppend (PStaging _) _ | CUnlink (PStaging _) => True | _ => False end.

(* benign faults: the failed operation touched nothing but its staging file and directories *)
Definition StageCall (c : call) : Prop :=
  match c with
  | CMkdir _ => True
  | CCreateExcl (PStaging _) | CAppend (PStaging _) _ | CSync (PStaging _) | CUnlink (PStaging _) => True
  | _ => False
  end.
Definition BlobRename (c : call) : Prop :=
  match c with CRename (PStaging _) (PCas _) => True | _ => False end.

Lemma log_not_benign : forall c, LogCall c -> StageCall c \/ BlobRename c -> False.
Proof.
  intros c L [S|S]; destruct c as [d|q|q|q|q b|q|a b|q]; cbn in *; try contradiction;
    try (destruct q; contradiction).
  destruct a; contradiction.
Qed.

(* x differs from s0 only in staging files and additional directories *)
Definition OffStaging (s0 x : fs) : Prop :=
  FsWf x /\ (forall d, In d (dirs s0) -> In d (dirs x)) /\
  forall q, ~ is_staging q -> fdat x q = fdat s0 q.

Lemma offstaging_call : forall s0 c x x', StageCall c -> OffStaging s0 x -> apply_call c x = Ok x' ->
  OffStaging s0 x'.
Proof.
  intros s0 c x x' Sc (W & Di & V) E. destruct (apply_call_view c x x' W E) as (W' & Di' & Vw).
  split; [exact W'|]. split; [auto|]. intros q Nq.
  assert (Ns : forall i, q <> PStaging i) by (intros i ->; apply Nq; exact I).
  destruct c as [d|p|p|p|p b|p|a b|p]; cbn [StageCall] in Sc; try contradiction;
    try (destruct p; try contradiction).
  - destruct Vw as [_ Vw]. rewrite Vw. now apply V.
  - destruct Vw as (_ & _ & _ & Vw). rewrite Vw, vset_other by apply Ns. now apply V.
  - destruct Vw as (_ & d & _ & Vw). rewrite Vw, vset_other by apply Ns. now apply V.
  - destruct Vw as [_ Vw]. rewrite Vw. now apply V.
  - destruct Vw as (_ & _ & Vw). rewrite Vw, vset_other by apply Ns. now apply V.
Qed.

Lemma offstaging_replay : forall s0 l x, (forall c, In (TCall c) l -> StageCall c) ->
  OffStaging s0 x -> OffStaging s0 (replay_calls l x).
Proof.
  intros s0. induction l as [|e l IH]; intros x Hl A; cbn [replay_calls]; [exact A|].
  assert (Hl' : forall c, In (TCall c) l -> StageCall c) by (intros c Ic; apply Hl; now right).
  destruct e as [c|c]; [|now apply IH].
  destruct (apply_call c x) as [x'|e] eqn:E; [|now apply IH].
  apply IH; [exact Hl'|]. eapply offstaging_call; [apply Hl; now left|exact A|exact E].
Qed.

Section Thm.
  Variable H : bytes -> bytes.
  Hypothesis H_len : forall b, length (H b) = 32%nat.
  Hypothesis H_byte : forall b, Forall (fun x => x < 256) (H b).
  Variable cfg : config.
  Hypothesis n_pos : 0 < c_n cfg.
  Let cmp := key_cmp (c_kt cfg).

  Local Notation DX L := (L H H_len H_byte cfg n_pos) (only parsing).
  Local Notation NoCollide := (NoCollide H).
  Local Notation Inv' := (Inv' H cfg).
  Local Notation Rest := (Rest H cfg).
  Local Notation RestD := (RestD H cfg).
  Local Notation LiveF := (LiveF H cfg).
  Local Notation spec_out := (spec_out H cfg).
  Local Notation api_op := (api_op cfg).
  Local Notation op_fits_at := (op_fits_at cfg).

  Lemma stage_tail_keeps : forall sg sg', keepsT StageTail (RestD sg sg').
  Proof.
    intros sg sg' c Tc. apply (restd_keeps H cfg);
      destruct c as [d|q|q|q|q b|q|a b|q]; cbn [StageTail] in Tc; try contradiction;
      destruct q; try contradiction; cbn [harmless]; right; try left; exact I.
  Qed.

  Lemma offstaging_inv' : forall m s0 x sg,
    Inv' m s0 sg -> OffStaging s0 x -> stage_fresh x -> Inv' m x sg.
  Proof.
    intros m s0 x sg (L & D & _) (W & Di & V) Sf.
    assert (Vf : forall q, ~ is_staging q -> fget s0 q <> None -> fget x q <> None).
    { intros q Nq G X. apply G, fdat_none. rewrite <- V by exact Nq. now apply fdat_none. }
    split; [|split; [|exact W]].
    - apply (Live0_transfer H cfg m s0 x sg L).
      + intros k c Ik. apply fdat_some. rewrite V by exact id. apply fdat_some.
        exact (lv_cas _ _ _ _ _ L k c Ik).
      + intros i Li. apply fdat_none. now apply Sf.
      + intros d Hd. apply has_dir_iff, Di, has_dir_iff, Hd.
      + intros i. apply Vf. exact id.
    - unfold CrashInv.DiskOk' in *. eapply (DiskOkW_ext H cfg); [| | |exact D];
        intros; apply V; exact id.
  Qed.

  (* ONE operation from a handle at rest (hypotheses of C03_crash_any_instant), run while its
     j-th effective filesystem call fails with EIO (j beyond the last call: no failure) *)
  Section OneOp.
    Variables (m : mem) (s : fs) (sg : smap bytes) (os : option ostats) (o : op) (w : world) (j : nat).
    Hypothesis IV : Inv' m s sg.
    Hypothesis Ws : wfs w = s.
    Hypothesis F : wfault w = None.
    Hypothesis A : api_op o.
    Hypothesis NC : NoCollide (op_contents o ++ map snd sg).
    Hypothesis Fit : op_fits_at sg o.
    Hypothesis Ln : N.of_nat (length sg) + 1 < 2 ^ 32.
    Hypothesis Lv : nextv (mwal m) < 2 ^ 64.

    Theorem fault_op_rest :
      let w' := snd (step H (Some (mkHandle cfg m os)) o (arm (wcount w + j) w)) in
      Rest (wfs w') sg \/ Rest (wfs w') (spec_step cmp sg o).
    Proof.
      cbv zeta.
      destruct (DX step_walk m s sg os o w IV Ws F A NC Fit Ln Lv) as (m1 & w1 & E1 & F1 & IV1 & _ & K).
      pose proof (fr_step (wcount w + j) StageTail (fun _ => False)
                    (fun i b => I) (fun i => I) H cfg m os o (inv'_buf H cfg _ _ _ IV) A w F) as X.
      rewrite E1 in X. cbn [fst snd] in X.
      destruct X as [(_ & Er)|(_ & _ & _ & c & tr' & tr0 & _ & _ & Et0 & X)]; [apply Nat.le_add_r| |].
      - rewrite Er. cbn [snd arm wfs]. right. exact (DX rest_of_inv' _ _ _ IV1).
      - destruct (X (fun f => f)) as (_ & j' & Lj & J).
        apply (J (RestD sg (spec_step cmp sg o)) (stage_tail_keeps _ _)).
        destruct K as (_ & tr & Et & _ & Al). rewrite Et in Et0. apply app_inv_tail in Et0. subst tr0.
        apply (restdb_rest H cfg (nextv (mwal m) + 1)). now apply Al.
    Qed.

    (* C14, the reopen clause, for ONE operation and EVERY position of the fault.  The operation
       returns, never with a panic; in memory the handle is consistent with the old or the new
       map (LiveF, FaultHist.step_fault); the filesystem satisfies Rest for the old or the
       new map; a fresh open_with_recover on it succeeds and yields a handle satisfying Inv' for
       that map.  Note: no hypothesis on the failing call -- see the remark at the corollary
       below. *)
    Theorem C14_reopen_after_any_single_fault_op :
      let '((x, hd'), w') := step H (Some (mkHandle cfg m os)) o (arm (wcount w + j) w) in
      x <> OutErr EPanic /\
      (exists m', hd' = Some (mkHandle cfg m' os) /\
                  (LiveF m' (wfs w') sg \/ LiveF m' (wfs w') (spec_step cmp sg o))) /\
      (Rest (wfs w') sg \/ Rest (wfs w') (spec_step cmp sg o)) /\
      exists m2 os2 w2,
        open_with_recover H cfg (init_world (wfs w') None) = (Ok (m2, os2), w2) /\
        (Inv' m2 (wfs w2) sg \/ Inv' m2 (wfs w2) (spec_step cmp sg o)).
    Proof.
      pose proof fault_op_rest as R. cbv zeta in R.
      assert (LF : LiveF m (wfs (arm (wcount w + j) w)) sg).
      { cbn [arm wfs]. rewrite Ws. apply Live0_LiveF, IV. }
      pose proof (step_fault H H_len H_byte cfg n_pos m sg os o (arm (wcount w + j) w) LF A NC) as S.
      destruct (step H (Some (mkHandle cfg m os)) o (arm (wcount w + j) w)) as [[x hd'] w'].
      cbn [snd] in R. destruct S as (m' & sg1 & Eh & St & L1).
      split; [|split; [|split; [exact R|]]].
      - exact (StepTo_no_panic H cfg _ _ _ _ St).
      - exists m'. split; [exact Eh|].
        destruct (StepTo_maps H cfg _ _ _ _ St) as [->| ->]; [now left|now right].
      - assert (Op : forall sgx, Rest (wfs w') sgx ->
                  exists m2 os2 w2,
                    open_with_recover H cfg (init_world (wfs w') None) = (Ok (m2, os2), w2) /\
                    Inv' m2 (wfs w2) sgx).
        { intros sgx Rx.
          destruct (DX rest_open (wfs w') sgx (init_world (wfs w') None) Rx eq_refl eq_refl)
            as (m2 & os2 & w2 & Eo & _ & L2 & D2 & W2 & _).
          exists m2, os2, w2. split; [exact Eo|]. split; [exact L2|]. split; [exact D2|exact W2]. }
        destruct R as [R|R]; destruct (Op _ R) as (m2 & os2 & w2 & Eo & IV2);
          exists m2, os2, w2; (split; [exact Eo|]); [now left|now right].
    Qed.

    (* If the failed operation touched nothing but its own staging file and directories (every
       effective call of the faulted run is a StageCall) and the failing call is such a call or
       the rename of the staged blob into cas/ -- i.e. a put / abort that fails before its blob
       is published -- then the handle is EXACTLY as before in memory and satisfies the full
       handle invariant Inv' for the old map on the filesystem left behind.  (Second alternative:
       the fault did not strike inside the operation, which completed as specified.) *)
    Theorem C14_benign_fault_keeps_invariant :
      let '((x, hd'), w') := step H (Some (mkHandle cfg m os)) o (arm (wcount w + j) w) in
      (forall c, In (TCall c) (new_trace w w') -> StageCall c) ->
      (forall c, In (TFault c) (new_trace w w') -> StageCall c \/ BlobRename c) ->
      (hd' = Some (mkHandle cfg m os) /\ Inv' m (wfs w') sg)
      \/ (x = spec_out sg o /\
          exists m', hd' = Some (mkHandle cfg m' os) /\ Inv' m' (wfs w') (spec_step cmp sg o) /\
                     nextv (mwal m') <= nextv (mwal m) + 1).
    Proof.
      destruct (DX step_walk m s sg os o w IV Ws F A NC Fit Ln Lv) as (m1 & w1 & E1 & F1 & IV1 & Nv1 & K).
      pose proof (fr_step_same (wcount w + j) StageTail LogCall
                    (fun i b => I) (fun i => I) H cfg (fun c L => L) m os o
                    (inv'_buf H cfg _ _ _ IV) A w F) as X.
      pose proof fault_op_rest as R. cbv zeta in R.
      pose proof (str_step H (Some (mkHandle cfg m os)) o (arm (wcount w + j) w)) as (_ & _ & tr & Et & Rp).
      rewrite E1 in X. cbn [fst snd] in X.
      destruct X as [(_ & Er)|(_ & _ & _ & c & tr' & tr0 & Et' & Ic & _ & X)]; [apply Nat.le_add_r| |].
      - rewrite Er. intros _ _. right. split; [reflexivity|]. exists m1. split; [reflexivity|].
        split; [exact IV1|exact Nv1].
      - destruct (step H (Some (mkHandle cfg m os)) o (arm (wcount w + j) w)) as [[x hd'] w'].
        cbn [fst snd] in *. intros HG1 HG2. rewrite (new_trace_app w w' tr' Et') in HG1, HG2.
        left. change (wtrace (arm (wcount w + j) w)) with (wtrace w) in Et.
        change (wfs (arm (wcount w + j) w)) with (wfs w) in Rp.
        rewrite Et' in Et. apply app_inv_tail in Et. subst tr.
        assert (NL : ~ LogCall c) by (intros L; exact (log_not_benign c L (HG2 c Ic))).
        destruct (X NL) as (Q & _). split; [exact Q|].
        assert (Ag : OffStaging s (wfs w')).
        { rewrite <- Rp, Ws. apply offstaging_replay.
          - intros c0 I0. apply HG1. now apply in_rev.
          - destruct IV as (_ & _ & W0). split; [exact W0|]. split; auto. }
        apply (offstaging_inv' m s (wfs w') sg IV Ag).
        destruct R as [R|R]; exact (rest_fresh H cfg _ _ R).
    Qed.
  End OneOp.

  (* The property as C14 words it: the failing call is outside the known class.  It is a corollary
     of C14_reopen_after_any_single_fault_op, which needs no such hypothesis: for ONE operation
     followed directly by the reopen, the clause also holds when the failing call IS a WAL
     append / fdatasync (the record is then only in the writer's buffer -- the disk shows the
     old map -- or already in the segment file -- the disk shows the new map).  The known
     finding F4 needs a LATER operation of the same process that reclaims the blob the stale
     record names (FaultWitness.C14_refuted_on_known_class; restated at the end of this file). *)
  Theorem C14_reopen_after_fault_outside_known_class_op : forall m s sg os o w j,
    Inv' m s sg -> wfs w = s -> wfault w = None -> api_op o ->
    NoCollide (op_contents o ++ map snd sg) -> op_fits_at sg o ->
    N.of_nat (length sg) + 1 < 2 ^ 32 -> nextv (mwal m) < 2 ^ 64 ->
    let '((x, hd'), w') := step H (Some (mkHandle cfg m os)) o (arm (wcount w + j) w) in
    (forall c, In (TFault c) (new_trace w w') -> ~ KnownClass c) ->
    x <> OutErr EPanic /\
    (exists m', hd' = Some (mkHandle cfg m' os) /\
                (LiveF m' (wfs w') sg \/ LiveF m' (wfs w') (spec_step cmp sg o))) /\
    (Rest (wfs w') sg \/ Rest (wfs w') (spec_step cmp sg o)) /\
    exists m2 os2 w2,
      open_with_recover H cfg (init_world (wfs w') None) = (Ok (m2, os2), w2) /\
      (Inv' m2 (wfs w2) sg \/ Inv' m2 (wfs w2) (spec_step cmp sg o)).
  Proof.
    intros m s sg os o w j IV Ws F A NC Fit Ln Lv.
    pose proof (C14_reopen_after_any_single_fault_op m s sg os o w j IV Ws F A NC Fit Ln Lv) as X.
    destruct (step H (Some (mkHandle cfg m os)) o (arm (wcount w + j) w)) as [[x hd'] w'].
    intros _. exact X.
  Qed.

  (* hence any further history -- operations, restarts, crashes at any instant, crashes during
     recovery (CrashHist.ev) -- run from there (the single fault of the plan is spent: the world
     is fault-free again, [disarm]) ends in a handle satisfying Inv' for a map allowed by the
     history, starting from the old map or from the operation's result *)
  Definition disarm (w : world) : world := mkWorld (wfs w) (wtrace w) (wcount w) None.

  Theorem C14_history_after_benign_fault : forall m s sg os o w j (h : list ev),
    Inv' m s sg -> wfs w = s -> wfault w = None -> api_op o ->
    NoCollide (flat_map ev_contents h ++ op_contents o ++ map snd sg) -> op_fits_at sg o ->
    ext_fits cfg sg h -> ext_fits cfg (spec_step cmp sg o) h ->
    N.of_nat (length sg) + 1 + N.of_nat (length h) < 2 ^ 32 ->
    N.of_nat (length (spec_step cmp sg o)) + N.of_nat (length h) < 2 ^ 32 ->
    nextv (mwal m) + 1 + N.of_nat (length h) <= 2 ^ 32 ->
    let '((x, hd'), w') := step H (Some (mkHandle cfg m os)) o (arm (wcount w + j) w) in
    (forall c, In (TCall c) (new_trace w w') -> StageCall c) ->
    (forall c, In (TFault c) (new_trace w w') -> StageCall c \/ BlobRename c) ->
    exists hd1, hd' = Some hd1 /\
    exists hd2 w2,
      run_ext H cfg (hd1, disarm w') h = Some (hd2, w2) /\ h_cfg hd2 = cfg /\
      exists sgf, (allowed cfg sg h sgf \/ allowed cfg (spec_step cmp sg o) h sgf) /\
                  Inv' (h_mem hd2) (wfs w2) sgf.
  Proof.
    intros m s sg os o w j h IV Ws F A NC Fit Fh Fh' Ln Ln' Lv.
    assert (NCo : NoCollide (op_contents o ++ map snd sg))
      by exact (NoCollide_incl H _ _ (incl_appr _ (incl_refl _)) NC).
    assert (Lv0 : nextv (mwal m) < 2 ^ 64) by (clear - Lv; pow_consts; lia).
    assert (Ln0 : N.of_nat (length sg) + 1 < 2 ^ 32) by (clear - Ln; lia).
    pose proof (C14_benign_fault_keeps_invariant m s sg os o w j IV Ws F A NCo Fit Ln0 Lv0) as X.
    destruct (step H (Some (mkHandle cfg m os)) o (arm (wcount w + j) w)) as [[x hd'] w'].
    intros HG1 HG2. specialize (X HG1 HG2).
    (* the rest of the history, from the old map or from the new one *)
    assert (Go : forall sgx m', Inv' m' (wfs w') sgx ->
              incl (map snd sgx) (op_contents o ++ map snd sg) -> ext_fits cfg sgx h ->
              N.of_nat (length sgx) + N.of_nat (length h) < 2 ^ 32 ->
              nextv (mwal m') <= nextv (mwal m) + 1 ->
              exists hd2 w2,
                run_ext H cfg (mkHandle cfg m' os, disarm w') h = Some (hd2, w2) /\ h_cfg hd2 = cfg /\
                exists sgf, allowed cfg sgx h sgf /\ Inv' (h_mem hd2) (wfs w2) sgf).
    { intros sgx m' IV' Sub Fx Lx Nx.
      destruct (DX run_ext_ok h m' os (disarm w') sgx IV' eq_refl)
        as (hd2 & w2 & E & C & _ & sgf & Al & IV2); [|exact Fx|exact Lx|clear - Nx Lv; lia|].
      - exact (NoCollide_incl H _ _ (incl_app (incl_appl _ (incl_refl _)) (incl_appr _ Sub)) NC).
      - exists hd2, w2. split; [exact E|]. split; [exact C|]. exists sgf. split; [exact Al|exact IV2]. }
    destruct X as [(-> & IV')|(_ & m' & -> & IV' & Nv')]; (eexists; split; [reflexivity|]).
    - destruct (Go sg m IV') as (hd2 & w2 & E & C & sgf & Al & IV2);
        [apply incl_appr, incl_refl|exact Fh|clear - Ln; lia|apply N.le_add_r|].
      exists hd2, w2. split; [exact E|]. split; [exact C|]. exists sgf. split; [now left|exact IV2].
    - destruct (Go _ m' IV') as (hd2 & w2 & E & C & sgf & Al & IV2);
        [intros y Iy; apply in_or_app; now apply (spec_step_contents cfg)|exact Fh'|exact Ln'|exact Nv'|].
      exists hd2, w2. split; [exact E|]. split; [exact C|]. exists sgf. split; [now right|exact IV2].
  Qed.
End Thm.

(* computed instances (toy hash), next to the known refutation *)
(* the injected fault hit a call satisfying f *)
Definition fault_hits (f : call -> bool) (w : world) : Prop :=
  existsb (fun e => match e with TFault c => f c | _ => false end) (wtrace w) = true.
(* the open's statistics are irrelevant here *)
Definition noos (o : out) : out := match o with OutOpened _ => OutOpened None | x => x end.

Definition cY : bytes := [20; 21].
(* num_ops_per_wal = 2: the third put rolls the segment over and checkpoints *)
Definition cfg2 : config := mkConfig KBytes 2 true false true false true.
Definition k1 : bytes := [1].
Definition k2 : bytes := [2].
Definition k3 : bytes := [3].
Definition d1 : bytes := [10].
Definition d2 : bytes := [20; 21].
Definition d3 : bytes := [30; 31; 32].
Definition opsR : list op :=
  [OpOpen cfgK false; OpPut kB [cX]; OpPut kA [cY]; OpGet kA; OpClose; OpOpen cfgK true;
   OpGet kA; OpGet kB].
Definition ops2 : list op :=
  [OpOpen cfg2 false; OpPut k1 [d1]; OpPut k2 [d2]; OpPut k3 [d3]; OpGet k3; OpClose;
   OpOpen cfg2 true; OpGet k3; OpGet k1].

(* The fault indices below are positions in the fault-free runs (read off wtrace; the effective
   calls are counted from 0; 0-8 are the first open, 9-17 the first put).  In opsR the blob of
   put kA is staged by 18-20, 21-22 make its two directories, 23 renames it into cas/, 24 appends
   the record, 25 is the fdatasync.  In ops2 the third put stages and renames by 26-31; then 32
   appends the end marker to the full wal/0, 33 syncs it, 34 opens wal/1, 35-36 write the record,
   37 creates index.tmp. *)

(* (a) EIO at the rename of the staged blob into cas/: put kA fails (EMoveStaged); the reopen
   (with the integrity gate) succeeds and shows the OLD map: kA absent, kB intact *)
Example reopen_after_fault_at_blob_rename :
  let r := run_hist toyH empty_fs (Some 23%nat) opsR in
  fault_hits (fun c => match c with CRename (PStaging _) (PCas _) => true | _ => false end) (world_of r) /\
  map noos (outs_of r)
  = [OutOpened None; OutUnit; OutErr EMoveStaged; OutBytes None; OutUnit; OutOpened None;
     OutBytes None; OutBytes (Some cX)].
Proof. vm_compute. split; reflexivity. Qed.

(* (a') the same fault seen as ONE faulted operation on the handle left by the first two
   operations: the hypotheses of C14_benign_fault_keeps_invariant hold (every effective call of
   the failed put is a StageCall, the failing call -- its sixth -- is the rename of the staged
   blob); stage_callb and blob_renameb are StageCall and BlobRename as booleans *)
Definition stage_callb (c : call) : bool :=
  match c with
  | CMkdir _ => true
  | CCreateExcl (PStaging _) | CAppend (PStaging _) _ | CSync (PStaging _) | CUnlink (PStaging _) => true
  | _ => false
  end.
Definition blob_renameb (c : call) : bool :=
  match c with CRename (PStaging _) (PCas _) => true | _ => false end.

Example benign_fault_instance :
  let '(r, w) := run_ops toyH None [OpOpen cfgK false; OpPut kB [cX]] (init_world empty_fs None) in
  match snd r with
  | Some hd =>
    let '((x, hd'), w') := step toyH (Some hd) (OpPut kA [cY]) (arm (wcount w + 5) w) in
    x = OutErr EMoveStaged /\
    forallb (fun e => match e with
                      | TCall c => stage_callb c
                      | TFault c => stage_callb c || blob_renameb c
                      end) (new_trace w w') = true /\
    existsb (fun e => match e with TFault c => blob_renameb c | _ => false end) (new_trace w w') = true
  | None => False
  end.
Proof. vm_compute. repeat split; reflexivity. Qed.

(* (b) EIO at the creation of index.tmp in the roll-over checkpoint of the third put: the put
   reports EIndexWrite although its record is durable; the reopen succeeds and shows the NEW map *)
Example reopen_after_fault_at_index_tmp :
  let r := run_hist toyH empty_fs (Some 37%nat) ops2 in
  fault_hits (fun c => match c with CCreate PIndexTmp => true | _ => false end) (world_of r) /\
  map noos (outs_of r)
  = [OutOpened None; OutUnit; OutUnit; OutErr EIndexWrite; OutBytes (Some d3); OutUnit;
     OutOpened None; OutBytes (Some d3); OutBytes (Some d1)].
Proof. vm_compute. split; reflexivity. Qed.

(* (c) the calls on WAL files that are NOT record appends: EIO at the append of the end marker
   when the full segment is sealed (the BufWriter's drop retries it), at the fdatasync of the
   sealed segment, at the creation of the next segment file.  The put fails (EWalIo), the
   reopen succeeds and shows the OLD map.  (KnownClass, being a predicate on the call alone,
   contains the first two; they are harmless for the reopen.) *)
Example reopen_after_fault_at_seal :
  forall n, In n [32%nat; 33%nat; 34%nat] ->
  let r := run_hist toyH empty_fs (Some n) ops2 in
  fault_hits (fun c => match c with
                       | CAppend (PWal 0) _ | CSync (PWal 0) | COpenAppend (PWal 1) => true
                       | _ => false end) (world_of r) /\
  map noos (outs_of r)
  = [OutOpened None; OutUnit; OutUnit; OutErr EWalIo; OutBytes None; OutUnit;
     OutOpened None; OutBytes None; OutBytes (Some d1)].
Proof.
  intros n [<-|[<-|[<-|[]]]]; vm_compute; split; reflexivity.
Qed.

(* (d) INSIDE the known class, one operation only: EIO at the append of the record of put kA.
   Reopening at once (the process is gone, the record was only in its buffer) shows the old map;
   closing first flushes the stale record and the reopen shows the new map.  Both succeed:
   the single-operation theorem needs no hypothesis on the failing call. *)
Example reopen_after_wal_append_fault_single_op :
  let r1 := run_hist toyH empty_fs (Some 24%nat)
              [OpOpen cfgK false; OpPut kB [cX]; OpPut kA [cY]; OpOpen cfgK true; OpGet kA; OpGet kB] in
  let r2 := run_hist toyH empty_fs (Some 24%nat)
              [OpOpen cfgK false; OpPut kB [cX]; OpPut kA [cY]; OpClose; OpOpen cfgK true; OpGet kA; OpGet kB] in
  fault_hits_wal_append (world_of r1) /\ fault_hits_wal_append (world_of r2) /\
  map noos (outs_of r1)
  = [OutOpened None; OutUnit; OutErr EWalIo; OutOpened None; OutBytes None; OutBytes (Some cX)] /\
  map noos (outs_of r2)
  = [OutOpened None; OutUnit; OutErr EWalIo; OutUnit; OutOpened None; OutBytes (Some cY);
     OutBytes (Some cX)].
Proof. vm_compute. repeat split; reflexivity. Qed.

(* (e) the known refutation, restated (FaultWitness.v): inside the class, with ONE MORE operation
   of the same process after the failed one (remove kB reclaims the blob the stale record
   names), the reopen fails *)
Theorem C14_reopen_refuted_inside_known_class :
  exists (n : nat) (ops : list op),
    let r := run_hist toyH empty_fs (Some n) ops in
    fault_hits_wal_append (world_of r) /\ last (outs_of r) OutUnit = OutErr EIntegrity.
Proof. exact FaultWitness.C14_refuted_on_known_class. Qed.

Print Assumptions fr_bind.
Print Assumptions fr_writer_close_cons.
Print Assumptions fr_step.
Print Assumptions fault_op_rest.
Print Assumptions C14_reopen_after_any_single_fault_op.
Print Assumptions C14_reopen_after_fault_outside_known_class_op.
Print Assumptions C14_benign_fault_keeps_invariant.
Print Assumptions C14_history_after_benign_fault.
Print Assumptions reopen_after_fault_at_blob_rename.
Print Assumptions benign_fault_instance.
Print Assumptions reopen_after_fault_at_index_tmp.
Print Assumptions reopen_after_fault_at_seal.
Print Assumptions reopen_after_wal_append_fault_single_op.
Print Assumptions C14_reopen_refuted_inside_known_class.
