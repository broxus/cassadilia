(* ConcReads.v -- C05, consequences of the invariant for the single steps of the read path.

   with_blob_item, the read path Conc.v models, looks the key up again when the blob of the item
   it first found is missing, and opens the blob of the CURRENT item while it holds the state
   lock shared (pc GOpenL).  A re-read that dropped the lock and compared the item with the stale
   one would report BlobDataMissing after a delete-then-reput of the same content although no
   data was lost (the ABA race); with the lock kept, ConcProofs.C05_read_never_fails needs no side
   condition on the programs (ConcExamples.C05_aba_now_returns_content runs the schedule of the
   race).

     C05_no_step_reports_missing   no step of a reachable state appends CMissing
     C05_retry_is_one_round        the step of a reader parked at GOpenL always finishes the
                                   call, with the content (or with CErr when the path of the
                                   current item is obstructed): no edge leads back from the retry
     C05_get_result_shape          a KGet that is past its lookup returns only CBytes results,
                                   or the I/O error CErr when the blob path is obstructed
     C05_range_result_shape        the same for a KGetRange, whose retry may also answer
                                   InvalidRange (CInvalid) from the current item

   All four hold for arbitrary fault parameters bad / ckbad. *)
From Cas Require Import SMap Index Conc.
From CasProofs Require Import SMapProofs IndexProofs ConcInv ConcProofs.
From Coq Require Import List NArith Lia Bool Arith.
Import ListNotations.

Section Reads.
  Variable H : bytes -> bytes.
  Variable cmp : bytes -> bytes -> comparison.
  Hypothesis cmp_refl : forall a, cmp a a = Eq.
  Hypothesis cmp_eq : forall a b, cmp a b = Eq -> a = b.
  Hypothesis cmp_antisym : forall a b, cmp b a = CompOpp (cmp a b).
  Hypothesis cmp_trans : forall a b c, cmp a b = Lt -> cmp b c = Lt -> cmp a c = Lt.
  Variable nops : N.
  Variable bad : bytes -> bool.
  Variable ckbad : bool.
  Variable thr0 : list (nat * list ccall).
  Hypothesis thr0_nodup : NoDup (map fst thr0).
  Variable cas0 : smap bytes.
  Hypothesis cas0_sorted : sorted lex_cmp cas0.
  Hypothesis cas0_named : forall h c, In (h, c) cas0 -> H c = h.
  Hypothesis NoCollideC :
    forall a b, In a (allc thr0 cas0) -> In b (allc thr0 cas0) -> H a = H b -> a = b.
  Collection Setting :=
    cmp_refl cmp_eq cmp_antisym cmp_trans thr0_nodup cas0_sorted cas0_named NoCollideC.

  Local Notation Reach := (reachable H cmp nops bad ckbad thr0 cas0).
  Local Notation step := (cstep H cmp nops bad ckbad).
  Local Notation at_setting L :=
    (L H cmp cmp_refl cmp_eq cmp_antisym cmp_trans nops bad ckbad thr0 thr0_nodup cas0 cas0_sorted
       cas0_named NoCollideC) (only parsing).

  Theorem C05_no_step_reports_missing g t ts g' ts' : Reach g ->
    tget (g_thr g) t = Some ts -> step g t = Some g' -> tget (g_thr g') t = Some ts' ->
    t_res ts' <> t_res ts ++ [CMissing].
  Proof using Setting.
    intros R Ht St Ht' E.
    apply (at_setting C05_read_never_fails g' (reachable_step _ _ _ _ _ _ _ _ _ _ R St) t ts' Ht').
    rewrite E. apply in_elt.
  Qed.

  (* the step of a reader parked at GOpenL: it releases the shared lock and returns the
     content of the CURRENT item of the key -- the whole blob for a get, the requested slice of
     it for a get_range: [read_result md it c] -- (CErr if the path of that item is obstructed) *)
  Theorem C05_retry_is_one_round g t ts k it md : Reach g ->
    tget (g_thr g) t = Some ts -> t_pc ts = GOpenL k it md ->
    exists c g', step g t = Some g' /\
      sm_get cmp (km (g_idx g)) k = Some it /\
      sm_get lex_cmp (g_cas g) (ihash it) = Some c /\ H c = ihash it /\ len c = isize it /\
      tget (g_thr g') t =
        Some (mkT (t_calls ts) Idle
                  (t_res ts ++ [if bad (ihash it) then CErr else read_result md it c])) /\
      ~ In t (g_R g').
  Proof using Setting.
    intros R Ht Hpc.
    destruct (at_setting C05_retry_sees_current g t ts k it md R Ht Hpc)
      as (_ & _ & Gk & c & Gc & Hh & Hl).
    exists c. pose proof (cstep_cases H cmp nops bad ckbad g t ts Ht) as C. rewrite Hpc in C.
    destruct (step g t) as [g'|]; [|destruct C].
    destruct C as (p' & cs' & out & sh & E & ->). eexists. split; [reflexivity|].
    do 4 (split; [assumption|]).
    (* the three rules of GOpenL; the blob is there, so the third does not apply *)
    assert (X : p' = Idle /\ cs' = t_calls ts /\
                out = Some (if bad (ihash it) then CErr else read_result md it c) /\
                g_R sh = filter (fun u => negb (Nat.eqb u t)) (g_R g)).
    { remember (GOpenL k it md) as p eqn:Ep.
      destruct E; try discriminate Ep; injection Ep as -> -> ->; rewrite Bd; [repeat split| |congruence].
      rewrite Gc in Gc0. injection Gc0 as <-. repeat split. }
    destruct X as (-> & -> & -> & ER). cbn [set_thr g_thr g_R emit]. rewrite ER.
    split; [apply tget_tset_same|].
    intros I. apply filter_In in I. destruct I as [_ I]. rewrite Nat.eqb_refl in I. discriminate.
  Qed.

  (* the results of the steps of a read, by its mode: the error, or what the mode answers with
     (that a get_size never gets as far as opening the blob is not needed here) *)
  Lemma read_step_result g t ts g' ts' r md : Reach g ->
    tget (g_thr g) t = Some ts -> step g t = Some g' -> tget (g_thr g') t = Some ts' ->
    t_res ts' = t_res ts ++ [r] -> pc_mode (t_pc ts) = Some md ->
    r = CErr \/
    match md with
    | MFull => exists o, r = CBytes o
    | MSize => (exists o, r = CSize o) \/ exists o, r = CBytes o
    | MRange _ _ => (exists o, r = CBytes o) \/ r = CInvalid
    end.
  Proof using Setting.
    intros R Ht St Ht' Hres M.
    pose proof (C05_no_step_reports_missing g t ts g' ts' R Ht St Ht') as NM.
    destruct (cstep_edge Ht St Ht') as (out & sh & E & Hres' & _).
    assert (X : out = Some r) by (apply emit_snoc with (res := t_res ts); congruence).
    destruct (edge_read_result H cmp nops bad ckbad _ _ _ _ _ _ _ _ _ _ E M X)
      as [->|[(it & Po)|[(it & c & ->)|F]]].
    - right. destruct md; [|left|left]; eexists; reflexivity.
    - right. destruct md as [| |a b]; cbn [pre_open] in Po; [discriminate Po| |].
      + injection Po as <-. left. eexists. reflexivity.
      + destruct (isize it <=? a)%N; [injection Po as <-; left; eexists; reflexivity|].
        destruct (N.min b (isize it) <? a)%N; [injection Po as <-; right; reflexivity|discriminate Po].
    - right. destruct md; [|right|left]; eexists; reflexivity.
    - destruct r; try discriminate F; [|left; reflexivity]. destruct (NM Hres).
  Qed.

  (* results produced by the read pcs of a KGet (mode MFull) are CBytes results or CErr *)
  Theorem C05_get_result_shape g t ts g' ts' r : Reach g ->
    tget (g_thr g) t = Some ts -> step g t = Some g' -> tget (g_thr g') t = Some ts' ->
    t_res ts' = t_res ts ++ [r] ->
    (exists k it, t_pc ts = GOpen k it MFull \/ t_pc ts = GReread k it MFull \/
                  t_pc ts = GOpenL k it MFull) ->
    (exists o, r = CBytes o) \/ r = CErr.
  Proof using Setting.
    intros R Ht St Ht' Hres (k & it & Hp).
    destruct (read_step_result g t ts g' ts' r MFull R Ht St Ht' Hres) as [E|E]; auto.
    destruct Hp as [->|[->| ->]]; reflexivity.
  Qed.

  (* the same for a KGetRange (mode MRange a b); the retry may also take the invalid-range
     exit, decided from the CURRENT item of the key *)
  Theorem C05_range_result_shape g t ts g' ts' r a b : Reach g ->
    tget (g_thr g) t = Some ts -> step g t = Some g' -> tget (g_thr g') t = Some ts' ->
    t_res ts' = t_res ts ++ [r] ->
    (exists k it, t_pc ts = GOpen k it (MRange a b) \/ t_pc ts = GReread k it (MRange a b) \/
                  t_pc ts = GOpenL k it (MRange a b)) ->
    (exists o, r = CBytes o) \/ r = CErr \/ r = CInvalid.
  Proof using Setting.
    intros R Ht St Ht' Hres (k & it & Hp).
    destruct (read_step_result g t ts g' ts' r (MRange a b) R Ht St Ht' Hres) as [E|[E|E]]; auto.
    destruct Hp as [->|[->| ->]]; reflexivity.
  Qed.
End Reads.

Print Assumptions C05_no_step_reports_missing.
Print Assumptions C05_retry_is_one_round.
Print Assumptions C05_get_result_shape.
Print Assumptions C05_range_result_shape.
