(* ConcSeq.v -- the concurrent model theories/Conc.v restricted to ONE thread is the sequential
   specification: a plain ordered map from key to byte string (History.spec_step,
   StoreHist.spec_out / spec_outs), in the vocabulary of the sequential development
   (sm_ins / sm_del / in_range, StoreInv.km_of / item_of).

   The specification  cspec : smap bytes -> ccall -> smap bytes * cres  gives every call of the
   concurrent model its ordered-map meaning on a key -> CONTENT map; cspec_outs / cspec_final
   fold it over a program (the analogues of spec_outs / fold of spec_step).

   Completion and determinism: single_thread_runs_to_completion (any fault parameters, any
       well-named initial blob directory): one thread t running the program cs
         - finishes under the schedule  repeat t n  for every n >= total_work;
         - is deterministic: two schedules after which the thread has finished end in the SAME
           state (in particular the same results, key map and blob directory).
   The completed run is the ordered map: single_thread_is_the_ordered_map (no faults, empty
       initial blob directory, H collision-free on the contents put by cs): after ANY schedule
       that runs the thread to completion
         - the results are  cspec_outs cmp [] cs  (every call kind, KCheckpoint and
           KDelOrphans included),
         - the key map is  km_of H (cspec_final cmp [] cs)  (key k -> item (H c, len c) iff the
           map has k -> c),
         - the blob directory holds exactly the blobs of the final map, each under its hash
           (from ConcProofs.C07_quiescent_exact);
       single_thread_results_are_a_prefix: before completion the results returned so far are
       a prefix of cspec_outs; single_thread_run_is_the_ordered_map: both theorems at repeat t n.
       The proof is a refinement invariant [SeqInv] over the micro-steps of the thread: the
       abstract map M with  km = km_of M, and for a call in progress its [promise] -- the map
       and the result cspec assigns to it; the facts about the blob directory come from the
       invariant of the concurrent development (ConcInv: no dangling item, blobs named by
       their hash, every blob accounted for).
   cspec IS the sequential specification: cspec_is_the_sequential_spec relates cspec to
       History.spec_step and StoreHist.spec_out call by call (api_of_call), and
       cspec_outs_are_spec_outs / cspec_final_is_spec_fold lift this to programs; so
       single_thread_refines_the_sequential_spec states the ordered-map theorem with spec_outs
       itself.
   An example by vm_compute (toyH, lex_cmp) with a program using every call kind. *)
From Cas Require Import SMap Conc History.
From CasProofs Require Import BaseProofs SMapProofs IndexProofs RangeProofs ConcInv ConcProofs ConcProgress
  ConcExamples ConcLin StoreInv StoreHist.
From Coq Require Import List NArith Lia Bool Arith.
Import ListNotations.
Open Scope N_scope.

Arguments N.min : simpl never.

(* get_range(k, a, b) on a key whose content is x: the empty range, InvalidRange, else the bytes
   [a, min b (len x)) *)
Definition range_res (x : bytes) (a b : N) : cres :=
  if len x <=? a then CBytes (Some [])
  else if N.min b (len x) <? a then CInvalid
  else CBytes (Some (slice x a (N.min b (len x)))).

Section CSpec.
  Variable cmp : bytes -> bytes -> comparison.

  Definition cspec (M : smap bytes) (c : ccall) : smap bytes * cres :=
    match c with
    | KPut k x => (sm_ins cmp M k x, CUnit)
    | KAbort _ _ => (M, CUnit)
    | KRemove k =>
      (sm_del cmp M k, CBool (match sm_get cmp M k with Some _ => true | None => false end))
    | KRemoveRange lo hi =>
      (filter (fun e => negb (in_range cmp lo hi (fst e))) M,
       CNum (N.of_nat (length (filter (fun e => in_range cmp lo hi (fst e)) M))))
    | KGet k => (M, CBytes (sm_get cmp M k))
    | KGetSize k => (M, CSize (option_map len (sm_get cmp M k)))
    | KGetRange k a b =>
      (M, match sm_get cmp M k with None => CBytes None | Some x => range_res x a b end)
    | KIter => (M, CKeys (map fst M))
    | KCheckpoint => (M, CUnit)
    (* every blob of a quiescent store that started without orphans is referenced: all the
       candidates are skipped *)
    | KDelOrphans hs => (M, COrphans 0 (N.of_nat (length hs)))
    end.

  (* the pairs (map after the call, result of the call) along a program *)
  Fixpoint cspec_run (M : smap bytes) (cs : list ccall) : list (smap bytes * cres) :=
    match cs with
    | [] => []
    | c :: r => cspec M c :: cspec_run (fst (cspec M c)) r
    end.
  (* the results (as StoreHist.spec_outs) and the final map (the fold of the state component,
     as the fold of History.spec_step) *)
  Fixpoint cspec_outs (M : smap bytes) (cs : list ccall) : list cres :=
    match cs with
    | [] => []
    | c :: r => snd (cspec M c) :: cspec_outs (fst (cspec M c)) r
    end.
  Definition cspec_final (M : smap bytes) (cs : list ccall) : smap bytes :=
    fold_left (fun M c => fst (cspec M c)) cs M.

  Lemma cspec_outs_run cs : forall M, cspec_outs M cs = map snd (cspec_run M cs).
  Proof. induction cs as [|c r IH]; intros M; cbn [cspec_outs cspec_run map]; [reflexivity|]. rewrite IH. reflexivity. Qed.

  Lemma cspec_outs_length cs : forall M, length (cspec_outs M cs) = length cs.
  Proof. induction cs as [|c r IH]; intros M; cbn [cspec_outs length]; [reflexivity|]. rewrite IH. reflexivity. Qed.
End CSpec.

(* the answer of get_range in cspec is the answer of the read path of the model (pre_open, else
   the clamped slice) and of the sequential get_range of theories/Range.v *)
Lemma range_res_pre_open (h x : bytes) (a b : N) :
  range_res x a b = match pre_open (MRange a b) (mkItem h (len x)) with
                    | Some r => r
                    | None => CBytes (Some (slice x a (N.min b (len x))))
                    end.
Proof.
  unfold range_res. cbn [pre_open isize].
  destruct (len x <=? a); [reflexivity|]. destruct (N.min b (len x) <? a); reflexivity.
Qed.

Lemma range_res_is_sequential_get_range (chunk : N -> N -> N) (x : bytes) (a b : N) :
  range_res x a b = cres_of_rres (fst (Range.get_range chunk (len x) x a b)).
Proof. rewrite (range_res_pre_open [] x a b). apply range_answer_is_get_range. Qed.

(* completion and determinism of one thread (any fault parameters, any initial directory) *)

Lemma one_nodup (t : nat) (cs : list ccall) : NoDup (map fst [(t, cs)]).
Proof. cbn [map fst]. constructor; [intros []|constructor]. Qed.

Section Single.
  Variable H : bytes -> bytes.
  Variable cmp : bytes -> bytes -> comparison.
  Hypothesis cmp_refl : forall a, cmp a a = Eq.
  Hypothesis cmp_eq : forall a b, cmp a b = Eq -> a = b.
  Hypothesis cmp_antisym : forall a b, cmp b a = CompOpp (cmp a b).
  Hypothesis cmp_trans : forall a b c, cmp a b = Lt -> cmp b c = Lt -> cmp a c = Lt.
  Variable nops : N.
  Variable bad : bytes -> bool.
  Variable ckbad : bool.
  Variable t : nat.
  Variable cs : list ccall.
  Variable cas0 : smap bytes.
  Hypothesis cas0_sorted : sorted lex_cmp cas0.
  Hypothesis cas0_named : forall h c, In (h, c) cas0 -> H c = h.
  Local Notation thr0 := [(t, cs)].
  Hypothesis NoCollideC :
    forall a b, In a (allc thr0 cas0) -> In b (allc thr0 cas0) -> H a = H b -> a = b.

  Local Notation Reach := (reachable H cmp nops bad ckbad thr0 cas0).
  Local Notation step := (cstep H cmp nops bad ckbad).
  Local Notation run := (crun H cmp nops bad ckbad).
  Local Notation g0 := (init_c thr0 cas0).
  Local Notation at_setting L :=
    (L H cmp cmp_refl cmp_eq cmp_antisym cmp_trans nops bad ckbad thr0 (one_nodup t cs)
       cas0 cas0_sorted cas0_named NoCollideC) (only parsing).

  Definition only_thread (g : cstate) : Prop := exists ts, g_thr g = [(t, ts)].

  Lemma only_tget g ts : g_thr g = [(t, ts)] -> tget (g_thr g) t = Some ts.
  Proof. intros ->. cbn [tget]. rewrite Nat.eqb_refl. reflexivity. Qed.

  Lemma only_other g u : only_thread g -> u <> t -> step g u = None.
  Proof.
    intros [ts E] N. apply step_needs_thread. rewrite E. cbn [tget].
    apply Nat.eqb_neq in N. rewrite N. reflexivity.
  Qed.

  Lemma only_step g u g' : only_thread g -> step g u = Some g' -> u = t /\ only_thread g'.
  Proof.
    intros O St. destruct (Nat.eq_dec u t) as [->|N].
    - split; [reflexivity|]. destruct O as [ts E].
      destruct (cstep_thr (only_tget _ _ E) St) as (ts' & E').
      exists ts'. rewrite E', E. cbn [tset]. rewrite Nat.eqb_refl. reflexivity.
    - rewrite (only_other g u O N) in St. discriminate.
  Qed.

  Lemma only_run sched : forall g, only_thread g -> only_thread (run g sched).
  Proof.
    induction sched as [|u r IH]; intros g O; cbn [crun]; [exact O|].
    destruct (step g u) as [g'|] eqn:St; [|apply IH, O].
    apply IH. eapply only_step; eassumption.
  Qed.

  Lemma only_init : only_thread g0.
  Proof. eexists. reflexivity. Qed.

  Lemma only_reach g : Reach g -> only_thread g.
  Proof. intros [sched ->]. apply only_run, only_init. Qed.

  (* a schedule only matters through the number of times it schedules t *)
  Lemma run_count sched : forall g, only_thread g ->
    run g sched = run g (repeat t (count_occ Nat.eq_dec sched t)).
  Proof.
    induction sched as [|u r IH]; intros g O; [reflexivity|].
    cbn [count_occ]. destruct (Nat.eq_dec u t) as [->|N].
    - cbn [repeat crun]. destruct (step g t) as [g'|] eqn:St; [|apply IH, O].
      apply IH. eapply only_step; eassumption.
    - cbn [crun]. rewrite (only_other g u O N). apply IH, O.
  Qed.

  (* a finished thread does not move *)
  Lemma finished_stuck g : only_thread g -> all_finished g = true -> step g t = None.
  Proof.
    intros [ts E] AF. apply (cstep_none (only_tget _ _ E)).
    destruct (all_finished_In g t ts AF) as [-> ->]; [rewrite E; left; reflexivity|reflexivity].
  Qed.

  Lemma finished_run g n : only_thread g -> all_finished g = true -> run g (repeat t n) = g.
  Proof.
    intros O AF. induction n as [|n IH]; cbn [repeat crun]; [reflexivity|].
    rewrite (finished_stuck g O AF). exact IH.
  Qed.

  Lemma finished_more g a b : only_thread g -> (a <= b)%nat -> all_finished (run g (repeat t a)) = true ->
    run g (repeat t b) = run g (repeat t a).
  Proof.
    intros O L AF. rewrite <- (Nat.sub_add a b L), Nat.add_comm, repeat_app, crun_app.
    apply finished_run; [apply only_run, O|exact AF].
  Qed.

  Theorem single_thread_deterministic g s1 s2 : only_thread g ->
    all_finished (run g s1) = true -> all_finished (run g s2) = true -> run g s1 = run g s2.
  Proof.
    intros O. rewrite (run_count s1 g O), (run_count s2 g O).
    set (n1 := count_occ Nat.eq_dec s1 t). set (n2 := count_occ Nat.eq_dec s2 t).
    intros A1 A2. destruct (Nat.le_ge_cases n1 n2) as [L|L].
    - symmetry. apply finished_more; assumption.
    - apply finished_more; assumption.
  Qed.

  (* the thread is never blocked: while unfinished it moves, using up potential *)
  Lemma unfinished_step g : Reach g -> all_finished g = false ->
    exists g', step g t = Some g' /\ (potential thr0 g' < potential thr0 g)%nat.
  Proof.
    intros R AF. destruct (at_setting C15_deadlock_free g R AF) as [u En]. unfold enabled in En.
    destruct (step g u) as [g'|] eqn:St; [|discriminate En].
    destruct (only_step g u g' (only_reach g R) St) as [-> _]. exists g'. split; [exact St|].
    exact (C15_potential_decreases H cmp cmp_refl cmp_eq cmp_antisym cmp_trans nops bad ckbad thr0
             cas0 g t g' R St).
  Qed.

  (* ... so it finishes within [potential] of its own steps *)
  Lemma single_thread_completes n : forall g, Reach g -> (potential thr0 g <= n)%nat ->
    all_finished (run g (repeat t n)) = true.
  Proof.
    induction n as [|n IH]; intros g R P; destruct (all_finished g) eqn:AF;
      try (rewrite finished_run; [exact AF|apply only_reach, R|exact AF]);
      destruct (unfinished_step g R AF) as (g' & St & D);
      pose proof (Nat.lt_le_trans _ _ _ D P) as L; [destruct (Nat.nlt_0_r _ L)|].
    cbn [repeat crun]. rewrite St.
    apply IH; [eapply reachable_step; eassumption|apply Nat.lt_succ_r, L].
  Qed.

  Theorem single_thread_runs_to_completion :
    (forall n, (total_work thr0 cas0 <= n)%nat -> all_finished (run g0 (repeat t n)) = true) /\
    (forall s1 s2, all_finished (run g0 s1) = true -> all_finished (run g0 s2) = true ->
                   run g0 s1 = run g0 s2).
  Proof using cmp_refl cmp_eq cmp_antisym cmp_trans cas0_sorted cas0_named NoCollideC.
    split.
    - intros n Hn. apply single_thread_completes; [apply reachable_init|exact Hn].
    - intros s1 s2. apply single_thread_deterministic, only_init.
  Qed.
End Single.

(* the result of a read of a present key whose content is x *)
Definition rd_res (md : rmode) (x : bytes) : cres :=
  match md with
  | MFull => CBytes (Some x)
  | MSize => CSize (Some (len x))
  | MRange a b => range_res x a b
  end.

(* the contents that can reach the blob directory of a one-thread run without initial blobs
   are the contents put by the program *)
Lemma allc_single t cs x : In x (allc [(t, cs)] []) <-> In x (flat_map call_contents cs).
Proof.
  unfold allc, contents. cbn [flat_map map snd]. rewrite !app_nil_r. reflexivity.
Qed.

Section Main.
  Variable H : bytes -> bytes.
  Variable cmp : bytes -> bytes -> comparison.
  Hypothesis cmp_refl : forall a, cmp a a = Eq.
  Hypothesis cmp_eq : forall a b, cmp a b = Eq -> a = b.
  Hypothesis cmp_antisym : forall a b, cmp b a = CompOpp (cmp a b).
  Hypothesis cmp_trans : forall a b c, cmp a b = Lt -> cmp b c = Lt -> cmp a c = Lt.
  Variable nops : N.
  Variable bad : bytes -> bool.
  Variable ckbad : bool.
  Hypothesis NB : forall h, bad h = false.
  Hypothesis NC : ckbad = false.
  Variable t : nat.
  Variable cs : list ccall.
  (* collision-freedom of H on the contents put by the program *)
  Hypothesis NoCol : StoreInv.NoCollide H (flat_map call_contents cs).

  Local Notation thr0 := [(t, cs)].
  Local Notation AC := (allc thr0 []).

  Lemma NoCol_allc : forall a b, In a AC -> In b AC -> H a = H b -> a = b.
  Proof. intros a b Ia Ib. apply NoCol; apply (allc_single t cs); assumption. Qed.

  Local Notation Reach := (reachable H cmp nops bad ckbad thr0 []).
  Local Notation step := (cstep H cmp nops bad ckbad).
  Local Notation edge := (ConcStep.edge H cmp nops bad ckbad).
  Local Notation Inv := (ConcInv H cmp bad thr0 []).
  Local Notation run := (crun H cmp nops bad ckbad).
  Local Notation g0 := (init_c thr0 []).
  Local Notation item_of := (StoreInv.item_of H).
  (* StoreInv.km_of, in the form the lemmas of SMapProofs speak of *)
  Local Notation km_of := (map_vals (fun _ => item_of)).
  Local Notation at_cmp L := (L cmp cmp_refl cmp_eq cmp_antisym cmp_trans) (only parsing).

  Local Notation at_setting L :=
    (L H cmp cmp_refl cmp_eq cmp_antisym cmp_trans nops bad ckbad thr0 (one_nodup t cs)
       [] I (nil_named H) NoCol_allc) (only parsing).

  Lemma cspec_rd M k md :
    cspec cmp M (rd_call k md)
    = (M, match sm_get cmp M k with None => absent_result md | Some x => rd_res md x end).
  Proof.
    destruct md; cbn [rd_call cspec absent_result rd_res]; destruct (sm_get cmp M k); reflexivity.
  Qed.

  Lemma pre_open_rd md x r : pre_open md (item_of x) = Some r -> r = rd_res md x.
  Proof.
    destruct md as [| |a b]; cbn [pre_open rd_res StoreInv.item_of isize]; [discriminate| |].
    - intros E; injection E as <-. reflexivity.
    - unfold range_res. destruct (len x <=? a); [intros E; injection E as <-; reflexivity|].
      destruct (N.min b (len x) <? a); [intros E; injection E as <-; reflexivity|discriminate].
  Qed.

  Lemma read_result_rd md x : pre_open md (item_of x) = None ->
    read_result md (item_of x) x = rd_res md x.
  Proof.
    destruct md as [| |a b]; cbn [pre_open read_result rd_res StoreInv.item_of isize];
      [reflexivity|discriminate|].
    unfold range_res. destruct (len x <=? a); [discriminate|].
    destruct (N.min b (len x) <? a); [discriminate|reflexivity].
  Qed.

  (* what remains to be returned: the results so far, then the specification run from M *)
  Definition on_track (res : list cres) (M : smap bytes) (calls : list ccall) : Prop :=
    res ++ cspec_outs cmp M calls = cspec_outs cmp [] cs /\
    cspec_final cmp M calls = cspec_final cmp [] cs.

  Lemma on_track_cons res M c rest : on_track res M (c :: rest) ->
    on_track (res ++ [snd (cspec cmp M c)]) (fst (cspec cmp M c)) rest.
  Proof. intros [A B]. split; [rewrite <- app_assoc; exact A|exact B]. Qed.

  Definition good_map (M : smap bytes) : Prop :=
    sorted cmp M /\ forall k c, In (k, c) M -> In c AC.

  Lemma good_map_ins M k c : good_map M -> In c AC -> good_map (sm_ins cmp M k c).
  Proof.
    intros [S C] Ic. split; [apply (at_cmp sorted_ins), S|].
    intros k' c' I'. apply (In_sm_ins _) in I'. destruct I' as [E|I']; [|eapply C, I'].
    injection E as -> ->. exact Ic.
  Qed.

  Lemma good_map_fold_del M ks : good_map M -> good_map (fold_left (fun m k => sm_del cmp m k) ks M).
  Proof.
    intros [S C]. split; [apply (at_cmp fold_del_sorted), S|].
    intros k' c' I'. apply In_fold_del in I'. eapply C, I'.
  Qed.

  (* the outcome of the second half of a write parked before its apply *)
  Definition wk_out (M : smap bytes) (w : wkind) (M' : smap bytes) (r : cres) : Prop :=
    match w with
    | WPut k h sz =>
      exists c, In c AC /\ h = H c /\ sz = len c /\ M' = sm_ins cmp M k c /\ r = CUnit
    | WRm ks r0 => M' = fold_left (fun m k => sm_del cmp m k) ks M /\ r = r0
    end.

  (* promise M p M' r: the call in progress of a thread parked at p, the key map being km_of M, ends
     with the key map km_of M' and returns r.  False where a fault-free one-thread run never parks:
     PDropI is entered by a failed rename only; GReread (and GOpenL after it) by an open that
     misses the blob of the item looked up, which is still the key's item (nobody else writes)
     and so has its blob (ci_nodangling) *)
  Definition promise (M : smap bytes) (p : pc) (M' : smap bytes) (r : cres) : Prop :=
    match p with
    | Idle | PDropI _ _ _ | GReread _ _ _ | GOpenL _ _ _ => False
    | PReg k c | PILock k c | PRen k c _ => M' = sm_ins cmp M k c /\ r = CUnit
    | WLockI w | WLockS w | WLockW w => wk_out M w M' r
    | WApplied w _ _ | WUnlink w _ _ | WReleased w _ => M' = M /\ r = wres w
    | WCkS r0 _ | WCkW r0 _ => M' = M /\ r = r0
    | RRead k => (M', r) = cspec cmp M (KRemove k)
    | RScanned k => sm_get cmp M k <> None /\ M' = sm_del cmp M k /\ r = CBool true
    | RRRead lo hi => (M', r) = cspec cmp M (KRemoveRange lo hi)
    | RRScanned ks =>
      M' = fold_left (fun m k => sm_del cmp m k) ks M /\ r = CNum (N.of_nat (length ks))
    | GRead k md => (M', r) = cspec cmp M (rd_call k md)
    | GLooked k it md =>
      exists x, sm_get cmp M k = Some x /\ it = item_of x /\ M' = M /\ r = rd_res md x
    | GOpen k it md =>
      exists x, sm_get cmp M k = Some x /\ it = item_of x /\ pre_open md it = None /\
                M' = M /\ r = rd_res md x
    | IRead => M' = M /\ r = CKeys (map fst M)
    | OLockI todo d s => M' = M /\ r = COrphans d (s + N.of_nat (length todo))
    | ORead _ rest d s | OUnlink _ rest d s =>
      M' = M /\ r = COrphans d (s + 1 + N.of_nat (length rest))
    end.

  Definition SeqInv (g : cstate) : Prop :=
    exists ts M, g_thr g = [(t, ts)] /\ km (g_idx g) = km_of M /\ good_map M /\
      ((t_pc ts = Idle /\ on_track (t_res ts) M (t_calls ts)) \/
       (exists M' r, promise M (t_pc ts) M' r /\ on_track (t_res ts ++ [r]) M' (t_calls ts))).

  Lemma SeqInv_busy g' calls p res M M' r :
    g_thr g' = [(t, mkT calls p res)] -> km (g_idx g') = km_of M -> good_map M ->
    promise M p M' r -> on_track (res ++ [r]) M' calls -> SeqInv g'.
  Proof.
    intros A B C D E. exists (mkT calls p res), M.
    split; [exact A|]. split; [exact B|]. split; [exact C|].
    right. exists M', r. split; [exact D|exact E].
  Qed.

  Lemma SeqInv_idle g' calls res M :
    g_thr g' = [(t, mkT calls Idle res)] -> km (g_idx g') = km_of M -> good_map M ->
    on_track res M calls -> SeqInv g'.
  Proof.
    intros A B C E. exists (mkT calls Idle res), M.
    split; [exact A|]. split; [exact B|]. split; [exact C|].
    left. split; [reflexivity|exact E].
  Qed.

  Lemma SeqInv_init : SeqInv g0.
  Proof.
    apply (SeqInv_idle g0 cs [] []); [reflexivity|reflexivity|split; [exact I|intros k c []]|].
    split; reflexivity.
  Qed.

  (* taking a call: the outcome cspec assigns to it, at once or as what is promised *)
  Lemma call_start_promise M c :
    match snd (call_start c) with
    | Some r => (M, r) = cspec cmp M c
    | None => promise M (fst (call_start c)) (fst (cspec cmp M c)) (snd (cspec cmp M c))
    end.
  Proof.
    destruct c as [k x|k x|k|lo hi|k|k|k a b| | |[|h hs]];
      cbn [call_start fst snd promise cspec rd_call length]; try reflexivity; split; reflexivity.
  Qed.

  (* the key map of a one-thread state read through the abstract map *)
  Lemma km_get g M k : km (g_idx g) = km_of M ->
    sm_get cmp (km (g_idx g)) k = option_map item_of (sm_get cmp M k).
  Proof. intros ->. apply (at_cmp get_map_vals (fun _ => item_of)). Qed.

  Lemma km_keys M : map fst (km_of M) = map fst M.
  Proof. apply keys_map_vals. Qed.

  (* an orphan candidate about to be unlinked has no file: nothing accounts for one *)
  Lemma orphan_absent g ts h rest d s : Inv g -> g_thr g = [(t, ts)] ->
    t_pc ts = OUnlink h rest d s -> sm_get lex_cmp (g_cas g) h = None.
  Proof.
    intros Iv Hthr Hpc. destruct (sm_get lex_cmp (g_cas g) h) as [c|] eqn:Gc; [exfalso|reflexivity].
    destruct (ci_pc _ _ _ _ _ _ Iv _ _ (only_tget _ _ _ Hthr)) as [Pt _].
    rewrite Hpc in Pt. destruct Pt as [P1 P2].
    destruct (ci_accounted _ _ _ _ _ _ Iv _ _ Gc)
      as [A|[A|[(u & tsu & Gu & P)|[A|((y & By) & _)]]]].
    - rewrite P1 in A. exact (N.lt_irrefl _ A).
    - contradiction.
    - rewrite Hthr in Gu. cbn [tget] in Gu. destruct (Nat.eqb u t); [|discriminate].
      injection Gu as <-. rewrite Hpc in P. exact P.
    - destruct A.
    - rewrite NB in By. discriminate.
  Qed.

  (* a rule keeps the promise of the call in progress: the call returns the promised result
     with the promised map in place, or goes on with the same promise; only the rule of WLockW
     changes the key map, to the promised one *)
  Lemma edge_promise g ts p cl p' cl' out sh M M' r :
    Inv g -> g_thr g = [(t, ts)] -> t_pc ts = p -> km (g_idx g) = km_of M -> good_map M ->
    edge g t p cl p' cl' out sh -> promise M p M' r ->
    cl' = cl /\
    match out with
    | Some r' => r' = r /\ M' = M /\ km (g_idx sh) = km_of M
    | None => exists M1, km (g_idx sh) = km_of M1 /\ good_map M1 /\ promise M1 p' M' r
    end.
  Proof.
    intros Iv Hthr Hpc Hkm HG E HJ. pose proof HG as [HS HC].
    pose proof (proj1 (ci_pc _ _ _ _ _ _ Iv _ _ (only_tget _ _ _ Hthr))) as Pt. rewrite Hpc in Pt.
    pose proof (km_get g M) as Gm. specialize (fun k => Gm k Hkm).
    (* a rule that leaves the key map alone owes the promise at the next pc *)
    assert (Stay : forall p1, promise M p1 M' r ->
                     exists M1, km (g_idx g) = km_of M1 /\ good_map M1 /\ promise M1 p1 M' r)
      by (intros p1 X; exists M; split; [exact Hkm|split; [exact HG|exact X]]).
    destruct E; cbn [promise] in HJ; try contradiction; (split; [reflexivity|]);
      try (rewrite NB in Bd; discriminate Bd);
      try (apply Stay; exact HJ).
    - (* E_ren *) apply Stay. destruct HJ as [-> ->].
      exists c. split; [apply in_or_app; left; exact Pt|]. repeat split; reflexivity.
    - (* E_apply *) exists M'. cbn [set_S set_index g_idx].
      rewrite (proj1 (at_cmp C12_km_spec _ _ _ _ Ap)).
      destruct w as [k h sz|ks r0]; cbn [wk_out wop km_expected wres promise] in *; rewrite Hkm.
      + destruct HJ as (c & Ic & -> & -> & -> & ->). rewrite <- (sm_ins_map_vals cmp (fun _ => item_of)).
        split; [reflexivity|]. split; [apply good_map_ins; assumption|split; reflexivity].
      + destruct HJ as [-> ->]. rewrite <- fold_del_map_vals.
        split; [reflexivity|]. split; [apply good_map_fold_del; exact HG|split; reflexivity].
    - (* E_released *) destruct HJ as [-> ->]. repeat split. exact Hkm.
    - (* E_ck_skip *) destruct HJ as [-> ->]. repeat split. exact Hkm.
    - (* E_ck *) rewrite NC. destruct HJ as [-> ->]. repeat split. exact Hkm.
    - (* E_rread_none *) rewrite Gm in Gk. cbn [cspec] in HJ. injection HJ as -> ->.
      destruct (sm_get cmp M k) eqn:G; [discriminate Gk|].
      split; [reflexivity|]. split; [apply (sm_del_absent _ _ _), G|exact Hkm].
    - (* E_rread *) rewrite Gm in Gk. cbn [cspec] in HJ. injection HJ as -> ->.
      apply Stay. cbn [promise].
      destruct (sm_get cmp M k); [|discriminate Gk]. split; [discriminate|split; reflexivity].
    - (* E_rscanned *) apply Stay.
      destruct HJ as (_ & -> & ->). split; reflexivity.
    - (* E_rrread *) apply Stay.
      cbn [cspec] in HJ. injection HJ as -> ->.
      cbn [promise]. unfold keys_in. rewrite Hkm, filter_map_vals, km_keys, map_length.
      split; [|reflexivity]. symmetry. apply (at_cmp fold_del_filter (in_range cmp lo hi)), HS.
    - (* E_rrscanned_none *) destruct HJ as [-> ->]. repeat split. exact Hkm.
    - (* E_gread_none *) rewrite Gm in Gk. rewrite cspec_rd in HJ. injection HJ as -> ->.
      destruct (sm_get cmp M k); [discriminate Gk|]. repeat split. exact Hkm.
    - (* E_gread *) rewrite Gm in Gk. rewrite cspec_rd in HJ. injection HJ as -> ->.
      apply Stay. cbn [promise].
      destruct (sm_get cmp M k) as [x|]; [|discriminate Gk]. injection Gk as <-.
      exists x. repeat split.
    - (* E_glooked_pre *) destruct HJ as (x & G & -> & -> & ->).
      split; [apply pre_open_rd, Po|]. split; [reflexivity|exact Hkm].
    - (* E_glooked *) apply Stay.
      destruct HJ as (x & G & -> & -> & ->). exists x. repeat split; assumption.
    - (* E_gopen *) destruct HJ as (x & G & -> & P & -> & ->).
      assert (Ix : In x AC) by (eapply HC, (at_cmp get_in _ _ _ HS), G).
      rewrite <- (stored_unique H cmp bad thr0 [] NoCol_allc g _ c x Iv Gc Ix eq_refl).
      split; [apply read_result_rd, P|]. split; [reflexivity|exact Hkm].
    - (* E_gopen_retry: the item is the key's, so its blob is there *)
      exfalso. destruct HJ as (x & G & -> & _).
      assert (Gk : sm_get cmp (km (g_idx g)) k = Some (item_of x)) by (rewrite Gm, G; reflexivity).
      destruct (at_cmp (stored_item H) bad thr0 [] NoCol_allc g _ _ Iv Gk) as (y & Gy & _). congruence.
    - (* E_iread *) destruct HJ as [-> ->]. rewrite Hkm, km_keys. repeat split.
    - (* E_olockI_nil *) destruct HJ as [-> ->]. cbn [length]. rewrite N.add_0_r. repeat split.
      exact Hkm.
    - (* E_olockI *) apply Stay. destruct HJ as [-> ->].
      split; [reflexivity|]. f_equal. cbn [length]. lia.
    - (* E_oread_skip_last *) destruct HJ as [-> ->]. cbn [length]. rewrite N.add_0_r.
      repeat split. exact Hkm.
    - (* E_ounlink_last *) unfold unlink_orphan in Uo.
      rewrite NB, (orphan_absent g ts _ _ _ _ Iv Hthr Hpc) in Uo. injection Uo as <- <- <-.
      destruct HJ as [-> ->]. cbn [length]. rewrite N.add_0_r. repeat split. exact Hkm.
    - (* E_ounlink *) unfold unlink_orphan in Uo.
      rewrite NB, (orphan_absent g ts _ _ _ _ Iv Hthr Hpc) in Uo. injection Uo as <- <- <-.
      apply Stay, HJ.
  Qed.

  Lemma SeqInv_step g g' : Reach g -> SeqInv g -> step g t = Some g' -> SeqInv g'.
  Proof.
    intros R (ts & M & Hthr & Hkm & HG & Hcase) St.
    destruct (cstep_spec (only_tget _ _ _ Hthr) St) as (p' & cl' & out & sh & E & ->).
    assert (Et : g_thr (set_thr sh t (mkT cl' p' (emit (t_res ts) out)))
                 = [(t, mkT cl' p' (emit (t_res ts) out))]).
    { cbn [set_thr g_thr]. rewrite (edge_thr E), Hthr. cbn [tset]. rewrite Nat.eqb_refl. reflexivity. }
    pose proof (edge_out E) as Eo.
    destruct Hcase as [[Hpc HF]|(M' & r & HJ & HF)].
    - (* the thread takes its next call *)
      rewrite Hpc in E.
      destruct (edge_idle E eq_refl) as (c & Hc & -> & -> & ->).
      rewrite Hc in HF. apply on_track_cons in HF. pose proof (call_start_promise M c) as Hj.
      destruct (snd (call_start c)) as [r|]; cbn [emit] in *.
      + rewrite Eo in Et |- *. rewrite <- Hj in HF. eapply SeqInv_idle; [exact Et|exact Hkm|exact HG|exact HF].
      + eapply SeqInv_busy; [exact Et|exact Hkm|exact HG|exact Hj|exact HF].
    - (* the thread continues its call *)
      destruct (edge_promise g ts _ _ _ _ _ _ M M' r (at_setting reachable_inv g R) Hthr eq_refl Hkm HG E HJ)
        as [-> Hm].
      destruct out as [r'|]; cbn [emit] in *.
      + destruct Hm as (-> & -> & Ek). rewrite Eo in Et |- *.
        eapply SeqInv_idle; [exact Et|exact Ek|exact HG|exact HF].
      + destruct Hm as (M1 & Ek & HG1 & HJ1).
        eapply SeqInv_busy; [exact Et|exact Ek|exact HG1|exact HJ1|exact HF].
  Qed.

  Theorem SeqInv_always sched : SeqInv (run g0 sched).
  Proof.
    apply (reachable_ind H cmp nops bad ckbad thr0 [] SeqInv); [apply SeqInv_init| |exists sched; reflexivity].
    intros g u g' R S St. replace u with t in St; [eapply SeqInv_step; eassumption|].
    destruct S as (ts & M & E & _). symmetry.
    eapply (only_step H cmp nops bad ckbad t); [eexists; exact E|exact St].
  Qed.

  (* before completion: the results returned so far are a prefix of the specification's *)
  Theorem single_thread_results_are_a_prefix sched ts :
    tget (g_thr (run g0 sched)) t = Some ts ->
    exists rest, t_res ts ++ rest = cspec_outs cmp [] cs.
  Proof using cmp_refl cmp_eq cmp_antisym cmp_trans NB NC NoCol.
    intros G. destruct (SeqInv_always sched) as (ts' & M & Hthr & _ & _ & Hcase).
    rewrite (only_tget _ _ _ Hthr) in G. injection G as <-.
    destruct Hcase as [[_ [F _]]|(M' & r & _ & [F _])].
    - eexists; exact F.
    - rewrite <- app_assoc in F. eexists; exact F.
  Qed.

  (* after ANY schedule that runs the single thread to completion: the thread state is
     finished with the results of the specification, the key map is the image of the final map
     of the specification, and the blob directory holds exactly the blobs of that map *)
  Theorem single_thread_is_the_ordered_map sched :
    all_finished (run g0 sched) = true ->
    let g := run g0 sched in
    let Mf := cspec_final cmp [] cs in
    g_thr g = [(t, mkT [] Idle (cspec_outs cmp [] cs))] /\
    km (g_idx g) = StoreInv.km_of H Mf /\
    sorted cmp Mf /\
    (forall k it, sm_get cmp (km (g_idx g)) k = Some it <->
                  exists c, sm_get cmp Mf k = Some c /\ it = mkItem (H c) (len c)) /\
    (forall h x, sm_get lex_cmp (g_cas g) h = Some x <-> (exists k, In (k, x) Mf) /\ h = H x).
  Proof using cmp_refl cmp_eq cmp_antisym cmp_trans NB NC NoCol.
    intros AF g Mf.
    assert (R : Reach g) by (exists sched; reflexivity).
    pose proof (at_setting reachable_inv g R) as Iv.
    destruct (SeqInv_always sched) as (ts & M & Hthr & Hkm & [HS HC] & Hcase).
    fold g in Hthr, Hkm.
    assert (Fin : t_pc ts = Idle /\ t_calls ts = [])
      by (apply (all_finished_In g t ts AF); rewrite Hthr; left; reflexivity).
    destruct Fin as [Hpc Hcalls].
    destruct Hcase as [[_ [F1 F2]]|(M' & r & HJ & _)]; [|rewrite Hpc in HJ; destruct HJ].
    rewrite Hcalls in F1, F2. cbn [cspec_outs] in F1. rewrite app_nil_r in F1.
    unfold cspec_final in F2 at 1. cbn [fold_left] in F2. subst M. fold Mf in Hkm, HS, HC.
    assert (Gk : forall k, sm_get cmp (km (g_idx g)) k = option_map item_of (sm_get cmp Mf k))
      by (intros k; apply km_get, Hkm).
    split; [|split; [exact Hkm|split; [exact HS|split]]].
    - rewrite Hthr. destruct ts as [calls p res]. cbn [t_pc t_calls t_res] in *. subst. reflexivity.
    - intros k it. rewrite Gk. split.
      + destruct (sm_get cmp Mf k) as [c|]; cbn [option_map]; [|discriminate].
        intros E; injection E as <-. exists c. split; reflexivity.
      + intros (c & -> & ->). reflexivity.
    - pose proof (at_setting C07_quiescent_exact g eq_refl R AF (or_introl NB)) as EX.
      intros h x. split.
      + intros Gc.
        destruct (proj1 (EX h)) as (k & it & Ik & Eh); [congruence|].
        rewrite Hkm in Ik. apply In_map_vals in Ik. destruct Ik as (c & Ic & ->).
        cbn [StoreInv.item_of ihash] in Eh.
        rewrite <- (stored_unique H cmp bad thr0 [] NoCol_allc g _ x c Iv Gc (HC _ _ Ic) Eh).
        split; [exists k; exact Ic|symmetry; exact Eh].
      + intros [[k Ik] ->].
        destruct (sm_get lex_cmp (g_cas g) (H x)) as [x'|] eqn:Gc.
        * f_equal. symmetry.
          exact (stored_unique H cmp bad thr0 [] NoCol_allc g _ x' x Iv Gc (HC _ _ Ik) eq_refl).
        * exfalso. apply (proj2 (EX (H x))); [|exact Gc].
          exists k, (item_of x). split; [|reflexivity].
          rewrite Hkm. apply In_map_vals. exists x. split; [exact Ik|reflexivity].
  Qed.

  (* ... and such schedules exist: t scheduled total_work times (or more) *)
  Corollary single_thread_run_is_the_ordered_map n :
    (total_work [(t, cs)] [] <= n)%nat ->
    let g := run g0 (repeat t n) in
    let Mf := cspec_final cmp [] cs in
    all_finished g = true /\
    tget (g_thr g) t = Some (mkT [] Idle (cspec_outs cmp [] cs)) /\
    km (g_idx g) = StoreInv.km_of H Mf /\
    (forall h x, sm_get lex_cmp (g_cas g) h = Some x <-> (exists k, In (k, x) Mf) /\ h = H x).
  Proof using cmp_refl cmp_eq cmp_antisym cmp_trans NB NC NoCol.
    intros Hn g Mf.
    assert (AF : all_finished g = true).
    { apply (proj1 (single_thread_runs_to_completion H cmp cmp_refl cmp_eq cmp_antisym cmp_trans
                      nops bad ckbad t cs [] I (nil_named H)
                      NoCol_allc)). exact Hn. }
    destruct (single_thread_is_the_ordered_map (repeat t n) AF) as (A & B & _ & _ & D).
    split; [exact AF|]. split; [|split; [exact B|exact D]].
    exact (only_tget _ _ _ A).
  Qed.
End Main.

(* cspec is the specification of the sequential development *)

(* the API call of the sequential development (theories/History.v) that a call of the
   concurrent model stands for; a put / an aborted put writes its content as one chunk *)
Definition api_of_call (c : ccall) : op :=
  match c with
  | KPut k x => OpPut k [x]
  | KAbort k x => OpAbort k [x]
  | KRemove k => OpRemove k
  | KRemoveRange lo hi => OpRemoveRange lo hi
  | KGet k => OpGet k
  | KGetSize k => OpGetSize k
  | KGetRange k a b => OpGetRange k a b
  | KIter => OpIter
  | KCheckpoint => OpCheckpoint
  | KDelOrphans _ => OpDeleteOrphans
  end.

(* the calls with a counterpart in StoreHist.api_op: delete_orphans is not part of the
   ordered-map specification of the sequential development, and (as there) range bounds that
   make BTreeMap::range panic are excluded *)
Definition seq_call (cmp : bytes -> bytes -> comparison) (c : ccall) : Prop :=
  match c with
  | KDelOrphans _ => False
  | KRemoveRange lo hi => range_panics cmp lo hi = false
  | _ => True
  end.

(* a result of the concurrent model and an output of the sequential model say the same: the
   iteration of the concurrent model returns the keys of the entries *)
Definition res_matches (r : cres) (o : out) : Prop :=
  match r, o with
  | CUnit, OutUnit => True
  | CBool b, OutBool b' => b = b'
  | CNum n, OutNum n' => n = n'
  | CBytes x, OutBytes y => x = y
  | CSize x, OutSize y => x = y
  | CKeys ks, OutEntries l => ks = map fst l
  | CInvalid, OutErr EInvalidRange => True
  | _, _ => False
  end.

Lemma slice_clamped x a b : slice x a (N.min b (len x)) = slice x a b.
Proof. rewrite !slice_spec. rewrite <- N.min_assoc, N.min_id. reflexivity. Qed.

Section SeqSpec.
  Variable H : bytes -> bytes.
  Variable cfg : config.
  Local Notation cmp := (key_cmp (c_kt cfg)).

  Theorem cspec_is_the_sequential_spec M c : seq_call cmp c ->
    fst (cspec cmp M c) = spec_step cmp M (api_of_call c) /\
    res_matches (snd (cspec cmp M c)) (spec_out H cfg M (api_of_call c)).
  Proof.
    destruct c as [k x|k x|k|lo hi|k|k|k a b| | |hs];
      cbn [seq_call cspec api_of_call spec_step spec_out fst snd res_matches concat];
      intros SC; try contradiction; try (split; reflexivity).
    - rewrite app_nil_r. split; reflexivity.
    - rewrite SC, andb_false_r. split; reflexivity.
    - split; [reflexivity|].
      destruct (sm_get cmp M k) as [x|]; [|reflexivity].
      unfold range_res.
      destruct (N.leb_spec (len x) a) as [L|L].
      + replace (a <? len x) with false by lia. rewrite andb_false_r.
        cbn [res_matches]. rewrite slice_beyond by exact L. reflexivity.
      + replace (a <? len x) with true by lia. rewrite andb_true_r.
        destruct (N.ltb_spec b a) as [L2|L2].
        * replace (N.min b (len x) <? a) with true by lia. exact I.
        * replace (N.min b (len x) <? a) with false by lia.
          cbn [res_matches]. rewrite slice_clamped. reflexivity.
    - split; [reflexivity|]. symmetry. apply (keys_map_vals (fun _ => StoreInv.item_of H)).
  Qed.

  (* ... so the final map of a program is the fold of History.spec_step and its results are
     StoreHist.spec_outs *)
  Theorem cspec_final_is_spec_fold cs : forall M, Forall (seq_call cmp) cs ->
    cspec_final cmp M cs = fold_left (spec_step cmp) (map api_of_call cs) M.
  Proof.
    unfold cspec_final. induction cs as [|c r IH]; intros M F; cbn [map fold_left]; [reflexivity|].
    inversion F as [|? ? Fc Fr]; subst.
    rewrite (proj1 (cspec_is_the_sequential_spec M c Fc)). apply IH, Fr.
  Qed.

  Theorem cspec_outs_are_spec_outs cs : forall M, Forall (seq_call cmp) cs ->
    Forall2 res_matches (cspec_outs cmp M cs) (spec_outs H cfg M (map api_of_call cs)).
  Proof.
    induction cs as [|c r IH]; intros M F; cbn [map cspec_outs spec_outs]; [constructor|].
    inversion F as [|? ? Fc Fr]; subst.
    destruct (cspec_is_the_sequential_spec M c Fc) as [E1 E2].
    constructor; [exact E2|]. rewrite <- E1. apply IH, Fr.
  Qed.

  (* single_thread_is_the_ordered_map in the words of the sequential development: one thread of
     the concurrent model, run to completion under any schedule, returns what StoreHist.spec_outs
     prescribes for the same history on one open handle (C01_refines_ordered_map), and its key
     map is km_of of the fold of History.spec_step *)
  Theorem single_thread_refines_the_sequential_spec
          (nops : N) (bad : bytes -> bool) (ckbad : bool) (t : nat) (cs : list ccall) sched :
    (forall h, bad h = false) -> ckbad = false ->
    StoreInv.NoCollide H (flat_map call_contents cs) ->
    Forall (seq_call cmp) cs ->
    let g := crun H cmp nops bad ckbad (init_c [(t, cs)] []) sched in
    all_finished g = true ->
    exists res,
      g_thr g = [(t, mkT [] Idle res)] /\
      Forall2 res_matches res (spec_outs H cfg [] (map api_of_call cs)) /\
      km (g_idx g) = StoreInv.km_of H (fold_left (spec_step cmp) (map api_of_call cs) []).
  Proof.
    intros NB NC NoCol F g AF.
    destruct (single_thread_is_the_ordered_map H cmp (key_cmp_refl _) (key_cmp_eq _)
                (key_cmp_antisym _) (key_cmp_trans _) nops bad ckbad NB NC t cs NoCol sched AF)
      as (A & B & _).
    exists (cspec_outs cmp [] cs). split; [exact A|]. split.
    - apply cspec_outs_are_spec_outs, F.
    - fold g in B. rewrite B, (cspec_final_is_spec_fold cs [] F). reflexivity.
  Qed.
End SeqSpec.

(* an example by computation (toyH, lex_cmp; two operations per WAL segment, so that
   rollover checkpoints happen) with a program that uses every call kind *)

Definition prog1 : list ccall :=
  [ KPut [1] [10; 11; 12]; KPut [2] [13; 14]; KGet [1]; KGetSize [2]; KGet [9]; KGetSize [9];
    KGetRange [1] 1 2; KGetRange [1] 5 9; KGetRange [1] 2 1; KGetRange [9] 0 1;
    KIter; KAbort [3] [9]; KPut [1] [20]; KGet [1]; KRemove [2]; KRemove [7];
    KPut [4] [1; 2; 3; 4]; KPut [5] [20]; KCheckpoint;
    KDelOrphans [ConcExamples.toyH [20]; ConcExamples.toyH [13; 14]]; KDelOrphans [];
    KRemoveRange (Incl [1]) (Excl [5]); KRemoveRange (Incl [6]) Unb; KIter; KGet [5] ].

Lemma prog1_nocollide : StoreInv.NoCollide ConcExamples.toyH (flat_map call_contents prog1).
Proof. unfold StoreInv.NoCollide. apply nocollide_list_sound. vm_compute. reflexivity. Qed.

Definition prog1_results : list cres :=
  [ CUnit; CUnit; CBytes (Some [10; 11; 12]); CSize (Some 2); CBytes None; CSize None;
    CBytes (Some [11]); CBytes (Some []); CInvalid; CBytes None;
    CKeys [[1]; [2]]; CUnit; CUnit; CBytes (Some [20]); CBool true; CBool false;
    CUnit; CUnit; CUnit;
    COrphans 0 2; COrphans 0 0;
    CNum 2; CNum 0; CKeys [[5]]; CBytes (Some [20]) ].

(* the specification, computed *)
Example prog1_spec :
  cspec_outs lex_cmp [] prog1 = prog1_results /\ cspec_final lex_cmp [] prog1 = [([5], [20])].
Proof. vm_compute. split; reflexivity. Qed.

(* the concurrent model, computed: thread 0 scheduled 400 times *)
Example prog1_run :
  let g := crun ConcExamples.toyH lex_cmp 2 nobad false (init_c [(0%nat, prog1)] []) (repeat 0%nat 400) in
  all_finished g = true /\
  tget (g_thr g) 0%nat = Some (mkT [] Idle prog1_results) /\
  km (g_idx g) = [([5], mkItem (ConcExamples.toyH [20]) 1)] /\
  g_cas g = [(ConcExamples.toyH [20], [20])].
Proof. vm_compute. repeat split; reflexivity. Qed.

(* the same from the theorem, for EVERY schedule that completes the thread and every
   num_ops_per_wal *)
Example prog1_every_schedule nops sched :
  let g := crun ConcExamples.toyH lex_cmp nops nobad false (init_c [(0%nat, prog1)] []) sched in
  all_finished g = true ->
  g_thr g = [(0%nat, mkT [] Idle prog1_results)] /\
  km (g_idx g) = [([5], mkItem (ConcExamples.toyH [20]) 1)] /\
  (forall h x, sm_get lex_cmp (g_cas g) h = Some x <-> x = [20] /\ h = ConcExamples.toyH [20]).
Proof.
  intros g AF.
  destruct (single_thread_is_the_ordered_map ConcExamples.toyH lex_cmp lex_refl lex_eq lex_antisym
              lex_trans nops nobad false (fun _ => eq_refl) eq_refl 0%nat prog1 prog1_nocollide
              sched AF) as (A & B & _ & _ & D).
  fold g in A, B, D. destruct prog1_spec as [E1 E2]. rewrite E1 in A. rewrite E2 in B, D.
  split; [exact A|]. split; [exact B|].
  intros h x. rewrite D. split.
  - intros [[k [E|[]]] ->]. injection E as _ <-. split; reflexivity.
  - intros [-> ->]. split; [exists [5]; left; reflexivity|reflexivity].
Qed.

Print Assumptions single_thread_runs_to_completion.
Print Assumptions single_thread_is_the_ordered_map.
Print Assumptions single_thread_run_is_the_ordered_map.
Print Assumptions single_thread_results_are_a_prefix.
Print Assumptions cspec_is_the_sequential_spec.
Print Assumptions single_thread_refines_the_sequential_spec.
Print Assumptions prog1_run.
Print Assumptions prog1_every_schedule.
