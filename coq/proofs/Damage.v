(* Damage.v -- C10 at the store level: a damaged log is never silently accepted.

   Setting: a store at rest, [Inv m s sg]; c = lpv (idx m) is the snapshot version and the
   records above c are (c+1, enc_op o_1) .. (c+k, enc_op o_k) for ops = [o_1 .. o_k]
   (DiskW.dw_filter).  A damage site is a record (v, p) of a segment file PWal i:
   rf i = recs1 ++ [(v, p)] ++ recs2, i.e. the file is
       render H recs1 ++ enc_record H v p ++ render H recs2 ++ tailb (sf i).
   Three damages: truncation inside the record (and loss of all later segments), a changed
   payload, a changed checksum.  [n_before] counts the records above c strictly before the
   damaged one; the undamaged prefix of the logged operations is [firstn (n_before ..) ops].

   The invariant DiskOk records the abstract map only for the whole log, so "the abstract map
   after the prefix" is expressed by its key-map image
       fold_left kstep (firstn j ops) km_c
   (corollary [C10_truncation_header_abstract]: it is [km_of sg_j] for every abstract map sg_j
   with that image).

   In order: splitting enc_from; uncheckpointed_in_last_segments; the instrumented replay
   (rr_log / rs_log: replay that also records the operations it applies, faithful to
   replay_records / replay_segments); the damaged filesystem (relation [Damaged], the concrete
   [damage_fs]); Index::load and Cas::open on any filesystem ([load_tail_plain],
   [open_store_of]; [index_load_applied]: the instrumentation is faithful for every filesystem);
   the three damages and what the segment reader makes of them ([damaged_read]), then, with the
   damage site fixed (section AtSite), replay, Index::load and open on a filesystem damaged
   there ([rs_log_damaged], [index_load_damaged], [open_damaged], the general statement); the
   C10 theorems, each read off [open_damaged], and site_exists; computed examples (toyH; sumH
   for the payload change, since toyH collides on equal lengths) and an instance of the
   theorems. *)
From Cas Require Import History.
From CasProofs Require Import BaseProofs CodecBase CodecProofs SMapProofs IndexProofs
  StoreFS StoreRun StoreInv StoreWrite StoreRead StoreHist DiskInv Recover RestartHist AtRest.
Open Scope N_scope.

Lemma enc_from_split : forall a b v ops, a ++ b = enc_from v ops ->
  a = enc_from v (firstn (length a) ops) /\
  b = enc_from (v + N.of_nat (length a)) (skipn (length a) ops).
Proof.
  induction a as [|x a IH]; intros b v ops E; cbn [app length firstn skipn enc_from] in *.
  - rewrite N.add_0_r. now split.
  - destruct ops as [|o ops]; [discriminate|]. cbn [enc_from] in E. inversion E as [[Ex Ea]].
    destruct (IH b (v + 1) ops Ea) as [Ea1 Eb]. cbn [enc_from]. split; [now f_equal|].
    now rewrite Nat2N.inj_succ, <- N.add_1_l, N.add_assoc.
Qed.

Section Damage.
  Variable H : bytes -> bytes.
  Hypothesis H_len : forall b, length (H b) = 32%nat.
  Hypothesis H_byte : forall b, Forall (fun x => x < 256) (H b).
  Variable cfg : config.
  Hypothesis n_pos : 0 < c_n cfg.
  Let cmp := key_cmp (c_kt cfg).

  Local Notation km_of := (km_of H).
  Local Notation NoCollide := (NoCollide H).
  Local Notation seg_of := (seg_of cfg).
  Local Notation DiskW := (DiskW H cfg).
  Local Notation DiskOk := (DiskOk H cfg).
  Local Notation Inv := (Inv H cfg).
  Local Notation kstep := (kstep cfg).
  Local Notation ops_ok := (ops_ok cfg).
  Local Notation op_good := (op_good cfg).
  Local Notation render := (render H).
  Local Notation loaded_of := (loaded_of cfg).
  Local Notation load_tail := (load_tail H cfg).

  (* After a clean history the records above c are in the segments with id >= seg_of (c+1);
     every segment below that bound is either pruned (not in ids) or holds only versions <= c;
     the records above c found in the segments from seg_of (c+1) on are exactly the logged
     operations; and every version in (c, nv) is in the segment it belongs to. *)
  Theorem uncheckpointed_in_last_segments : forall c nv sb pre dv sg ids rf sf km_c ops,
    DiskW c nv sb pre dv sg ids rf sf km_c ops ->
    let b := seg_of (c + 1) in
    (forall i r, In i ids -> In r (rf i) -> c < fst r -> b <= i) /\
    (forall i, In i ids -> i < b -> Forall (fun r => fst r <= c) (rf i)) /\
    filter (fun r => c <? fst r) (flat_map rf (filter (fun i => b <=? i) ids))
      = enc_from (c + 1) ops /\
    (forall v, c < v -> v < nv ->
       In (seg_of v) ids /\ b <= seg_of v /\ exists p, In (v, p) (rf (seg_of v))).
  Proof.
    intros c nv sb pre dv sg ids rf sf km_c ops [_ _ _ _ _ _ _ dw_seg dw_filter dw_nv _ _ _ _] b.
    assert (A1 : forall i r, In i ids -> In r (rf i) -> c < fst r -> b <= i).
    { intros i r Ii Ir Lc. destruct (dw_seg i Ii) as (_ & S2 & _).
      rewrite Forall_forall in S2. rewrite <- (S2 r Ir). apply (seg_of_mono cfg n_pos).
      rewrite N.add_1_r. now apply N.le_succ_l. }
    split; [exact A1|]. split; [|split].
    - intros i Ii Lb. apply Forall_forall. intros r Ir.
      destruct (N.le_gt_cases (fst r) c) as [L|L]; [exact L|].
      destruct (proj1 (N.lt_nge _ _) Lb (A1 i r Ii Ir L)).
    - rewrite filter_flat_map_skip; [exact dw_filter|].
      intros i Ii G. apply filter_none. intros r Ir.
      destruct (c <? fst r) eqn:E; [|reflexivity]. apply N.ltb_lt in E. apply N.leb_gt in G.
      destruct (proj1 (N.lt_nge _ _) G (A1 i r Ii Ir E)).
    - intros v L1 L2.
      destruct (enc_from_in ops (c + 1) v) as (p & Ip);
        [rewrite N.add_1_r; now apply N.le_succ_l|now rewrite <- dw_nv|].
      rewrite <- dw_filter in Ip. apply filter_In in Ip. destruct Ip as [Ip _].
      apply in_flat_map in Ip. destruct Ip as (i & Ii & Ir).
      destruct (dw_seg i Ii) as (_ & S2 & _). rewrite Forall_forall in S2.
      pose proof (S2 _ Ir) as Es. cbn [fst] in Es. rewrite Es.
      split; [exact Ii|]. split; [|exists p; exact Ir].
      apply (A1 i (v, p) Ii Ir). cbn [fst]. exact L1.
  Qed.

  (* the same for a store at rest, in terms of its files *)
  Corollary uncheckpointed_in_last_segments_store : forall m s sg, Inv m s sg ->
    let c := lpv (idx m) in
    let b := seg_of (c + 1) in
    exists rf ops,
      (forall i f, fget s (PWal i) = Some f -> parse_segment H (fdata f) = Ok (rf i)) /\
      (forall i f, fget s (PWal i) = Some f -> i < b -> Forall (fun r => fst r <= c) (rf i)) /\
      filter (fun r => c <? fst r)
             (flat_map rf (filter (fun i => b <=? i) (sort_ids (wal_ids s))))
        = enc_from (c + 1) ops /\
      nextv (mwal m) = c + 1 + N.of_nat (length ops).
  Proof using H_len H_byte n_pos.
    intros m s sg (_ & (ids & rf & sf & km_c & ops & Dw) & Wf) c b.
    pose proof (disk_ids _ _ _ _ _ _ _ _ _ _ _ _ _ Wf Dw) as Eids.
    destruct (uncheckpointed_in_last_segments _ _ _ _ _ _ _ _ _ _ _ Dw) as (_ & U2 & U3 & _).
    pose proof Dw as [].
    assert (Iid : forall i f, fget s (PWal i) = Some f -> In i ids).
    { intros i f G. apply (dw_ids H cfg Dw). rewrite fdat_none, G. discriminate. }
    exists rf, ops. rewrite Eids. split; [|split; [|split; [exact U3|exact dw_nv]]].
    - intros i f G. pose proof (dw_in i (Iid i f G)) as D. apply fdat_some in D.
      destruct D as (f' & G' & Df). rewrite G in G'. inversion G'; subst f'. rewrite Df.
      destruct (dw_seg i (Iid i f G)) as (S1 & _).
      exact (parse_of_lazy H _ _ None (read_lazy_seg H H_len _ _ S1)).
    - intros i f G Lb. apply U2; [exact (Iid i f G)|exact Lb].
  Qed.

  (* replay_records / replay_segments of theories/Store.v with one more accumulator: the list
     of the operations applied so far (in order).  [rr_log_snd] / [rs_log_snd] check that the
     result component is the original function. *)
  Fixpoint rr_log (c : N) (recs : list (N * bytes)) (st : istate) (highest cnt : N)
           (acc : list rawop) : list rawop * res serr (istate * N * N) :=
    match recs with
    | [] => (acc, Ok (st, highest, cnt))
    | (ver, payload) :: r =>
      let highest' := N.max highest ver in
      if ver <=? c then rr_log c r st highest' cnt acc
      else
        match dec_op payload with
        | Err e => (acc, Err (EReplay (RDeserialize e)))
        | Ok raw =>
          match from_raw (c_kt cfg) raw with
          | Err e => (acc, Err (EReplay (RConvert e)))
          | Ok o =>
            match apply_op cmp st o with
            | Err _ => (acc, Err EPanic)
            | Ok (st', _) => rr_log c r st' highest' (cnt + 1) (acc ++ [o])
            end
          end
        end
    end.

  Fixpoint rs_log (c : N) (s : fs) (ids : list N) (st : istate) (highest cnt : N)
           (acc : list rawop) : list rawop * res serr (istate * N * N) :=
    match ids with
    | [] => (acc, Ok (st, highest, cnt))
    | i :: r =>
      match fget s (PWal i) with
      | None => (acc, Err EWalIo)
      | Some f =>
        let '(recs, e) := read_segment_lazy H (S (length (fdata f))) (fdata f) in
        match rr_log c recs st highest cnt acc with
        | (acc', Err x) => (acc', Err x)
        | (acc', Ok (st', hi', cnt')) =>
          match e with
          | Some x => (acc', Err (EReplay x))
          | None => rs_log c s r st' hi' cnt' acc'
          end
        end
      end
    end.

  (* applying a list of operations to an index state *)
  Fixpoint apply_all (st : istate) (l : list rawop) : res ierr istate :=
    match l with
    | [] => Ok st
    | o :: r => match apply_op cmp st o with
                | Ok (st', _) => apply_all st' r
                | Err e => Err e
                end
    end.

  Lemma apply_all_app : forall a b st,
    apply_all st (a ++ b) = match apply_all st a with Ok st' => apply_all st' b | Err e => Err e end.
  Proof.
    induction a as [|o a IH]; intros b st; cbn [app apply_all]; [reflexivity|].
    destruct (apply_op cmp st o) as [[st' un]|e]; [apply IH|reflexivity].
  Qed.

  Lemma rr_log_snd : forall c recs st hi cnt acc,
    snd (rr_log c recs st hi cnt acc) = replay_records cfg c recs st hi cnt.
  Proof.
    intros c. induction recs as [|[ver p] recs IH]; intros st hi cnt acc; [reflexivity|].
    rewrite replay_records_cons. cbn [rr_log]. destruct (ver <=? c); [apply IH|].
    destruct (dec_op p) as [raw|e]; [|reflexivity].
    destruct (from_raw (c_kt cfg) raw) as [o|e]; [|reflexivity].
    fold cmp. destruct (apply_op cmp st o) as [[st' un]|e]; [apply IH|reflexivity].
  Qed.

  Lemma rs_log_snd : forall c s ids st hi cnt acc,
    snd (rs_log c s ids st hi cnt acc) = replay_segments H cfg c s ids st hi cnt.
  Proof.
    intros c s. induction ids as [|i ids IH]; intros st hi cnt acc; [reflexivity|].
    cbn [rs_log replay_segments]. destruct (fget s (PWal i)) as [f|]; [|reflexivity].
    destruct (read_segment_lazy H (S (length (fdata f))) (fdata f)) as [recs e].
    rewrite <- (rr_log_snd c recs st hi cnt acc).
    destruct (rr_log c recs st hi cnt acc) as [acc' [[[st' hi'] cnt']|x]]; cbn [snd]; [|reflexivity].
    destruct e as [x|]; [reflexivity|apply IH].
  Qed.

  (* what the recorded operations have to do with the replay: the log grew from [acc] to
     [acc'] by a list l, applying l to the start state [st] succeeds, and when the result [r]
     is a success it carries the state so reached, the counter grown from [cnt] by the length
     of l *)
  Definition faithful (st : istate) (cnt : N) (acc acc' : list rawop)
             (r : res serr (istate * N * N)) : Prop :=
    exists l st1, acc' = acc ++ l /\ apply_all st l = Ok st1 /\
      match r with
      | Ok (st', _, cnt') => st' = st1 /\ cnt' = cnt + N.of_nat (length l)
      | Err _ => True
      end.

  Lemma faithful_done : forall st hi cnt acc, faithful st cnt acc acc (Ok (st, hi, cnt)).
  Proof. intros. exists [], st. now rewrite app_nil_r, N.add_0_r. Qed.

  Lemma faithful_err : forall st cnt acc x, faithful st cnt acc acc (Err x).
  Proof. intros. exists [], st. now rewrite app_nil_r. Qed.

  Lemma faithful_one : forall st cnt acc o st' un hi,
    apply_op cmp st o = Ok (st', un) -> faithful st cnt acc (acc ++ [o]) (Ok (st', hi, cnt + 1)).
  Proof. intros st cnt acc o st' un hi E. exists [o], st'. cbn [apply_all]. now rewrite E. Qed.

  Lemma faithful_trans : forall st cnt acc st1 hi1 cnt1 acc1 acc' r,
    faithful st cnt acc acc1 (Ok (st1, hi1, cnt1)) -> faithful st1 cnt1 acc1 acc' r ->
    faithful st cnt acc acc' r.
  Proof.
    intros st cnt acc st1 hi1 cnt1 acc1 acc' r (l1 & s1 & -> & A1 & [-> ->]) (l2 & s2 & -> & A2 & R).
    exists (l1 ++ l2), s2. rewrite app_assoc, apply_all_app, A1. do 2 (split; [trivial|]).
    destruct r as [[[s3 h3] c3]|x]; [|exact I]. destruct R as [-> ->].
    now rewrite app_length, Nat2N.inj_add, N.add_assoc.
  Qed.

  Lemma rr_log_faithful : forall c recs st hi cnt acc,
    faithful st cnt acc (fst (rr_log c recs st hi cnt acc)) (snd (rr_log c recs st hi cnt acc)).
  Proof.
    intros c. induction recs as [|[ver p] recs IH]; intros st hi cnt acc; cbn [rr_log].
    - apply faithful_done.
    - destruct (ver <=? c); [apply IH|].
      destruct (dec_op p) as [raw|e]; [|apply faithful_err].
      destruct (from_raw (c_kt cfg) raw) as [o|e]; [|apply faithful_err].
      destruct (apply_op cmp st o) as [[st' un]|e] eqn:Ea; [|apply faithful_err].
      exact (faithful_trans _ _ _ _ _ _ _ _ _ (faithful_one st cnt acc o st' un hi Ea) (IH _ _ _ _)).
  Qed.

  Lemma rs_log_faithful : forall c s ids st hi cnt acc,
    faithful st cnt acc (fst (rs_log c s ids st hi cnt acc)) (snd (rs_log c s ids st hi cnt acc)).
  Proof.
    intros c s. induction ids as [|i ids IH]; intros st hi cnt acc; cbn [rs_log].
    - apply faithful_done.
    - destruct (fget s (PWal i)) as [f|]; [|apply faithful_err].
      destruct (read_segment_lazy H (S (length (fdata f))) (fdata f)) as [recs e].
      pose proof (rr_log_faithful c recs st hi cnt acc) as F1.
      destruct (rr_log c recs st hi cnt acc) as [acc1 [[[st1 hi1] cnt1]|x]]; [|exact F1].
      apply (faithful_trans _ _ _ _ _ _ _ _ _ F1). destruct e; [apply faithful_err|apply IH].
  Qed.

  Lemma rr_log_app : forall c a b st hi cnt acc,
    rr_log c (a ++ b) st hi cnt acc =
    match rr_log c a st hi cnt acc with
    | (acc', Ok (st', hi', cnt')) => rr_log c b st' hi' cnt' acc'
    | (acc', Err x) => (acc', Err x)
    end.
  Proof.
    intros c. induction a as [|[ver p] a IH]; intros b st hi cnt acc; [reflexivity|].
    cbn [app rr_log]. destruct (ver <=? c); [apply IH|].
    destruct (dec_op p) as [raw|e]; [|reflexivity].
    destruct (from_raw (c_kt cfg) raw) as [o|e]; [|reflexivity].
    destruct (apply_op cmp st o) as [[st' un]|e]; [apply IH|reflexivity].
  Qed.

  Lemma rs_log_app : forall c s a b st hi cnt acc,
    rs_log c s (a ++ b) st hi cnt acc =
    match rs_log c s a st hi cnt acc with
    | (acc', Ok (st', hi', cnt')) => rs_log c s b st' hi' cnt' acc'
    | (acc', Err x) => (acc', Err x)
    end.
  Proof.
    intros c s. induction a as [|i a IH]; intros b st hi cnt acc; [reflexivity|].
    cbn [app rs_log]. destruct (fget s (PWal i)) as [f|]; [|reflexivity].
    destruct (read_segment_lazy H (S (length (fdata f))) (fdata f)) as [recs e].
    destruct (rr_log c recs st hi cnt acc) as [acc1 [[[s2 h2] c2]|x]]; [|reflexivity].
    destruct e as [x|]; [reflexivity|apply IH].
  Qed.

  Lemma rs_log_flat : forall c s rf ids st hi cnt acc,
    (forall i, In i ids -> exists f, fget s (PWal i) = Some f /\
       read_segment_lazy H (S (length (fdata f))) (fdata f) = (rf i, None)) ->
    rs_log c s ids st hi cnt acc = rr_log c (flat_map rf ids) st hi cnt acc.
  Proof.
    intros c s rf. induction ids as [|i ids IH]; intros st hi cnt acc Hf; [reflexivity|].
    cbn [rs_log flat_map]. rewrite rr_log_app.
    destruct (Hf i (or_introl eq_refl)) as (f & G & R). rewrite G, R.
    destruct (rr_log c (rf i) st hi cnt acc) as [acc1 [[[s2 h2] c2]|x]]; [|reflexivity].
    apply IH. intros j Ij. apply Hf. now right.
  Qed.

  (* on a well-formed list of records a replay that succeeds has recorded every operation
     above c: each such record decodes to the operation it was written from *)
  Lemma rr_log_recorded : forall c v ops recs, log_above c v ops recs -> Forall op_good ops ->
    forall st hi cnt acc acc' x, rr_log c recs st hi cnt acc = (acc', Ok x) -> acc' = acc ++ ops.
  Proof.
    induction 1 as [v|v ops ver p recs L _ IH|v o ops recs L _ IH];
      intros Og st hi cnt acc acc' x El; cbn [rr_log] in El.
    - inversion El. now rewrite app_nil_r.
    - rewrite (proj2 (N.leb_le ver c) L) in El. exact (IH Og _ _ _ _ _ _ El).
    - rewrite (proj2 (N.leb_gt v c) L) in El. inversion Og as [|? ? [Of Kv] Og']; subst.
      rewrite dec_enc_op_nil, from_raw_valid in El by assumption.
      destruct (apply_op cmp st o) as [[st' un]|e]; [|discriminate].
      rewrite (IH Og' _ _ _ _ _ _ El). now rewrite <- app_assoc.
  Qed.

  Lemma rr_log_ok : forall c recs ops st hi cnt acc, c <= hi ->
    filter (fun r => c <? fst r) recs = enc_from (hi + 1) ops ->
    Forall op_good ops -> IdxInv cmp st -> ops_ok (km st) ops ->
    exists st', rr_log c recs st hi cnt acc
                = (acc ++ ops, Ok (st', hi + N.of_nat (length ops), cnt + N.of_nat (length ops))) /\
      IdxInv cmp st' /\ km st' = fold_left kstep ops (km st) /\ apply_all st ops = Ok st'.
  Proof.
    intros c recs ops st hi cnt acc L Fl Og Iv Ok0.
    destruct (replay_records_ok H H_len H_byte cfg n_pos c recs (hi + 1) ops st hi cnt Fl Og Iv Ok0)
      as (st' & E & Iv' & K' & _).
    pose proof (log_above_of_filter _ _ _ _ Fl) as La.
    rewrite (log_max c _ _ _ La hi L eq_refl), <- (rr_log_snd c recs st hi cnt acc) in E.
    destruct (rr_log c recs st hi cnt acc) as [acc' r] eqn:El. cbn [snd] in E. subst r.
    pose proof (rr_log_recorded _ _ _ _ La Og _ _ _ _ _ _ El) as ->.
    pose proof (rr_log_faithful c recs st hi cnt acc) as (l & st1 & El' & Al & R).
    rewrite El in El', R. destruct R as [<- _]. apply app_inv_head in El'. subst l.
    exists st'. split; [reflexivity|]. split; [exact Iv'|]. split; [exact K'|exact Al].
  Qed.

  (* [sd] is [s] with the content of segment file i replaced by [data'] and, when [cut], all
     segment files with a larger id removed; snapshot, settings and the directories the open
     path needs are as in [s]; everything else is arbitrary *)
  Record Damaged (s sd : fs) (i : N) (data' : bytes) (cut : bool) : Prop := mkDamaged {
    dm_wf : FsWf sd;
    dm_staging : has_dir sd [s_staging] = true;
    dm_cas : has_dir sd [s_cas] = true;
    dm_index : fdat sd PIndex = fdat s PIndex;
    dm_settings : fdat sd PSettings = fdat s PSettings;
    dm_below : forall j, j < i -> fdat sd (PWal j) = fdat s (PWal j);
    dm_at : fdat sd (PWal i) = Some data';
    dm_above : forall j, i < j -> fdat sd (PWal j) = if cut then None else fdat s (PWal j)
  }.

  Definition keepp (i : N) (q : path) : bool := match q with PWal j => j <=? i | _ => true end.
  Definition cut_above (i : N) (s : fs) : fs :=
    with_files s (filter (fun pf => keepp i (fst pf)) (files s)).
  Definition set_data (s : fs) (p : path) (d : bytes) : fs := upd s p (mkFile d (length d)).
  Definition damage_fs (s : fs) (i : N) (d' : bytes) (cut : bool) : fs :=
    set_data (if cut then cut_above i s else s) (PWal i) d'.

  Lemma lookup_filter : forall (g : path -> bool) l q,
    lookup (filter (fun pf => g (fst pf)) l) q = if g q then lookup l q else None.
  Proof.
    intros g. induction l as [|[q' f] l IH]; intros q; cbn [filter lookup fst].
    - now destruct (g q).
    - destruct (g q') eqn:G; cbn [lookup]; destruct (path_eqb_spec q q') as [->|Ne].
      + now rewrite G.
      + apply IH.
      + rewrite IH, G. reflexivity.
      + apply IH.
  Qed.

  Lemma paths_filter : forall (g : path -> bool) l,
    paths (filter (fun pf => g (fst pf)) l) = filter g (paths l).
  Proof.
    intros g. induction l as [|[q f] l IH]; cbn [filter paths map fst]; [reflexivity|].
    destruct (g q); cbn [map fst]; fold (paths l); fold (paths (filter (fun pf => g (fst pf)) l));
      now rewrite IH.
  Qed.

  Lemma cut_above_wf : forall i s, FsWf s -> FsWf (cut_above i s).
  Proof.
    intros i s W. unfold FsWf, cut_above. cbn [files with_files].
    rewrite paths_filter. now apply NoDup_filter.
  Qed.

  Lemma fget_cut_above : forall i s q,
    fget (cut_above i s) q = if keepp i q then fget s q else None.
  Proof. intros i s q. unfold fget, cut_above. cbn [files with_files]. apply lookup_filter. Qed.

  Lemma damage_fs_Damaged : forall s i d' cut, FsWf s ->
    has_dir s [s_staging] = true -> has_dir s [s_cas] = true ->
    Damaged s (damage_fs s i d' cut) i d' cut.
  Proof.
    intros s i d' cut W Hs Hc. unfold damage_fs, set_data.
    set (s1 := if cut then cut_above i s else s).
    assert (W1 : FsWf s1) by (unfold s1; destruct cut; [now apply cut_above_wf|exact W]).
    assert (D1 : dirs s1 = dirs s) by (unfold s1; destruct cut; reflexivity).
    assert (G1 : forall q, fdat s1 q = if cut then (if keepp i q then fdat s q else None) else fdat s q).
    { intros q. unfold s1, fdat. destruct cut; [|reflexivity]. rewrite fget_cut_above.
      now destruct (keepp i q). }
    constructor.
    - now apply upd_wf.
    - unfold has_dir, upd. cbn [dirs with_files]. rewrite D1. exact Hs.
    - unfold has_dir, upd. cbn [dirs with_files]. rewrite D1. exact Hc.
    - rewrite fdat_upd, vset_other by discriminate. rewrite G1. now destruct cut.
    - rewrite fdat_upd, vset_other by discriminate. rewrite G1. now destruct cut.
    - intros j Lj. rewrite fdat_upd, vset_other by (intros [= ->]; exact (N.lt_irrefl _ Lj)).
      rewrite G1. destruct cut; [|reflexivity]. cbn [keepp].
      now rewrite (proj2 (N.leb_le j i) (N.lt_le_incl _ _ Lj)).
    - now rewrite fdat_upd, vset_same.
    - intros j Lj. rewrite fdat_upd, vset_other by (intros [= ->]; exact (N.lt_irrefl _ Lj)).
      rewrite G1. destruct cut; [|reflexivity]. cbn [keepp]. now rewrite (proj2 (N.leb_gt j i) Lj).
  Qed.

  (* the tail of Index::load after a successful replay cannot fail without an injected fault *)
  Lemma load_tail_plain : forall pre st0 st hi cnt w, wfault w = None -> FsWf (wfs w) ->
    replay_segments H cfg (lpv st0) (wfs w) (sort_ids (wal_ids (wfs w))) st0 (lpv st0) 0
      = Ok (st, hi, cnt) ->
    exists m' w', load_tail pre (wfs w) st0 w = (Ok m', w') /\ Eff w w' /\
      km (idx m') = km st /\ rc (idx m') = rc st /\ ub (idx m') = ub st /\ tb (idx m') = tb st /\
      nextv (mwal m') = hi + 1 /\ writer (mwal m') = None /\ mpre m' = pre.
  Proof.
    intros pre st0 st hi cnt w F Wf E. unfold Recover.load_tail. cbv zeta. rewrite E. cbv beta iota.
    destruct (next_seg_does ((hi + 1 - 1) / c_n cfg) w F) as (w1 & E1 & R1).
    rewrite (bind_eq _ _ _ _ _ E1).
    assert (X1 : Eff w w1).
    { apply (ran_eff _ _ _ R1 Wf). unfold next_seg_calls. destruct (fget _ _); repeat constructor. }
    pose proof X1 as (F1 & W1 & _).
    destruct (0 <? cnt).
    - set (m1 := mkMem st (mkWal (hi + 1) None) pre).
      destruct (checkpoint_inner_run cfg RAfterReplay m1 w1 F1) as (w2 & w3 & E2 & R2 & R3).
      rewrite (bind_eq _ _ _ _ _ E2). eexists _, w3. split; [reflexivity|]. split.
      { apply (eff_trans _ _ _ X1), (ran_eff _ _ _ (ran_app _ _ _ _ _ R2 R3) W1), ck_calls_in;
          [exact I|exact I|intros; exact I]. }
      destruct (ck_mem_same RAfterReplay m1) as (K2 & Rc2 & U2 & T2 & Wl2 & P2).
      rewrite Wl2, P2. now repeat split.
    - eexists _, w1. split; [reflexivity|]. split; [exact X1|]. now repeat split.
  Qed.

  Lemma loaded_of_ext : forall s s', fdat s' PIndex = fdat s PIndex -> loaded_of s' = loaded_of s.
  Proof.
    intros s s' E. unfold Recover.loaded_of, fdat in *.
    destruct (fget s' PIndex) as [f'|], (fget s PIndex) as [f|]; cbn [option_map] in E;
      try discriminate; [|reflexivity].
    inversion E as [E']. now rewrite E'.
  Qed.

  (* the operations the replay of an open applies, as recorded by the instrumented replay *)
  Definition applied_on_open (s : fs) : list rawop :=
    match loaded_of s with
    | Ok st0 => fst (rs_log (lpv st0) s (sort_ids (wal_ids s)) st0 (lpv st0) 0 [])
    | Err _ => []
    end.

  (* the instrumentation is faithful for EVERY filesystem: whenever Index::load succeeds, the
     key map of the new handle is the result of applying exactly the operations
     [applied_on_open] to the state loaded from the snapshot *)
  Theorem index_load_applied : forall pre w m' w',
    index_load H cfg pre w = (Ok m', w') ->
    exists st0 st, loaded_of (wfs w) = Ok st0 /\
                   apply_all st0 (applied_on_open (wfs w)) = Ok st /\ km (idx m') = km st.
  Proof using H_len H_byte n_pos.
    intros pre w m' w' E. rewrite index_load_split in E.
    destruct (loaded_of (wfs w)) as [st0|e] eqn:El; [|discriminate].
    unfold Recover.load_tail in E. cbv zeta in E.
    destruct (rs_log (lpv st0) (wfs w) (sort_ids (wal_ids (wfs w))) st0 (lpv st0) 0 [])
      as [acc r] eqn:Er.
    pose proof (rs_log_snd (lpv st0) (wfs w) (sort_ids (wal_ids (wfs w))) st0 (lpv st0) 0 []) as Sn.
    rewrite Er in Sn. cbn [snd] in Sn. rewrite <- Sn in E.
    pose proof (rs_log_faithful (lpv st0) (wfs w) (sort_ids (wal_ids (wfs w))) st0 (lpv st0) 0 [])
      as (l & st1 & Ea & Al & R).
    rewrite Er in Ea, R. cbn [app fst snd] in Ea, R. subst acc.
    destruct r as [[[st hi] cnt]|e]; [|discriminate]. destruct R as [-> _].
    exists st0, st1. split; [reflexivity|]. unfold applied_on_open. rewrite El, Er. cbn [fst].
    split; [exact Al|].
    unfold bind at 1 in E.
    match type of E with (let '(_, _) := ?X in _) = _ => destruct X as [[u|e] w1] end;
      [|discriminate].
    destruct (0 <? cnt).
    - unfold bind in E.
      match type of E with (let '(_, _) := ?X in _) = _ => destruct X as [[rc m2] w2] eqn:Ec end.
      destruct rc; [|discriminate]. inversion E; subst.
      pose proof (checkpoint_inner_mem cfg RAfterReplay (mkMem st1 (mkWal (hi + 1) None) pre) w1) as M.
      rewrite Ec in M. apply M.
    - inversion E. reflexivity.
  Qed.

  (* Cas::open after open_with_recover: the integrity gate *)
  Lemma open_store_of : forall w r w', open_with_recover H cfg w = (r, w') ->
    match r with
    | Err e => open_store H cfg w = (Err e, w')
    | Ok (m, os) =>
      (open_store H cfg w = (Ok (m, os), w') \/
       exists w'', open_store H cfg w = (Err EIntegrity, w'')) /\
      (c_failint cfg = false \/ os = None -> open_store H cfg w = (Ok (m, os), w'))
    end.
  Proof.
    intros w r w' E.
    assert (R : open_store H cfg w =
                match r with
                | Err e => ret (Err e) w'
                | Ok (m, os) =>
                  match os with
                  | Some o =>
                    if c_failint cfg && negb (match o_missing o, o_corrupted o with [], [] => true | _, _ => false end)
                    then (do! _ <- close m ;; ret (Err EIntegrity)) w'
                    else ret (Ok (m, os)) w'
                  | None => ret (Ok (m, os)) w'
                  end
                end).
    { unfold open_store. unfold bind at 1. rewrite E. destruct r as [[m [o|]]|e]; try reflexivity.
      now destruct (c_failint cfg && _). }
    rewrite R. clear R.
    destruct r as [[m os]|e]; [|reflexivity].
    destruct os as [o|].
    - destruct (c_failint cfg && negb _) eqn:C.
      + split.
        * right. unfold bind. destruct (close m w') as [u w'']. now exists w''.
        * intros [Fi|X]; [|discriminate]. rewrite Fi in C. discriminate.
      + split; [now left|reflexivity].
    - split; [now left|reflexivity].
  Qed.

  Lemma Damaged_lock : forall s sd sd' i data' cut,
    Damaged s sd i data' cut -> FsWf sd' -> dirs sd' = dirs sd ->
    (forall q, fdat sd' q = vset (fdat sd) PLock (Some []) q) ->
    Damaged s sd' i data' cut.
  Proof.
    intros s sd sd' i data' cut [Wd Hs Hc Gx Gs Gb Gi Ga] W' D' V'.
    constructor; intros; unfold has_dir in *; rewrite ?D', ?V', ?vset_other by discriminate; auto.
  Qed.

  Inductive damage :=
  | DTrunc (n : nat)          (* the file is cut n bytes into the record; later segments are lost *)
  | DPayload (p' : bytes)     (* the payload is replaced *)
  | DChecksum (c' : bytes).   (* the 32 checksum bytes are replaced *)

  Definition damage_ok (v : N) (p : bytes) (d : damage) : Prop :=
    match d with
    | DTrunc n => (n < length (enc_record H v p))%nat
    | DPayload p' => length p' = length p /\ p' <> p /\ H p' <> H p
    | DChecksum c' => length c' = 32%nat /\ c' <> H p
    end.

  (* the damaged content of a file render recs1 ++ enc_record H v p ++ rest *)
  Definition damaged_data (recs1 : list (N * bytes)) (v : N) (p rest : bytes) (d : damage) : bytes :=
    match d with
    | DTrunc n => firstn (length (render recs1) + n) (render recs1 ++ enc_record H v p ++ rest)
    | DPayload p' => render recs1 ++ header H v p ++ p' ++ rest
    | DChecksum c' => render recs1 ++ u64 v ++ c' ++ u32 (len p) ++ p ++ rest
    end.

  Definition damage_cut (d : damage) : bool := match d with DTrunc _ => true | _ => false end.

  (* what the segment reader reports at the damaged record *)
  Definition damage_reads (d : damage) : option rerr :=
    match d with
    | DTrunc n => if (n <? 44)%nat then None else Some RShortPayload
    | DPayload _ | DChecksum _ => Some RChecksum
    end.

  Lemma damaged_read : forall recs1 v p rest d,
    Forall rec_ok recs1 -> rec_ok (v, p) -> damage_ok v p d ->
    let data' := damaged_data recs1 v p rest d in
    read_segment_lazy H (S (length data')) data' = (recs1, damage_reads d).
  Proof.
    intros recs1 v p rest d R1 Rv Dk. pose proof Rv as [[Hv0 Hv] [Hp0 Hp]]. cbn [fst snd] in *.
    destruct d as [n|p'|c']; cbn [damage_ok damaged_data damage_reads] in *.
    - rewrite firstn_app_2.
      assert (E : firstn n (enc_record H v p ++ rest) = firstn n (enc_record H v p)).
      { rewrite firstn_app, (proj2 (Nat.sub_0_le _ _) (Nat.lt_le_incl _ _ Dk)). apply app_nil_r. }
      rewrite E.
      pose proof (read_record_truncated H H_len v p n Hv0 Hv Hp0 Hp Dk) as Hr.
      destruct (n <? 44)%nat.
      + now apply (lazy_render_stop H H_len).
      + now apply (lazy_render_err H H_len).
    - destruct Dk as (L & Ne & NeH).
      apply (lazy_segment_bad_payload H H_len recs1 v p p' rest R1 Rv L Ne NeH).
    - destruct Dk as (L & Ne).
      apply (lazy_segment_bad_checksum H H_len recs1 v p c' rest R1 Rv L Ne).
  Qed.

  Lemma damage_reads_err : forall d x, damage_reads d = Some x -> x = RShortPayload \/ x = RChecksum.
  Proof.
    intros [n|p'|c'] x; cbn [damage_reads]; [destruct (n <? 44)%nat; [discriminate|]| |];
      intros [= <-]; auto.
  Qed.

  (* only a truncation can look like the end of the log, and it loses the later segments *)
  Lemma damage_reads_cut : forall d, damage_reads d = None -> damage_cut d = true.
  Proof. intros [n|p'|c']; [reflexivity|discriminate|discriminate]. Qed.

  (* a world whose filesystem is [s] damaged by [d] at the site; no injected fault *)
  Definition DamagedBy (s : fs) (sf : N -> bool) (i : N) (recs1 : list (N * bytes)) (v : N)
             (p : bytes) (recs2 : list (N * bytes)) (d : damage) (w : world) : Prop :=
    damage_ok v p d /\
    Damaged s (wfs w) i (damaged_data recs1 v p (render recs2 ++ tailb (sf i)) d) (damage_cut d) /\
    wfault w = None.

  (* all records strictly before the damaged one, in replay order; how many of them are above c *)
  Definition recs_before (ids : list N) (rf : N -> list (N * bytes)) (i : N)
             (recs1 : list (N * bytes)) : list (N * bytes) :=
    flat_map rf (filter (fun x => x <? i) ids) ++ recs1.
  Definition n_before (c : N) (ids : list N) (rf : N -> list (N * bytes)) (i : N)
             (recs1 : list (N * bytes)) : nat :=
    length (filter (fun r => c <? fst r) (recs_before ids rf i recs1)).

  (* the damage site: a well-formed disk and record (v, p) of its segment i, between recs1 and
     recs2.  Neither the handle nor c < v is needed before the C10 theorems. *)
  Section AtSite.
    Context {c nv sb : N} {pre : bool} {s : fs} {sg : smap bytes} {ids : list N}
            {rf : N -> list (N * bytes)} {sf : N -> bool} {km_c : smap item} {ops : list rawop}
            {i : N} {recs1 : list (N * bytes)} {v : N} {p : bytes} {recs2 : list (N * bytes)}.
    Hypothesis Dw : DiskW c nv sb pre (fdat s) sg ids rf sf km_c ops.
    Hypothesis Ii : In i ids.
    Hypothesis Erf : rf i = recs1 ++ [(v, p)] ++ recs2.
    Local Notation lo := (filter (fun x => x <? i) ids).
    Local Notation j := (n_before c ids rf i recs1).
    Local Notation ops1 := (firstn j ops).

    (* the records above c before the site are those of the first j operations *)
    Lemma site_prefix :
      filter (fun r => c <? fst r) (recs_before ids rf i recs1) = enc_from (c + 1) ops1 /\
      length ops1 = j /\ Forall op_good ops1 /\ ops_ok km_c ops1 /\
      (c < v -> v = c + 1 + N.of_nat j /\ (j < length ops)%nat).
    Proof.
      destruct Dw as [_ _ _ _ A _ _ _ Fl _ _ Og Oo _].
      destruct (asc_split ids i A Ii) as (hi & Eids & _).
      assert (Efl : flat_map rf ids = recs_before ids rf i recs1 ++ (v, p) :: recs2 ++ flat_map rf hi).
      { unfold recs_before. rewrite Eids at 1. rewrite flat_map_app. cbn [flat_map].
        now rewrite Erf, <- !app_assoc. }
      rewrite Efl, filter_app in Fl. apply enc_from_split in Fl. destruct Fl as [F1 F2].
      fold j in F1, F2. split; [exact F1|]. split.
      { apply (f_equal (@length _)) in F1. rewrite enc_from_length in F1. now symmetry. }
      rewrite <- (firstn_skipn j ops) in Og, Oo. apply Forall_app in Og. apply ops_ok_app in Oo.
      split; [apply Og|]. split; [apply Oo|]. intros Lv.
      cbn [filter fst] in F2. rewrite (proj2 (N.ltb_lt c v) Lv) in F2.
      destruct (Nat.lt_ge_cases j (length ops)) as [L|L];
        [|rewrite skipn_all2 in F2 by exact L; discriminate].
      split; [|exact L]. destruct (skipn j ops); [discriminate|]. now inversion F2.
    Qed.

    Lemma site_rec_ok : Forall rec_ok recs1 /\ rec_ok (v, p).
    Proof.
      destruct (dw_seg _ _ _ _ _ _ _ _ _ _ _ _ _ Dw i Ii) as (S1 & _). rewrite Erf in S1.
      apply Forall_app in S1. destruct S1 as [R1 S1]. apply Forall_app in S1.
      split; [exact R1|exact (Forall_inv (proj1 S1))].
    Qed.

    (* the segment files of a filesystem damaged at the site: those before i, i itself, and
       the later ones unless they are cut off *)
    Lemma damaged_ids : forall sd data' cut, Damaged s sd i data' cut ->
      exists hi, sort_ids (wal_ids sd) = lo ++ i :: (if cut then [] else hi).
    Proof.
      intros sd data' cut [Wd _ _ _ _ Gb Gi Ga]. pose proof (dw_ids H cfg Dw) as Iw.
      pose proof (dw_asc _ _ _ _ _ _ _ _ _ _ _ _ _ Dw) as A.
      destruct (asc_split ids i A Ii) as (hi & Eids & Hhi). exists hi.
      assert (Hlo : forall x, In x lo -> x < i) by (intros x Ix; now apply filter_In, proj2, N.ltb_lt in Ix).
      rewrite Eids in A. apply asc_app in A. destruct A as (A1 & [Hi A2] & A3).
      apply sort_ids_char; [exact Wd| |].
      - apply asc_app. split; [exact A1|]. destruct cut; [|now split].
        split; [split; [intros y []|exact I]|]. intros x y Ix [<-|[]]. apply A3; [exact Ix|now left].
      - intros x. rewrite <- (fdat_none sd), in_app_iff, filter_In. cbn [In].
        destruct (N.lt_trichotomy x i) as [L|[->|L]].
        + rewrite (Gb x L), <- Iw. split; [|intros Ix; left; split; [exact Ix|now apply N.ltb_lt]].
          intros [[Ix _]|[<-|Ix]]; [exact Ix|destruct (N.lt_irrefl _ L)|].
          destruct cut; [destruct Ix|destruct (N.lt_asymm _ _ L (Hhi x Ix))].
        + rewrite Gi. split; [discriminate|]. intros _. right. now left.
        + rewrite (Ga x L). destruct cut.
          * split; [|intros Ne; now contradiction Ne].
            intros [[_ Lx]|[<-|[]]]; [destruct (N.lt_asymm _ _ L (proj1 (N.ltb_lt _ _) Lx))|].
            destruct (N.lt_irrefl _ L).
          * rewrite <- Iw. rewrite Eids at 2. rewrite in_app_iff, filter_In. cbn [In]. reflexivity.
    Qed.

    (* THE replay lemma: on a filesystem damaged at the site, with the lazy reader delivering
       exactly recs1 from the damaged file, replay from the snapshot state applies exactly the
       operations of the undamaged prefix and then stops with the reader's error -- or, when
       the reader sees a clean end and the later segments are gone, ends there *)
    Lemma rs_log_damaged : forall sd data' cut e,
      Damaged s sd i data' cut ->
      read_segment_lazy H (S (length data')) data' = (recs1, e) -> (e = None -> cut = true) ->
      exists st0 st1,
        loaded_of sd = Ok st0 /\ lpv st0 = c /\ km st0 = km_c /\
        rs_log c sd (sort_ids (wal_ids sd)) st0 c 0 [] =
          (ops1, match e with
                 | Some x => Err (EReplay x)
                 | None => Ok (st1, c + N.of_nat j, N.of_nat j)
                 end) /\
        IdxInv cmp st1 /\ km st1 = fold_left kstep ops1 km_c /\ apply_all st0 ops1 = Ok st1.
    Proof.
      intros sd data' cut e Dm Rd Ecut.
      destruct (loaded_ok H H_len H_byte cfg n_pos _ _ _ _ _ _ _ _ _ _ _ Dw)
        as (st0 & El & Iv0 & K0 & L0 & _).
      rewrite <- (loaded_of_ext s sd (dm_index _ _ _ _ _ Dm)) in El.
      destruct site_prefix as (F1 & Lj & Og1 & Oo1 & _). rewrite <- K0 in Oo1.
      destruct (rr_log_ok c _ ops1 st0 c 0 [] (N.le_refl c) F1 Og1 Iv0 Oo1)
        as (st1 & E1 & Iv1 & K1 & Ap).
      rewrite Lj, N.add_0_l in E1. cbn [app] in E1.
      unfold recs_before in E1. rewrite rr_log_app in E1.
      exists st0, st1. rewrite K0 in K1. split; [exact El|]. split; [exact L0|]. split; [exact K0|].
      split; [|split; [exact Iv1|split; [exact K1|exact Ap]]].
      destruct (damaged_ids sd data' cut Dm) as (hi & ->). destruct Dm as [_ _ _ _ _ Gb Gi _].
      rewrite rs_log_app, (rs_log_flat c sd rf lo).
      2:{ intros x Ix. pose proof Ix as Lx. apply filter_In in Lx. destruct Lx as [Ix' Lx].
          apply (dw_read_lazy H H_len cfg _ _ _ _ _ _ _ _ _ _ _ sd Dw x Ix'), Gb. now apply N.ltb_lt. }
      destruct (rr_log c (flat_map rf lo) st0 c 0 []) as [accA [[[sA hA] cA]|x]]; [|discriminate].
      apply fdat_some in Gi. destruct Gi as (fi & Gfi & Dfi).
      cbn [rs_log]. rewrite Gfi, Dfi, Rd, E1.
      destruct e as [x|]; [reflexivity|]. now rewrite (Ecut eq_refl).
    Qed.

    Lemma applied_damaged : forall sd data' cut e,
      Damaged s sd i data' cut ->
      read_segment_lazy H (S (length data')) data' = (recs1, e) -> (e = None -> cut = true) ->
      applied_on_open sd = ops1 /\
      exists st0 st1, loaded_of sd = Ok st0 /\ km st0 = km_c /\
                      apply_all st0 ops1 = Ok st1 /\ km st1 = fold_left kstep ops1 km_c.
    Proof.
      intros sd data' cut e Dm Rd Ecut.
      destruct (rs_log_damaged sd data' cut e Dm Rd Ecut)
        as (st0 & st1 & El & L0 & K0 & E1 & _ & K1 & Ap).
      split; [|exists st0, st1; split; [exact El|split; [exact K0|split; [exact Ap|exact K1]]]].
      unfold applied_on_open. now rewrite El, L0, E1.
    Qed.

    Lemma index_load_damaged : forall data' cut e pre' w,
      Damaged s (wfs w) i data' cut -> wfault w = None ->
      read_segment_lazy H (S (length data')) data' = (recs1, e) -> (e = None -> cut = true) ->
      match e with
      | Some x => index_load H cfg pre' w = (Err (EReplay x), w)
      | None =>
        exists m' w', index_load H cfg pre' w = (Ok m', w') /\ Eff w w' /\
          km (idx m') = fold_left kstep ops1 km_c /\ IdxInv cmp (idx m') /\
          nextv (mwal m') = c + 1 + N.of_nat j /\ writer (mwal m') = None /\ mpre m' = pre'
      end.
    Proof.
      intros data' cut e pre' w Dm F Rd Ecut.
      destruct (rs_log_damaged (wfs w) data' cut e Dm Rd Ecut)
        as (st0 & st1 & El & L0 & K0 & E1 & Iv1 & K1 & _).
      apply (f_equal snd) in E1. rewrite rs_log_snd in E1. cbn [snd] in E1.
      rewrite index_load_split, El. destruct e as [x|].
      - unfold Recover.load_tail. cbv zeta. now rewrite L0, E1.
      - destruct (load_tail_plain pre' st0 st1 (c + N.of_nat j) (N.of_nat j) w F (dm_wf _ _ _ _ _ Dm))
          as (m' & w' & E' & X' & K' & R' & U' & T' & N' & Wr' & P'); [now rewrite L0|].
        exists m', w'. split; [exact E'|]. split; [exact X'|]. split; [now rewrite K'|].
        split; [exact (IdxInv_ext cfg _ _ K' R' U' T' Iv1)|].
        split; [exact (eq_trans N' (N.add_shuffle0 _ _ _))|]. now split.
    Qed.

    (* the general statement: the outcome of open on a filesystem damaged at the site *)
    Theorem open_damaged : forall d w, DamagedBy s sf i recs1 v p recs2 d w ->
      (c < v -> v = c + 1 + N.of_nat j /\ (j < length ops)%nat) /\
      applied_on_open (wfs w) = ops1 /\
      (exists st0 st1, loaded_of (wfs w) = Ok st0 /\ km st0 = km_c /\
                       apply_all st0 ops1 = Ok st1 /\ km st1 = fold_left kstep ops1 km_c) /\
      match damage_reads d with
      | Some x => exists w', open_with_recover H cfg w = (Err (EReplay x), w') /\
                             open_store H cfg w = (Err (EReplay x), w')
      | None =>
        exists m' os w', open_with_recover H cfg w = (Ok (m', os), w') /\ wfault w' = None /\
          km (idx m') = fold_left kstep ops1 km_c /\ IdxInv cmp (idx m') /\
          nextv (mwal m') = c + 1 + N.of_nat j /\ writer (mwal m') = None /\ mpre m' = pre /\
          (open_store H cfg w = (Ok (m', os), w') \/
           exists w'', open_store H cfg w = (Err EIntegrity, w'')) /\
          (c_failint cfg = false \/ c_scan cfg = false -> open_store H cfg w = (Ok (m', os), w'))
      end.
    Proof.
      intros d w (Dk & Dm & F). split; [apply site_prefix|].
      destruct site_rec_ok as [R1 Rv].
      pose proof (damaged_read recs1 v p (render recs2 ++ tailb (sf i)) d R1 Rv Dk) as Rd.
      cbv zeta in Rd.
      destruct (applied_damaged _ _ _ _ Dm Rd (damage_reads_cut d)) as [Ap Ld].
      split; [exact Ap|]. split; [exact Ld|].
      destruct (dw_settings _ _ _ _ _ _ _ _ _ _ _ _ _ Dw) as (d0 & Gs & Es).
      rewrite <- (dm_settings _ _ _ _ _ Dm) in Gs.
      destruct (open_reduce H cfg w pre d0 F (dm_wf _ _ _ _ _ Dm) (dm_staging _ _ _ _ _ Dm)
                  (dm_cas _ _ _ _ _ Dm) Gs Es) as (w3 & X3 & V3 & Eo).
      pose proof X3 as (F3 & W3 & D3 & _).
      pose proof (index_load_damaged _ _ _ pre w3 (Damaged_lock _ _ _ _ _ _ Dm W3 D3 V3) F3 Rd
                    (damage_reads_cut d)) as Out.
      destruct (damage_reads d) as [x|].
      - rewrite Out in Eo. exists w3. split; [exact Eo|]. exact (open_store_of _ _ _ Eo).
      - destruct Out as (m' & w' & E' & X' & K' & Iv' & N' & Wr' & P'). rewrite E' in Eo.
        pose proof (open_store_of _ _ _ Eo) as [O1 O2]. eexists m', _, w'.
        split; [exact Eo|]. split; [apply X'|]. split; [exact K'|]. split; [exact Iv'|].
        split; [exact N'|]. split; [exact Wr'|]. split; [exact P'|]. split; [exact O1|].
        intros [Fi|Sc]; apply O2; [now left|right]. now rewrite Sc.
    Qed.
  End AtSite.

  (* the setting of C10: a store at rest, a record above the snapshot version *)
  Definition Setting (m : mem) (s : fs) (sg : smap bytes) (ids : list N)
             (rf : N -> list (N * bytes)) (sf : N -> bool) (km_c : smap item) (ops : list rawop)
             (i : N) (recs1 : list (N * bytes)) (v : N) (p : bytes) (recs2 : list (N * bytes))
    : Prop :=
    Inv m s sg /\
    DiskW (lpv (idx m)) (nextv (mwal m)) (seg_of (nextv (mwal m) - 1)) (mpre m) (fdat s) sg
          ids rf sf km_c ops /\
    In i ids /\ rf i = recs1 ++ [(v, p)] ++ recs2 /\ lpv (idx m) < v.

  (* the concrete damage of theories-level filesystems satisfies the relation *)
  Lemma damage_fs_DamagedBy : forall m s sg sf i recs1 v p recs2 d w,
    Inv m s sg -> damage_ok v p d ->
    wfs w = damage_fs s i (damaged_data recs1 v p (render recs2 ++ tailb (sf i)) d) (damage_cut d) ->
    wfault w = None ->
    DamagedBy s sf i recs1 v p recs2 d w.
  Proof using H_len H_byte n_pos.
    intros m s sg sf i recs1 v p recs2 d w (L & _ & Wf) Dk Ws F.
    destruct (lv_dirs _ _ _ _ _ L) as (Hs & Hc & _).
    split; [exact Dk|]. split; [|exact F]. rewrite Ws. now apply damage_fs_Damaged.
  Qed.

  (* truncation inside the header part: the reader sees the end of the log.  Recovery yields
     exactly the state after the undamaged prefix o_1 .. o_j (the next version is v again);
     Cas::open returns it, or fails with EIntegrity when the integrity gate is on and the
     prefix state references a blob that a later (now lost) operation had deleted *)
  Theorem C10_truncation_header : forall m s sg ids rf sf km_c ops i recs1 v p recs2 n w,
    Setting m s sg ids rf sf km_c ops i recs1 v p recs2 ->
    DamagedBy s sf i recs1 v p recs2 (DTrunc n) w -> (n < 44)%nat ->
    let j := n_before (lpv (idx m)) ids rf i recs1 in
    v = lpv (idx m) + 1 + N.of_nat j /\ (j < length ops)%nat /\
    exists m' os w',
      open_with_recover H cfg w = (Ok (m', os), w') /\ wfault w' = None /\
      km (idx m') = fold_left kstep (firstn j ops) km_c /\ IdxInv cmp (idx m') /\
      nextv (mwal m') = v /\
      (open_store H cfg w = (Ok (m', os), w') \/
       exists w'', open_store H cfg w = (Err EIntegrity, w'')) /\
      (c_failint cfg = false \/ c_scan cfg = false -> open_store H cfg w = (Ok (m', os), w')).
  Proof.
    intros m s sg ids rf sf km_c ops i recs1 v p recs2 n w (_ & Dw & Ii & Erf & Lv) Db Ln j.
    destruct (open_damaged Dw Ii Erf _ _ Db) as (Hv & _ & _ & Out).
    destruct (Hv Lv) as [Ev Lj]. fold j in Ev, Lj. split; [exact Ev|]. split; [exact Lj|].
    cbn [damage_reads] in Out. rewrite (proj2 (Nat.ltb_lt n 44) Ln) in Out.
    destruct Out as (m' & os & w' & E & F' & K & Iv & Nv & _ & _ & O1 & O2). fold j in K, Nv.
    exists m', os, w'. rewrite Ev.
    split; [exact E|]. split; [exact F'|]. split; [exact K|]. split; [exact Iv|]. split; [exact Nv|].
    split; [exact O1|exact O2].
  Qed.

  (* the same with an abstract map: whenever sg_j represents the prefix state *)
  Corollary C10_truncation_header_abstract :
    forall m s sg ids rf sf km_c ops i recs1 v p recs2 n w sg_j,
    Setting m s sg ids rf sf km_c ops i recs1 v p recs2 ->
    DamagedBy s sf i recs1 v p recs2 (DTrunc n) w -> (n < 44)%nat ->
    km_of sg_j = fold_left kstep (firstn (n_before (lpv (idx m)) ids rf i recs1) ops) km_c ->
    exists m' os w',
      open_with_recover H cfg w = (Ok (m', os), w') /\
      km (idx m') = km_of sg_j /\ IdxInv cmp (idx m') /\
      (open_store H cfg w = (Ok (m', os), w') \/
       exists w'', open_store H cfg w = (Err EIntegrity, w'')).
  Proof.
    intros m s sg ids rf sf km_c ops i recs1 v p recs2 n w sg_j Se Db Ln Ek.
    destruct (C10_truncation_header _ _ _ _ _ _ _ _ _ _ _ _ _ _ _ Se Db Ln)
      as (_ & _ & m' & os & w' & E & _ & K & Iv & _ & O1 & _).
    exists m', os, w'. rewrite Ek. split; [exact E|]. split; [exact K|]. split; [exact Iv|exact O1].
  Qed.

  (* truncation inside the payload *)
  Theorem C10_truncation_payload : forall m s sg ids rf sf km_c ops i recs1 v p recs2 n w,
    Setting m s sg ids rf sf km_c ops i recs1 v p recs2 ->
    DamagedBy s sf i recs1 v p recs2 (DTrunc n) w -> (44 <= n)%nat ->
    exists w', open_with_recover H cfg w = (Err (EReplay RShortPayload), w') /\
               open_store H cfg w = (Err (EReplay RShortPayload), w').
  Proof.
    intros m s sg ids rf sf km_c ops i recs1 v p recs2 n w (_ & Dw & Ii & Erf & _) Db Ln.
    destruct (open_damaged Dw Ii Erf _ _ Db) as (_ & _ & _ & Out).
    cbn [damage_reads] in Out. now rewrite (proj2 (Nat.ltb_ge n 44) Ln) in Out.
  Qed.

  (* a changed payload (same length, no collision with the original) *)
  Theorem C10_bad_payload : forall m s sg ids rf sf km_c ops i recs1 v p recs2 p' w,
    Setting m s sg ids rf sf km_c ops i recs1 v p recs2 ->
    DamagedBy s sf i recs1 v p recs2 (DPayload p') w ->
    exists w', open_with_recover H cfg w = (Err (EReplay RChecksum), w') /\
               open_store H cfg w = (Err (EReplay RChecksum), w').
  Proof.
    intros m s sg ids rf sf km_c ops i recs1 v p recs2 p' w (_ & Dw & Ii & Erf & _) Db.
    exact (proj2 (proj2 (proj2 (open_damaged Dw Ii Erf _ _ Db)))).
  Qed.

  (* a changed checksum *)
  Theorem C10_bad_checksum : forall m s sg ids rf sf km_c ops i recs1 v p recs2 c' w,
    Setting m s sg ids rf sf km_c ops i recs1 v p recs2 ->
    DamagedBy s sf i recs1 v p recs2 (DChecksum c') w ->
    exists w', open_with_recover H cfg w = (Err (EReplay RChecksum), w') /\
               open_store H cfg w = (Err (EReplay RChecksum), w').
  Proof.
    intros m s sg ids rf sf km_c ops i recs1 v p recs2 c' w (_ & Dw & Ii & Erf & _) Db.
    exact (proj2 (proj2 (proj2 (open_damaged Dw Ii Erf _ _ Db)))).
  Qed.

  (* the summary: an error (a replay error, or the integrity gate), or exactly the state after
     the longest undamaged prefix, with a consistent index *)
  Theorem C10_damage : forall m s sg ids rf sf km_c ops i recs1 v p recs2 d w,
    Setting m s sg ids rf sf km_c ops i recs1 v p recs2 ->
    DamagedBy s sf i recs1 v p recs2 d w ->
    let j := n_before (lpv (idx m)) ids rf i recs1 in
    (exists e w', open_store H cfg w = (Err e, w') /\
                  (e = EIntegrity \/ e = EReplay RShortPayload \/ e = EReplay RChecksum)) \/
    (exists m' os w', open_store H cfg w = (Ok (m', os), w') /\
       km (idx m') = fold_left kstep (firstn j ops) km_c /\ IdxInv cmp (idx m') /\
       nextv (mwal m') = v /\ (j < length ops)%nat).
  Proof.
    intros m s sg ids rf sf km_c ops i recs1 v p recs2 d w (_ & Dw & Ii & Erf & Lv) Db j.
    destruct (open_damaged Dw Ii Erf _ _ Db) as (Hv & _ & _ & Out). destruct (Hv Lv) as [Ev Lj].
    destruct (damage_reads d) as [x|] eqn:Ex.
    - destruct Out as (w' & _ & O). left. exists (EReplay x), w'. split; [exact O|]. right.
      destruct (damage_reads_err d x Ex) as [-> | ->]; auto.
    - destruct Out as (m' & os & w' & _ & _ & K & Iv & Nv & _ & _ & [O|(w'' & O)] & _).
      + right. exists m', os, w'. rewrite Ev.
        split; [exact O|]. split; [exact K|]. split; [exact Iv|]. split; [exact Nv|exact Lj].
      + left. exists EIntegrity, w''. split; [exact O|now left].
  Qed.

  (* never a panic: the decoded prefix operations keep the index invariant, apply_op never
     errs on them *)
  Theorem C10_no_panic : forall m s sg ids rf sf km_c ops i recs1 v p recs2 d w,
    Setting m s sg ids rf sf km_c ops i recs1 v p recs2 ->
    DamagedBy s sf i recs1 v p recs2 d w ->
    fst (open_store H cfg w) <> Err EPanic /\ fst (open_with_recover H cfg w) <> Err EPanic.
  Proof.
    intros m s sg ids rf sf km_c ops i recs1 v p recs2 d w (_ & Dw & Ii & Erf & _) Db.
    destruct (open_damaged Dw Ii Erf _ _ Db) as (_ & _ & _ & Out).
    destruct (damage_reads d) as [x|].
    - destruct Out as (w' & E1 & E2). rewrite E1, E2. cbn [fst]. split; discriminate.
    - destruct Out as (m' & os & w' & E1 & _ & _ & _ & _ & _ & _ & [E2|(w'' & E2)] & _);
        rewrite E1, E2; cbn [fst]; split; discriminate.
  Qed.

  (* no partial or altered operation is ever applied: whatever the outcome, the operations the
     replay applies are o_1 .. o_j, in order, from the start *)
  Theorem C10_applied_prefix : forall m s sg ids rf sf km_c ops i recs1 v p recs2 d w,
    Setting m s sg ids rf sf km_c ops i recs1 v p recs2 ->
    DamagedBy s sf i recs1 v p recs2 d w ->
    applied_on_open (wfs w) = firstn (n_before (lpv (idx m)) ids rf i recs1) ops.
  Proof.
    intros m s sg ids rf sf km_c ops i recs1 v p recs2 d w (_ & Dw & Ii & Erf & _) Db.
    exact (proj1 (proj2 (open_damaged Dw Ii Erf _ _ Db))).
  Qed.

  (* ... and when the open succeeds, the key map of the new handle is the result of applying
     exactly these operations to the state loaded from the snapshot *)
  Theorem C10_never_alters : forall m s sg ids rf sf km_c ops i recs1 v p recs2 d w m' os w',
    Setting m s sg ids rf sf km_c ops i recs1 v p recs2 ->
    DamagedBy s sf i recs1 v p recs2 d w ->
    open_store H cfg w = (Ok (m', os), w') ->
    let j := n_before (lpv (idx m)) ids rf i recs1 in
    applied_on_open (wfs w) = firstn j ops /\ (j < length ops)%nat /\
    exists st0 st1, loaded_of (wfs w) = Ok st0 /\ km st0 = km_c /\
                    apply_all st0 (applied_on_open (wfs w)) = Ok st1 /\ km (idx m') = km st1.
  Proof.
    intros m s sg ids rf sf km_c ops i recs1 v p recs2 d w m' os w' (_ & Dw & Ii & Erf & Lv) Db Eo j.
    destruct (open_damaged Dw Ii Erf _ _ Db)
      as (Hv & Ap & (st0 & st1 & El & K0 & Al & K1) & Out). fold j in Ap, Al, K1, Out.
    split; [exact Ap|]. split; [exact (proj2 (Hv Lv))|]. exists st0, st1. rewrite Ap.
    split; [exact El|]. split; [exact K0|]. split; [exact Al|].
    destruct (damage_reads d) as [x|].
    - destruct Out as (w1 & _ & E2). rewrite E2 in Eo. discriminate.
    - destruct Out as (m1 & os1 & w1 & _ & _ & K & _ & _ & _ & _ & [E2|(w'' & E2)] & _);
        rewrite E2 in Eo; [|discriminate].
      inversion Eo; subst. now rewrite K, K1.
  Qed.

  (* the setting is not vacuous: every store at rest with at least one record above the
     snapshot version has a damage site (e.g. the first such record) *)
  Lemma site_exists : forall m s sg, Inv m s sg -> lpv (idx m) + 1 < nextv (mwal m) ->
    exists ids rf sf km_c ops i recs1 v p recs2,
      Setting m s sg ids rf sf km_c ops i recs1 v p recs2.
  Proof.
    intros m s sg IV Lt. destruct (proj1 (proj2 IV)) as (ids & rf & sf & km_c & ops & Dw).
    destruct (uncheckpointed_in_last_segments _ _ _ _ _ _ _ _ _ _ _ Dw) as (_ & _ & _ & U4).
    destruct (U4 (lpv (idx m) + 1)) as (Ii & _ & p & Ip); [now apply N.lt_add_pos_r|exact Lt|].
    destruct (in_split _ _ Ip) as (l1 & l2 & E).
    exists ids, rf, sf, km_c, ops, (seg_of (lpv (idx m) + 1)), l1, (lpv (idx m) + 1), p, l2.
    split; [exact IV|]. split; [exact Dw|]. split; [exact Ii|]. split; [exact E|now apply N.lt_add_pos_r].
  Qed.
End Damage.

(* the world whose filesystem is [s] with record number k (0-based) of segment file i damaged
   by d; [recs] are the records of that file, [tail] what follows them (sentinel or nothing) *)
Definition damage_world (Hx : bytes -> bytes) (s : fs) (i : N) (recs : list (N * bytes))
           (tail : bytes) (k : nat) (d : damage) : world :=
  match skipn k recs with
  | (v, p) :: recs2 =>
    init_world (damage_fs s i (damaged_data Hx (firstn k recs) v p (render Hx recs2 ++ tail) d)
                          (damage_cut d)) None
  | [] => init_world s None
  end.

Definition opened_km (r : res serr (mem * option ostats)) : res serr (smap item) :=
  match r with Ok (m, _) => Ok (km (idx m)) | Err e => Err e end.

(* a three-operation history, 10 operations per segment: no snapshot, all three records in
   segment 0 (c = 0, versions 1, 2, 3) *)
Definition dmg_cfg : config := mkConfig KBytes 10 true false false false false.
(* the same directory opened with the orphan scan and the integrity gate switched on *)
Definition dmg_cfg_gate : config := mkConfig KBytes 10 true false true false true.
Definition dmg_ops : list op :=
  [OpPut toy_k1 [toy_c1]; OpPut toy_k2 [toy_c1; toy_c2]; OpRemove toy_k1].
Definition dmg_fs (Hx : bytes -> bytes) : fs :=
  wfs (snd (run_hist Hx empty_fs None (OpOpen dmg_cfg false :: dmg_ops ++ [OpClose]))).
Definition dmg_raw (Hx : bytes -> bytes) : list rawop :=
  [RPut toy_k1 (Hx toy_c1) 3; RPut toy_k2 (Hx (toy_c1 ++ toy_c2)) 5; RRemove [toy_k1]].
Definition dmg_at (Hx : bytes -> bytes) (k : nat) (d : damage) : world :=
  damage_world Hx (dmg_fs Hx) 0 (enc_from 1 (dmg_raw Hx)) [] k d.

(* the history is run once; the examples start from its result *)
Definition dmg_fs_toy : fs := Eval vm_compute in dmg_fs toyH.
Lemma dmg_fs_toy_eq : dmg_fs toyH = dmg_fs_toy.
Proof. vm_compute. reflexivity. Qed.

(* the log on disk is the rendering of the three records; there is no snapshot *)
Example dmg_log_shape :
  fdat (dmg_fs toyH) (PWal 0) = Some (render toyH (enc_from 1 (dmg_raw toyH))) /\
  fdat (dmg_fs toyH) PIndex = None /\ wal_ids (dmg_fs toyH) = [0].
Proof. rewrite dmg_fs_toy_eq. vm_compute. repeat split. Qed.

(* undamaged: all three operations are applied *)
Example dmg_none :
  opened_km (fst (open_store toyH dmg_cfg (init_world (dmg_fs toyH) None)))
  = Ok [(toy_k2, mkItem (toyH (toy_c1 ++ toy_c2)) 5)] /\
  applied_on_open toyH dmg_cfg (dmg_fs toyH) = dmg_raw toyH.
Proof. rewrite dmg_fs_toy_eq. vm_compute. split; reflexivity. Qed.

(* truncation 10 bytes into the header of the third record: the state after o1, o2 *)
Example dmg_trunc_header_3 :
  opened_km (fst (open_store toyH dmg_cfg (dmg_at toyH 2 (DTrunc 10))))
  = Ok [(toy_k1, mkItem (toyH toy_c1) 3); (toy_k2, mkItem (toyH (toy_c1 ++ toy_c2)) 5)] /\
  applied_on_open toyH dmg_cfg (wfs (dmg_at toyH 2 (DTrunc 10))) = firstn 2 (dmg_raw toyH).
Proof. unfold dmg_at. rewrite dmg_fs_toy_eq. vm_compute. split; reflexivity. Qed.

(* ... with the integrity gate: the prefix state references the blob of toy_c1, which the lost
   third operation had deleted *)
Example dmg_trunc_header_3_gate :
  opened_km (fst (open_store toyH dmg_cfg_gate (dmg_at toyH 2 (DTrunc 10)))) = Err EIntegrity /\
  opened_km (fst (open_with_recover toyH dmg_cfg_gate (dmg_at toyH 2 (DTrunc 10))))
  = Ok [(toy_k1, mkItem (toyH toy_c1) 3); (toy_k2, mkItem (toyH (toy_c1 ++ toy_c2)) 5)].
Proof. unfold dmg_at. rewrite dmg_fs_toy_eq. vm_compute. split; reflexivity. Qed.

(* truncation at the last header byte of the second record (the third is lost with it): the
   state after o1 *)
Example dmg_trunc_header_2 :
  opened_km (fst (open_store toyH dmg_cfg (dmg_at toyH 1 (DTrunc 43))))
  = Ok [(toy_k1, mkItem (toyH toy_c1) 3)] /\
  applied_on_open toyH dmg_cfg (wfs (dmg_at toyH 1 (DTrunc 43))) = firstn 1 (dmg_raw toyH).
Proof. unfold dmg_at. rewrite dmg_fs_toy_eq. vm_compute. split; reflexivity. Qed.

(* truncation inside the payload of the second record *)
Example dmg_trunc_payload_2 :
  fst (open_store toyH dmg_cfg (dmg_at toyH 1 (DTrunc 50))) = Err (EReplay RShortPayload) /\
  applied_on_open toyH dmg_cfg (wfs (dmg_at toyH 1 (DTrunc 50))) = firstn 1 (dmg_raw toyH).
Proof. unfold dmg_at. rewrite dmg_fs_toy_eq. vm_compute. split; reflexivity. Qed.

(* a changed checksum in the second record *)
Example dmg_bad_checksum_2 :
  fst (open_store toyH dmg_cfg (dmg_at toyH 1 (DChecksum (repeat 7 32)))) = Err (EReplay RChecksum) /\
  applied_on_open toyH dmg_cfg (wfs (dmg_at toyH 1 (DChecksum (repeat 7 32)))) = firstn 1 (dmg_raw toyH).
Proof. unfold dmg_at. rewrite dmg_fs_toy_eq. vm_compute. split; reflexivity. Qed.

(* a changed payload: the size field of the second operation 5 -> 6.  toyH depends only on the
   length of its input, so for toyH this damage is a collision -- excluded by [damage_ok] -- and
   the altered operation IS applied: the no-collision hypothesis cannot be dropped. *)
Definition dmg_p2' (Hx : bytes -> bytes) : bytes := enc_op (RPut toy_k2 (Hx (toy_c1 ++ toy_c2)) 6).
Example dmg_payload_collision_toyH :
  opened_km (fst (open_store toyH dmg_cfg (dmg_at toyH 1 (DPayload (dmg_p2' toyH)))))
  = Ok [(toy_k2, mkItem (toyH (toy_c1 ++ toy_c2)) 6)].
Proof. unfold dmg_at. rewrite dmg_fs_toy_eq. vm_compute. reflexivity. Qed.

(* with a hash that looks at the content the same damage is detected *)
Definition sumH (b : bytes) : bytes :=
  repeat ((fold_right N.add 0 b + N.of_nat (length b)) mod 256) 32.
Example dmg_bad_payload_2 :
  sumH (dmg_p2' sumH) <> sumH (enc_op (RPut toy_k2 (sumH (toy_c1 ++ toy_c2)) 5)) /\
  fst (open_store sumH dmg_cfg (dmg_at sumH 1 (DPayload (dmg_p2' sumH)))) = Err (EReplay RChecksum) /\
  applied_on_open sumH dmg_cfg (wfs (dmg_at sumH 1 (DPayload (dmg_p2' sumH)))) = firstn 1 (dmg_raw sumH).
Proof. vm_compute. split; [discriminate|split; reflexivity]. Qed.

(* two operations per segment, four operations: the third rolls over and checkpoints (c = 3,
   segment 0 pruned); segment 1 holds versions 3 (below the snapshot) and 4 *)
Definition dmg2_ops : list op :=
  [OpPut toy_k1 [toy_c1]; OpPut toy_k2 [toy_c1; toy_c2]; OpRemove toy_k1; OpPut toy_k1 [toy_c2]].
Definition dmg2_fs : fs :=
  wfs (snd (run_hist toyH empty_fs None (OpOpen toy_cfg false :: dmg2_ops ++ [OpClose]))).
Definition dmg2_recs : list (N * bytes) :=
  [(3, enc_op (RRemove [toy_k1])); (4, enc_op (RPut toy_k1 (toyH toy_c2) 2))].

Definition dmg2_fs_toy : fs := Eval vm_compute in dmg2_fs.
Lemma dmg2_fs_toy_eq : dmg2_fs = dmg2_fs_toy.
Proof. vm_compute. reflexivity. Qed.

Example dmg2_log_shape :
  fdat dmg2_fs (PWal 1) = Some (render toyH dmg2_recs) /\ wal_ids dmg2_fs = [1] /\
  fdat dmg2_fs PIndex = Some (enc_snapshot 3 [(toy_k2, mkItem (toyH (toy_c1 ++ toy_c2)) 5)]).
Proof. rewrite dmg2_fs_toy_eq. vm_compute. repeat split. Qed.

(* truncation in the header of record 4: the snapshot state (j = 0); the record of version 3 is
   read but not applied *)
Example dmg2_trunc_header :
  opened_km (fst (open_store toyH toy_cfg (damage_world toyH dmg2_fs 1 dmg2_recs [] 1 (DTrunc 5))))
  = Ok [(toy_k2, mkItem (toyH (toy_c1 ++ toy_c2)) 5)] /\
  applied_on_open toyH toy_cfg (wfs (damage_world toyH dmg2_fs 1 dmg2_recs [] 1 (DTrunc 5))) = [].
Proof. rewrite dmg2_fs_toy_eq. vm_compute. split; reflexivity. Qed.

Example dmg2_bad_checksum :
  fst (open_store toyH toy_cfg (damage_world toyH dmg2_fs 1 dmg2_recs [] 1 (DChecksum (repeat 9 32))))
  = Err (EReplay RChecksum).
Proof. rewrite dmg2_fs_toy_eq. vm_compute. reflexivity. Qed.

(* the hypotheses of the theorems are satisfiable: the general theorems apply to the
   three-operation instance *)
Lemma dmg_nocollide : NoCollide toyH (hist_contents dmg_ops).
Proof.
  intros a b Ia Ib E. cbn in Ia, Ib.
  destruct Ia as [<-|[<-|[]]]; destruct Ib as [<-|[<-|[]]]; try reflexivity;
    vm_compute in E; discriminate.
Qed.

Example dmg_theorem_instance :
  exists hd w0 sg ids rf sf km_c ops i recs1 v p recs2,
    run_ops toyH None (OpOpen dmg_cfg false :: dmg_ops) (init_world empty_fs None)
      = ((OutOpened None :: spec_outs toyH dmg_cfg [] dmg_ops, Some hd), w0) /\
    Setting toyH dmg_cfg (h_mem hd) (wfs w0) sg ids rf sf km_c ops i recs1 v p recs2 /\
    forall d w, DamagedBy toyH (wfs w0) sf i recs1 v p recs2 d w ->
      fst (open_store toyH dmg_cfg w) <> Err EPanic /\
      applied_on_open toyH dmg_cfg (wfs w)
      = firstn (n_before (lpv (idx (h_mem hd))) ids rf i recs1) ops.
Proof.
  destruct (C02_restart_transparent toyH toyH_len toyH_byte dmg_cfg eq_refl dmg_ops eq_refl)
    as (os0 & outs & hd & w0 & E & _ & St & _ & _ & IV).
  - reflexivity.
  - repeat (first [apply hr_api; [exact I|] | apply hr_nil]).
  - exact dmg_nocollide.
  - vm_compute. repeat split.
  - reflexivity.
  - assert (Eh : fst (run_ops toyH None (OpOpen dmg_cfg false :: dmg_ops) (init_world empty_fs None))
                 = (OutOpened os0 :: outs, Some hd)) by (now rewrite E).
    vm_compute in Eh. injection Eh as <- <- Ehd.
    destruct (site_exists toyH dmg_cfg eq_refl _ _ _ IV)
      as (ids & rf & sf & km_c & ops & i & recs1 & v & p & recs2 & Se); [now rewrite <- Ehd|].
    eexists hd, w0, _, ids, rf, sf, km_c, ops, i, recs1, v, p, recs2.
    split; [exact E|]. split; [exact Se|]. intros d w Db. split.
    + exact (proj1 (C10_no_panic toyH toyH_len toyH_byte dmg_cfg eq_refl _ _ _ _ _ _ _ _ _ _ _ _ _ _ _ Se Db)).
    + exact (C10_applied_prefix toyH toyH_len toyH_byte dmg_cfg eq_refl _ _ _ _ _ _ _ _ _ _ _ _ _ _ _ Se Db).
Qed.

Print Assumptions uncheckpointed_in_last_segments.
Print Assumptions uncheckpointed_in_last_segments_store.
Print Assumptions rs_log_snd.
Print Assumptions rs_log_faithful.
Print Assumptions damage_fs_DamagedBy.
Print Assumptions open_damaged.
Print Assumptions C10_truncation_header.
Print Assumptions C10_truncation_header_abstract.
Print Assumptions C10_truncation_payload.
Print Assumptions C10_bad_payload.
Print Assumptions C10_bad_checksum.
Print Assumptions C10_damage.
Print Assumptions C10_no_panic.
Print Assumptions C10_applied_prefix.
Print Assumptions C10_never_alters.
Print Assumptions site_exists.
Print Assumptions index_load_applied.
Print Assumptions dmg_trunc_header_3.
Print Assumptions dmg_theorem_instance.
