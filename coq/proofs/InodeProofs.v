(* InodeProofs.v -- long-lived readers (C06): the inode-level model of theories/Inode.v.
   In the order of the file: the name table and the content table; [iwf] is kept by every call;
   name-level agreement with FS.v (apply_call / replay_calls), for effective traces ([agree]);
   the reader theorem: under cas_safe traces an inode that is reachable only through names under
   cas/ (or through no name at all) keeps its content; recorded traces are effective ([Eff],
   every program built from ret, bind and the primitives: WorldRel.IsProg); readers along API
   histories; closed examples. *)
From Cas Require Import History Inode.
From CasProofs Require Import BaseProofs SMapProofs
  StoreFS StoreInv StoreWrite StoreRead StoreHist WorldRel.
Open Scope N_scope.


(* tables *)
Lemma blook_in : forall l p i, blook l p = Some i -> In (p, i) l.
Proof.
  induction l as [|[q j] l IH]; intros p i E; cbn [blook] in E; [discriminate|].
  destruct (path_eqb_spec p q) as [X|X].
  - inversion E; subst. now left.
  - right. now apply IH.
Qed.

Lemma blook_none_iff : forall l p, blook l p = None <-> ~ In p (map fst l).
Proof.
  induction l as [|[q j] l IH]; intros p; cbn [blook map fst In].
  - split; [intros _ []|reflexivity].
  - destruct (path_eqb_spec p q) as [E|E].
    + split; [discriminate|]. intros N. exfalso. apply N. left. now symmetry.
    + rewrite IH. split.
      * intros N [X|X]; [apply E; now symmetry|now apply N].
      * intros N X. apply N. now right.
Qed.

Lemma in_blook : forall l p i, NoDup (map fst l) -> In (p, i) l -> blook l p = Some i.
Proof.
  induction l as [|[q j] l IH]; intros p i ND I; [destruct I|].
  inversion ND as [|? ? N1 ND']; subst. cbn [blook]. destruct I as [I|I].
  - inversion I; subst. now rewrite path_eqb_refl.
  - destruct (path_eqb_spec p q) as [X|X].
    + subst q. exfalso. apply N1. cbn [fst]. apply in_map_iff. now exists (p, i).
    + now apply IH.
Qed.

Lemma blook_bset : forall l p i q,
  blook (bset l p i) q = if path_eqb q p then Some i else blook l q.
Proof.
  induction l as [|[r j] l IH]; intros p i q; cbn [bset blook].
  - reflexivity.
  - destruct (path_eqb_spec p r) as [E|E]; cbn [blook].
    + subst r. destruct (path_eqb q p); reflexivity.
    + rewrite IH. destruct (path_eqb_spec q r) as [E2|E2]; [|reflexivity].
      subst r. rewrite path_eqb_neq; [reflexivity|]. intros X. apply E. now symmetry.
Qed.

Lemma in_bremove : forall l p q j, In (q, j) (bremove l p) -> In (q, j) l.
Proof.
  induction l as [|[r k] l IH]; intros p q j; cbn [bremove In]; [tauto|].
  destruct (path_eqb p r); cbn [In].
  - intros I. now right.
  - intros [I|I]; [now left|right; eapply IH; exact I].
Qed.

(* removing a binding keeps any projection of the table free of repetitions (g = fst: names,
   g = snd: inodes) *)
Lemma bremove_nodup : forall {B} (g : path * nat -> B) l p,
  NoDup (map g l) -> NoDup (map g (bremove l p)).
Proof.
  induction l as [|[r k] l IH]; intros p ND; cbn [bremove map]; [constructor|].
  inversion ND as [|? ? N1 ND']; subst.
  destruct (path_eqb p r); cbn [map]; [exact ND'|].
  constructor; [|apply IH, ND']. intros I. apply N1. apply in_map_iff in I.
  destruct I as ([a b] & E & I). apply in_bremove in I. apply in_map_iff. now exists (a, b).
Qed.

Lemma blook_bremove : forall l p q, NoDup (map fst l) ->
  blook (bremove l p) q = if path_eqb q p then None else blook l q.
Proof.
  induction l as [|[r k] l IH]; intros p q ND; cbn [bremove blook].
  - now destruct (path_eqb q p).
  - inversion ND as [|? ? N1 ND']; subst. cbn [fst] in N1.
    destruct (path_eqb_spec p r) as [E|E]; cbn [blook].
    + subst r. destruct (path_eqb_spec q p) as [E2|E2]; [|reflexivity].
      subst q. now apply blook_none_iff.
    + rewrite IH by exact ND'. destruct (path_eqb_spec q r) as [E2|E2]; [|reflexivity].
      subst r. rewrite path_eqb_neq; [reflexivity|]. intros X. apply E. now symmetry.
Qed.

Lemma in_bset : forall l p i q j, In (q, j) (bset l p i) -> (q = p /\ j = i) \/ In (q, j) l.
Proof.
  induction l as [|[r k] l IH]; intros p i q j; cbn [bset In].
  - intros [I|[]]. inversion I. now left.
  - destruct (path_eqb_spec p r) as [E|E]; cbn [In].
    + intros [I|I]; [inversion I; subst; now left|right; now right].
    + intros [I|I]; [right; now left|]. apply IH in I. destruct I; [now left|right; now right].
Qed.

Lemma bset_names : forall l p i, NoDup (map fst l) -> NoDup (map fst (bset l p i)).
Proof.
  induction l as [|[r k] l IH]; intros p i ND; cbn [bset map fst].
  - constructor; [intros []|constructor].
  - inversion ND as [|? ? N1 ND']; subst. cbn [fst] in N1.
    destruct (path_eqb_spec p r) as [E|E]; cbn [map fst]; [now constructor|].
    constructor; [|apply IH, ND']. intros I. apply in_map_iff in I.
    destruct I as ([a b] & Ea & I). cbn [fst] in Ea. subst a. apply in_bset in I.
    destruct I as [[X _]|I]; [apply E; now symmetry|]. apply N1. apply in_map_iff. now exists (r, b).
Qed.

(* the inode i may already be in the table, but then only under the name p itself *)
Lemma bset_inodes : forall l p i, NoDup (map fst l) -> NoDup (map snd l) ->
  (forall q j, In (q, j) l -> q <> p -> j <> i) ->
  NoDup (map snd (bset l p i)).
Proof.
  induction l as [|[r k] l IH]; intros p i NDf ND Fr; cbn [bset map snd].
  - constructor; [intros []|constructor].
  - inversion ND as [|? ? N1 ND']; subst. cbn [snd] in N1.
    inversion NDf as [|? ? N1f NDf']; subst. cbn [fst] in N1f.
    destruct (path_eqb_spec p r) as [E|E]; cbn [map snd].
    + subst r. constructor; [|exact ND']. intros I. apply in_map_iff in I.
      destruct I as ([a b] & Eb & I). cbn [snd] in Eb. subst b.
      destruct (path_eq_dec a p) as [X|X].
      * subst a. apply N1f. apply in_map_iff. now exists (p, i).
      * apply (Fr a i); [now right|exact X|reflexivity].
    + constructor.
      * intros I. apply in_map_iff in I. destruct I as ([a b] & Eb & I). cbn [snd] in Eb. subst b.
        apply in_bset in I. destruct I as [[_ X]|I].
        -- subst k. apply (Fr r i); [now left| |reflexivity]. intros Y. apply E. now symmetry.
        -- apply N1. apply in_map_iff. now exists (a, k).
      * apply IH; [exact NDf'|exact ND'|]. intros q j I. apply Fr. now right.
Qed.

Lemma nolink_inj : forall (l : list (path * nat)) a b i, NoDup (map snd l) -> In (a, i) l -> In (b, i) l -> a = b.
Proof.
  induction l as [|[r k] l IH]; intros a b i ND Ia Ib; [destruct Ia|].
  inversion ND as [|? ? N1 ND']; subst. cbn [snd] in N1.
  destruct Ia as [Ia|Ia], Ib as [Ib|Ib].
  - congruence.
  - inversion Ia; subst. exfalso. apply N1. apply in_map_iff. now exists (b, i).
  - inversion Ib; subst. exfalso. apply N1. apply in_map_iff. now exists (a, i).
  - eapply IH; eassumption.
Qed.

Lemma dget_dset : forall d i c j, dget (dset d i c) j = if Nat.eqb j i then Some c else dget d j.
Proof.
  induction d as [|[k c'] d IH]; intros i c j; cbn [dset dget]; [reflexivity|].
  destruct (Nat.eqb_spec i k) as [E|E]; cbn [dget].
  - subst k. destruct (Nat.eqb j i); reflexivity.
  - rewrite IH. destruct (Nat.eqb_spec j k) as [E2|E2]; [|reflexivity].
    subst k. destruct (Nat.eqb_spec j i); [congruence|reflexivity].
Qed.

Lemma in_dset : forall d i c j c', In (j, c') (dset d i c) -> j = i \/ In (j, c') d.
Proof.
  induction d as [|[k c0] d IH]; intros i c j c'; cbn [dset In].
  - intros [I|[]]. inversion I. now left.
  - destruct (Nat.eqb_spec i k) as [E|E]; cbn [In].
    + intros [I|I]; [inversion I; subst; now left|right; now right].
    + intros [I|I]; [right; now left|]. apply IH in I. destruct I; [now left|right; now right].
Qed.

Lemma dget_in : forall d i c, dget d i = Some c -> In (i, c) d.
Proof.
  induction d as [|[k c0] d IH]; intros i c E; cbn [dget] in E; [discriminate|].
  destruct (Nat.eqb_spec i k) as [X|X].
  - inversion E; subst. now left.
  - right. now apply IH.
Qed.

(* well-formedness *)
Lemma empty_ifs_wf : iwf empty_ifs.
Proof. constructor; cbn; try constructor; intros; contradiction. Qed.

Lemma ilookup_in : forall s p i, ilookup s p = Some i -> In (p, i) (ibind s).
Proof. intros s p i. apply blook_in. Qed.

Lemma ilookup_lt : forall s p i, iwf s -> ilookup s p = Some i -> (i < inext s)%nat.
Proof. intros s p i W E. eapply iw_bound; [exact W|]. apply ilookup_in. exact E. Qed.

Lemma iread_lt : forall s i c, iwf s -> iread s i = Some c -> (i < inext s)%nat.
Proof. intros s i c W E. eapply iw_data; [exact W|]. apply dget_in. exact E. Qed.

(* no hard links: two names of one inode are the same name *)
Lemma ilookup_inj : forall s p q i, iwf s -> ilookup s p = Some i -> ilookup s q = Some i -> p = q.
Proof.
  intros s p q i W Ep Eq. eapply nolink_inj; [exact (iw_nolink s W)| |]; apply ilookup_in; eassumption.
Qed.

Lemma iwrite_wf : forall s i c, iwf s -> (i < inext s)%nat -> iwf (iwrite s i c).
Proof.
  intros s i c [W1 W2 W3 W4 W5] Li. constructor; cbn [iwrite ibind idata inext]; auto.
  - intros j c' I. apply in_dset in I. destruct I as [->|I]; [exact Li|eauto].
  - intros p j I. rewrite dget_dset. destruct (Nat.eqb j i); [discriminate|eauto].
Qed.

Lemma ialloc_wf : forall s p, iwf s -> iwf (ialloc s p).
Proof.
  intros s p [W1 W2 W3 W4 W5]. constructor; cbn [ialloc ibind idata inext].
  - now apply bset_names.
  - apply bset_inodes; [exact W1|exact W2|]. intros q j I _ X. subst j. apply W3 in I. lia.
  - intros q j I. apply in_bset in I. destruct I as [[_ ->]|I]; [lia|]. apply W3 in I. lia.
  - intros j c' I. apply in_dset in I. destruct I as [->|I]; [lia|]. apply W4 in I. lia.
  - intros q j I. rewrite dget_dset. destruct (Nat.eqb_spec j (inext s)) as [X|X]; [discriminate|].
    apply in_bset in I. destruct I as [[_ ->]|I]; [now elim X|eauto].
Qed.

Lemma irename_wf : forall s p q i, iwf s -> ilookup s p = Some i ->
  iwf (mkIfs (bset (bremove (ibind s) p) q i) (idata s) (inext s)).
Proof.
  intros s p q i W E. pose proof (ilookup_in _ _ _ E) as Ip. destruct W as [W1 W2 W3 W4 W5].
  constructor; cbn [ibind idata inext].
  - now apply bset_names, bremove_nodup.
  - apply bset_inodes; [now apply bremove_nodup|now apply bremove_nodup|].
    intros r j I _ X. subst j.
    assert (Er : blook (bremove (ibind s) p) r = Some i) by (apply in_blook; [now apply bremove_nodup|exact I]).
    rewrite blook_bremove in Er by exact W1. destruct (path_eqb_spec r p) as [Y|Y]; [discriminate|].
    apply Y. eapply nolink_inj; [exact W2| |exact Ip]. now apply blook_in.
  - intros r j I. apply in_bset in I. destruct I as [[_ ->]|I]; [eauto|]. apply in_bremove in I. eauto.
  - exact W4.
  - intros r j I. apply in_bset in I. destruct I as [[_ ->]|I]; [eauto|]. apply in_bremove in I. eauto.
Qed.

Lemma iunlink_wf : forall s p, iwf s -> iwf (mkIfs (bremove (ibind s) p) (idata s) (inext s)).
Proof.
  intros s p [W1 W2 W3 W4 W5]. constructor; cbn [ibind idata inext].
  - now apply bremove_nodup.
  - now apply bremove_nodup.
  - intros r j I. apply in_bremove in I. eauto.
  - exact W4.
  - intros r j I. apply in_bremove in I. eauto.
Qed.

(* every call keeps the inode filesystem well formed *)
Lemma istep_wf : forall s c, iwf s -> iwf (istep s c).
Proof.
  intros s c W. destruct c; cbn [istep]; try exact W.
  - destruct (ilookup s p) as [i|] eqn:E; [|now apply ialloc_wf].
    apply iwrite_wf; [exact W|]. eapply ilookup_lt; eassumption.
  - destruct (ilookup s p); [exact W|now apply ialloc_wf].
  - destruct (ilookup s p); [exact W|now apply ialloc_wf].
  - destruct (ilookup s p) as [i|] eqn:E; [|exact W]. destruct (iread s i); [|exact W].
    apply iwrite_wf; [exact W|]. eapply ilookup_lt; eassumption.
  - destruct (ilookup s p) as [i|] eqn:E; [|exact W]. now apply irename_wf.
  - now apply iunlink_wf.
Qed.

Lemma iev_wf : forall s e, iwf s -> iwf (iev s e).
Proof. intros s [c|c] W; cbn [iev]; [now apply istep_wf|exact W]. Qed.

Lemma irun_wf : forall tr s, iwf s -> iwf (irun s tr).
Proof.
  unfold irun. induction tr as [|e tr IH]; intros s W; cbn [fold_left]; [exact W|].
  apply IH. now apply iev_wf.
Qed.

Lemma irun_app : forall a b s, irun s (a ++ b) = irun (irun s a) b.
Proof. intros. unfold irun. apply fold_left_app. Qed.

(* what is visible under each name, and agreement with FS.v *)
Lemma abs_iwrite : forall s p i c r, iwf s -> ilookup s p = Some i ->
  abs_i (iwrite s i c) r = if path_eqb r p then Some c else abs_i s r.
Proof.
  intros s p i c r W E. unfold abs_i, ilookup, iread. cbn [iwrite ibind idata].
  destruct (path_eqb_spec r p) as [X|X].
  - subst r. unfold ilookup in E. rewrite E, dget_dset, Nat.eqb_refl. reflexivity.
  - destruct (blook (ibind s) r) as [j|] eqn:Er; [|reflexivity].
    rewrite dget_dset. destruct (Nat.eqb_spec j i) as [Y|Y]; [|reflexivity].
    subst j. elim X. eapply ilookup_inj; eassumption.
Qed.

Lemma abs_ialloc : forall s p r, iwf s ->
  abs_i (ialloc s p) r = if path_eqb r p then Some [] else abs_i s r.
Proof.
  intros s p r W. unfold abs_i, ilookup, iread. cbn [ialloc ibind idata].
  rewrite blook_bset. destruct (path_eqb_spec r p) as [X|X].
  - now rewrite dget_dset, Nat.eqb_refl.
  - destruct (blook (ibind s) r) as [j|] eqn:Er; [|reflexivity].
    rewrite dget_dset. destruct (Nat.eqb_spec j (inext s)) as [Y|Y]; [|reflexivity].
    pose proof (ilookup_lt s r j W Er). lia.
Qed.

Lemma abs_irename : forall s p q i r, iwf s -> ilookup s p = Some i ->
  abs_i (mkIfs (bset (bremove (ibind s) p) q i) (idata s) (inext s)) r
  = if path_eqb r q then abs_i s p else if path_eqb r p then None else abs_i s r.
Proof.
  intros s p q i r W E. unfold abs_i, ilookup, iread in *. cbn [ibind idata].
  rewrite blook_bset, blook_bremove by exact (iw_names s W). rewrite E.
  destruct (path_eqb r q); [reflexivity|]. destruct (path_eqb r p); reflexivity.
Qed.

Lemma abs_iunlink : forall s p r, iwf s ->
  abs_i (mkIfs (bremove (ibind s) p) (idata s) (inext s)) r
  = if path_eqb r p then None else abs_i s r.
Proof.
  intros s p r W. unfold abs_i, ilookup, iread. cbn [ibind idata].
  rewrite blook_bremove by exact (iw_names s W). destruct (path_eqb r p); reflexivity.
Qed.

(* the name-level abstraction relation *)
Definition agree (s : ifs) (x : fs) : Prop := forall p, abs_i s p = option_map fdata (fget x p).

Lemma abs_some_lookup : forall s p c, abs_i s p = Some c ->
  exists i, ilookup s p = Some i /\ iread s i = Some c.
Proof.
  intros s p c E. unfold abs_i in E. destruct (ilookup s p) as [i|]; [|discriminate]. now exists i.
Qed.

(* a file of x is a bound name of s whose inode holds the file's data; no file, no binding *)
Lemma agree_some : forall s x p f, agree s x -> fget x p = Some f ->
  exists i, ilookup s p = Some i /\ iread s i = Some (fdata f).
Proof. intros s x p f A G. apply abs_some_lookup. now rewrite (A p), G. Qed.

Lemma agree_none : forall s x p, iwf s -> agree s x -> fget x p = None -> ilookup s p = None.
Proof.
  intros s x p W A G. pose proof (A p) as E. rewrite G in E. unfold abs_i in E.
  destruct (ilookup s p) as [i|] eqn:El; [|reflexivity].
  exfalso. exact (iw_live s W p i (ilookup_in _ _ _ El) E).
Qed.

(* one effective call *)
Lemma istep_agree : forall c s x x', iwf s -> FsWf x -> agree s x ->
  apply_call c x = Ok x' -> agree (istep s c) x'.
Proof.
  intros c s x x' W Wx A E r. pose proof (A r) as Ar. destruct c; cbn [apply_call istep] in E |- *.
  - destruct (has_dir x d); [discriminate|].
    destruct (removelast d); [|destruct (has_dir x _); [|discriminate]]; injection E as <-; exact Ar.
  - destruct (parent_ok x p); [|discriminate]. injection E as <-.
    fold (upd x p (mkFile [] 0)). rewrite fget_upd.
    destruct (ilookup s p) as [i|] eqn:El.
    + rewrite (abs_iwrite s p i [] r W El). now destruct (path_eqb r p).
    + rewrite abs_ialloc by exact W. now destruct (path_eqb r p).
  - destruct (parent_ok x p); [|discriminate]. destruct (fget x p) as [f|] eqn:G; [discriminate|].
    injection E as <-. rewrite (agree_none s x p W A G), abs_ialloc by exact W.
    change (fget _ r) with (fget (upd x p (mkFile [] 0)) r). rewrite fget_upd.
    now destruct (path_eqb r p).
  - destruct (parent_ok x p); [|discriminate]. destruct (fget x p) as [f|] eqn:G; injection E as <-.
    + destruct (agree_some s x p f A G) as (i & El & _). rewrite El. exact Ar.
    + rewrite (agree_none s x p W A G), abs_ialloc by exact W. fold (upd x p (mkFile [] 0)).
      rewrite fget_upd. now destruct (path_eqb r p).
  - destruct (fget x p) as [f|] eqn:G; [|discriminate]. injection E as <-.
    destruct (agree_some s x p f A G) as (i & El & Ei). rewrite El, Ei, (abs_iwrite s p i _ r W El).
    fold (upd x p (mkFile (fdata f ++ b) (fsynced f))). rewrite fget_upd.
    now destruct (path_eqb r p).
  - destruct (fget x p) as [f|] eqn:G; [|discriminate]. injection E as <-.
    fold (upd x p (mkFile (fdata f) (length (fdata f)))). rewrite fget_upd.
    destruct (path_eqb_spec r p) as [X|X]; [|exact Ar]. subst r. now rewrite Ar, G.
  - destruct (fget x p) as [f|] eqn:G; [|discriminate].
    destruct (parent_ok x q); [|discriminate]. injection E as <-.
    destruct (agree_some s x p f A G) as (i & El & Ei). rewrite El, (abs_irename s p q i r W El).
    fold (ren x p q f). rewrite fget_ren.
    destruct (path_eqb r q); [now rewrite (A p), G|].
    destruct (path_eqb_spec r p) as [X|X].
    + subst r. now rewrite fget_del_same.
    + now rewrite fget_del_other.
  - destruct (fget x p) as [f|] eqn:G; [|discriminate]. injection E as <-.
    rewrite abs_iunlink by exact W. fold (del x p).
    destruct (path_eqb_spec r p) as [X|X].
    + subst r. now rewrite fget_del_same.
    + now rewrite fget_del_other.
Qed.

Lemma effective_app : forall a b x,
  effective (a ++ b) x <-> effective a x /\ effective b (replay_calls a x).
Proof.
  induction a as [|e a IH]; intros b x; cbn [app effective replay_calls]; [tauto|].
  destruct e as [c|c]; [|apply IH]. destruct (apply_call c x); [apply IH|tauto].
Qed.

Lemma replay_wf : forall tr x, FsWf x -> FsWf (replay_calls tr x).
Proof.
  induction tr as [|e tr IH]; intros x W; cbn [replay_calls]; [exact W|].
  destruct e as [c|c]; [|now apply IH]. destruct (apply_call c x) as [x'|] eqn:E; [|now apply IH].
  apply IH. eapply apply_call_wf; eassumption.
Qed.

(* name-level agreement: along an effective trace (every recorded TCall takes effect when
   replayed: what do_call records, see Eff below) the content visible under every name in the inode
   model is the content FS.v gives.  FsWf / iwf: no duplicate entries in the two list
   representations (with duplicates an unlink uncovers the shadowed entry). *)
Theorem inode_name_agreement : forall tr s0 x0,
  iwf s0 -> FsWf x0 -> effective tr x0 -> agree s0 x0 ->
  agree (irun s0 tr) (replay_calls tr x0).
Proof.
  unfold irun. induction tr as [|e tr IH]; intros s0 x0 W Wx Ef A; cbn [fold_left replay_calls]; [exact A|].
  destruct e as [c|c]; cbn [effective iev] in *; [|now apply IH].
  destruct (apply_call c x0) as [x1|] eqn:E; [|contradiction].
  apply IH; [now apply istep_wf|eapply apply_call_wf; eassumption|exact Ef|].
  eapply istep_agree; eassumption.
Qed.

(* at every crash point of the trace as well *)
Corollary inode_name_agreement_crash : forall tr s0 x0 n,
  iwf s0 -> FsWf x0 -> effective tr x0 ->
  (forall p, abs_i s0 p = option_map fdata (fget x0 p)) ->
  forall p, abs_i (irun s0 (firstn n tr)) p = option_map fdata (fget (crash_fs n tr x0) p).
Proof.
  intros tr s0 x0 n W Wx Ef A. unfold crash_fs. apply inode_name_agreement; try assumption.
  rewrite <- (firstn_skipn n tr) in Ef. apply effective_app in Ef. exact (proj1 Ef).
Qed.

(* the invariant: the reader's inode holds c, and every name that still denotes it is under cas/ *)
Definition reader_inv (ino : nat) (c : bytes) (s : ifs) : Prop :=
  iwf s /\ iread s ino = Some c /\ forall q, ilookup s q = Some ino -> is_cas q.

Lemma not_cas_is_cas : forall q, not_cas q -> is_cas q -> False.
Proof. intros [] N C; cbn in *; contradiction. Qed.

Lemma staging_is_cas : forall q, is_staging q -> is_cas q -> False.
Proof. intros [] N C; cbn in *; contradiction. Qed.

Lemma reader_inv_write : forall ino c s q i c', reader_inv ino c s -> not_cas q ->
  ilookup s q = Some i -> reader_inv ino c (iwrite s i c').
Proof.
  intros ino c s q i c' (W & R & B) Nq El.
  assert (Ni : ino <> i).
  { intros X. subst i. exact (not_cas_is_cas q Nq (B q El)). }
  split; [apply iwrite_wf; [exact W|eapply ilookup_lt; eassumption]|]. split; [|exact B].
  unfold iread. cbn [iwrite idata]. rewrite dget_dset.
  destruct (Nat.eqb_spec ino i); [contradiction|exact R].
Qed.

Lemma reader_inv_alloc : forall ino c s q, reader_inv ino c s -> reader_inv ino c (ialloc s q).
Proof.
  intros ino c s q (W & R & B). pose proof (iread_lt s ino c W R) as Lt.
  split; [now apply ialloc_wf|]. split.
  - unfold iread. cbn [ialloc idata]. rewrite dget_dset.
    destruct (Nat.eqb_spec ino (inext s)); [lia|exact R].
  - intros r. unfold ilookup. cbn [ialloc ibind]. rewrite blook_bset.
    destruct (path_eqb r q); [|apply B]. intros X. inversion X. lia.
Qed.

Lemma reader_inv_step : forall ino c s k, cas_safe_call k -> reader_inv ino c s ->
  reader_inv ino c (istep s k).
Proof.
  intros ino c s k Sf RI. pose proof RI as (W & R & B).
  destruct k; cbn [cas_safe_call istep] in *; try exact RI.
  - destruct (ilookup s p) as [i|] eqn:El; [|now apply reader_inv_alloc].
    eapply reader_inv_write; eassumption.
  - destruct (ilookup s p); [exact RI|now apply reader_inv_alloc].
  - destruct (ilookup s p); [exact RI|now apply reader_inv_alloc].
  - destruct (ilookup s p) as [i|] eqn:El; [|exact RI]. destruct (iread s i); [|exact RI].
    eapply reader_inv_write; eassumption.
  - destruct (ilookup s p) as [i|] eqn:El; [|exact RI].
    split; [now apply irename_wf|]. split; [exact R|].
    intros r. unfold ilookup. cbn [ibind]. rewrite blook_bset, blook_bremove by exact (iw_names s W).
    destruct (path_eqb r q).
    + intros X. inversion X; subst i. exfalso. pose proof (B p El) as Cp.
      destruct Sf as [Sp|[Np _]]; [exact (staging_is_cas p Sp Cp)|exact (not_cas_is_cas p Np Cp)].
    + destruct (path_eqb r p); [discriminate|apply B].
  - split; [now apply iunlink_wf|]. split; [exact R|].
    intros r. unfold ilookup. cbn [ibind]. rewrite blook_bremove by exact (iw_names s W).
    destruct (path_eqb r p); [discriminate|apply B].
Qed.

Lemma reader_inv_run : forall ino c tr s, Forall cas_safe tr -> reader_inv ino c s ->
  reader_inv ino c (irun s tr).
Proof.
  unfold irun. intros ino c. induction tr as [|e tr IH]; intros s F RI; cbn [fold_left]; [exact RI|].
  inversion F as [|? ? Fe Ftr]; subst. apply IH; [exact Ftr|].
  destruct e as [k|k]; cbn [iev]; [|exact RI]. now apply reader_inv_step.
Qed.

(* the reader theorem, general form: the descriptor may be older than the current name table (its name may
   already have been unlinked): all that matters is that no name outside cas/ denotes it *)
Theorem reader_keeps_its_content_gen : forall s ino c tr,
  iwf s -> iread s ino = Some c -> (forall q, ilookup s q = Some ino -> is_cas q) ->
  Forall cas_safe tr ->
  forall n, iread (irun s (firstn n tr)) ino = Some c.
Proof.
  intros s ino c tr W R B F n.
  destruct (reader_inv_run ino c (firstn n tr) s (Forall_firstn' _ n tr F)) as (_ & R' & _);
    [now split|exact R'].
Qed.

(* a reader opened on the blob file PCas comps: the descriptor denotes the inode the name
   denotes at that moment; whatever cas_safe calls follow (the name is unlinked, another staged
   file is renamed onto it, other blobs come and go), the descriptor streams exactly c, at every
   intermediate point of the trace and at its end.
   [iwf s] contains the side condition "no inode is bound to two names". *)
Theorem C06_reader_keeps_its_content_always : forall s comps ino c tr,
  iwf s -> ilookup s (PCas comps) = Some ino -> iread s ino = Some c ->
  Forall cas_safe tr ->
  forall n, iread (irun s (firstn n tr)) ino = Some c.
Proof.
  intros s comps ino c tr W L R F. apply reader_keeps_its_content_gen; try assumption.
  intros q Lq. rewrite (ilookup_inj s q (PCas comps) ino W Lq L). exact I.
Qed.

Theorem C06_reader_keeps_its_content : forall s comps ino c tr,
  iwf s -> ilookup s (PCas comps) = Some ino -> iread s ino = Some c ->
  Forall cas_safe tr ->
  iread (irun s tr) ino = Some c.
Proof.
  intros s comps ino c tr W L R F. rewrite <- (firstn_all tr).
  now apply (C06_reader_keeps_its_content_always s comps).
Qed.

(* recorded traces are effective.  Under every fault plan: the trace only grows, what was added
   is effective from the old filesystem, and replaying it gives the new filesystem *)
Definition Eff {A} (m : M A) : Prop :=
  forall w, exists tr, wtrace (snd (m w)) = tr ++ wtrace w /\
                       effective (rev tr) (wfs w) /\
                       replay_calls (rev tr) (wfs w) = wfs (snd (m w)).

Lemma eff_ret : forall {A} (a : A), Eff (ret a).
Proof. intros A a w. exists []. cbn [ret snd rev effective replay_calls app]. auto. Qed.

Lemma eff_bind : forall {A B} (m : M A) (f : A -> M B),
  Eff m -> (forall a, Eff (f a)) -> Eff (bind m f).
Proof.
  intros A B m f Sm Sf w. unfold bind. specialize (Sm w). destruct (m w) as [a w1].
  cbn [snd] in Sm. destruct Sm as (t1 & E1 & F1 & R1).
  specialize (Sf a w1). destruct (f a w1) as [b w2]. cbn [snd] in *.
  destruct Sf as (t2 & E2 & F2 & R2).
  exists (t2 ++ t1). split; [rewrite E2, E1; apply app_assoc|].
  rewrite rev_app_distr. split.
  - apply effective_app. split; [exact F1|now rewrite R1].
  - now rewrite replay_app, R1.
Qed.

Lemma eff_do_call : forall c, Eff (do_call c).
Proof.
  intros c w. unfold do_call. destruct (apply_call c (wfs w)) as [s'|e] eqn:E.
  - destruct (wfault w) as [k|] eqn:F; [destruct (Nat.eqb k (wcount w))|]; cbn [snd wtrace wfs].
    + exists [TFault c]. cbn [rev app effective replay_calls]. auto.
    + exists [TCall c]. cbn [rev app effective replay_calls]. rewrite E. cbn [effective replay_calls]. auto.
    + exists [TCall c]. cbn [rev app effective replay_calls]. rewrite E. cbn [effective replay_calls]. auto.
  - cbn [snd]. exists []. cbn [rev effective replay_calls app]. auto.
Qed.

Lemma eff_get_fs : Eff get_fs.
Proof. intros w. exists []. cbn [get_fs snd rev effective replay_calls app]. auto. Qed.

Lemma eff_read_file : forall p, Eff (read_file p).
Proof. intros p w. exists []. cbn [read_file snd rev effective replay_calls app]. auto. Qed.

(* every program of the store, whatever calls it issues *)
Lemma eff_prog : forall C {A} (m : M A), IsProg C m -> Eff m.
Proof.
  intros C A m Pm. induction Pm as [A a|A B m f _ Em _ Ef|c _| |p].
  - apply eff_ret.
  - now apply eff_bind.
  - apply eff_do_call.
  - exact eff_get_fs.
  - apply eff_read_file.
Qed.

Section EffStore.
  Variable H : bytes -> bytes.

  Lemma eff_mkdir_p : forall d, Eff (mkdir_p d).
  Proof. of_prog eff_prog prog_mkdir_p. Qed.
  Lemma eff_mkdir_cas2 : forall a b, Eff (mkdir_cas2 a b).
  Proof. of_prog eff_prog prog_mkdir_cas2. Qed.
  Lemma eff_atomic_write : forall t tmp data, Eff (atomic_write t tmp data).
  Proof. of_prog eff_prog prog_atomic_write. Qed.
  Lemma eff_bw_flush : forall p buf, Eff (bw_flush p buf).
  Proof. of_prog eff_prog prog_bw_flush. Qed.
  Lemma eff_bw_write_all : forall p buf data, Eff (bw_write_all p buf data).
  Proof. of_prog eff_prog prog_bw_write_all. Qed.
  Lemma eff_writer_close : forall seg buf, Eff (writer_close seg buf).
  Proof. of_prog eff_prog prog_writer_close. Qed.
  Lemma eff_writer_seal : forall seg buf, Eff (writer_seal seg buf).
  Proof. of_prog eff_prog prog_writer_seal. Qed.
  Lemma eff_write_entry : forall seg buf ver payload, Eff (write_entry H seg buf ver payload).
  Proof. of_prog eff_prog prog_write_entry. Qed.
  Lemma eff_unlink_all : forall ps, Eff (unlink_all ps).
  Proof. of_prog eff_prog prog_unlink_all. Qed.
  Lemma eff_close : forall m, Eff (close m).
  Proof. of_prog eff_prog prog_close. Qed.

  Section Cfg.
    Variable cfg : config.
    Lemma eff_append_op : forall wl payload, Eff (append_op H cfg wl payload).
    Proof. of_prog eff_prog prog_append_op. Qed.
    Lemma eff_prune_below : forall bound, Eff (prune_below bound).
    Proof. of_prog eff_prog prog_prune_below. Qed.
    Lemma eff_checkpoint_inner : forall reason m, Eff (checkpoint_inner cfg reason m).
    Proof. of_prog eff_prog prog_checkpoint_inner. Qed.
    Lemma eff_delete_blobs : forall hs, Eff (delete_blobs hs).
    Proof. of_prog eff_prog prog_delete_blobs. Qed.
    Lemma eff_log_and_apply : forall m o, Eff (log_and_apply H cfg m o).
    Proof. of_prog eff_prog prog_log_and_apply. Qed.
    Lemma eff_new_staging : Eff new_staging.
    Proof. of_prog eff_prog prog_new_staging. Qed.
    Lemma eff_drop_staging : forall p, Eff (drop_staging p).
    Proof. of_prog eff_prog prog_drop_staging. Qed.
    Lemma eff_put : forall m k chunks, Eff (put H cfg m k chunks).
    Proof. of_prog eff_prog prog_put. Qed.
    Lemma eff_abort : forall m k chunks, Eff (abort m k chunks).
    Proof. of_prog eff_prog prog_abort. Qed.
    Lemma eff_remove : forall m k, Eff (Store.remove H cfg m k).
    Proof. of_prog eff_prog prog_remove. Qed.
    Lemma eff_remove_range : forall m lo hi, Eff (remove_range H cfg m lo hi).
    Proof. of_prog eff_prog prog_remove_range. Qed.
    Lemma eff_checkpoint : forall m, Eff (checkpoint cfg m).
    Proof. of_prog eff_prog prog_checkpoint. Qed.
  End Cfg.
End EffStore.

(* the calls of the data API (on whatever handle, open or closed) *)
Definition data_op (o : op) : Prop :=
  match o with
  | OpOpen _ _ | OpDeleteOrphans | OpQuarantine | OpDeleteOrphan _ => False
  | _ => True
  end.

Lemma api_data_op : forall cfg o, api_op cfg o -> data_op o.
Proof. intros cfg o A. destruct o; cbn [api_op data_op] in *; try exact I; contradiction. Qed.

(* readers along API histories.  After any history of data-API calls, under any fault plan, the
   inode model run on the recorded trace shows under every name what FS.v shows (true of every
   history: [Forall data_op ops] is not used) *)
Theorem history_name_agreement : forall H ops hd w si,
  Forall data_op ops -> iwf si -> FsWf (wfs w) -> agree si (wfs w) ->
  exists tr, wtrace (snd (run_ops H hd ops w)) = tr ++ wtrace w /\
             iwf (irun si (rev tr)) /\ FsWf (wfs (snd (run_ops H hd ops w))) /\
             agree (irun si (rev tr)) (wfs (snd (run_ops H hd ops w))).
Proof.
  intros H ops hd w si _ W Wx A.
  destruct (eff_prog _ _ (prog_run_ops H (fun _ => True) (fun _ => I) ops hd) w)
    as (tr & E & Ef & R).
  exists tr. split; [exact E|]. split; [now apply irun_wf|]. rewrite <- R.
  split; [now apply replay_wf|]. now apply inode_name_agreement.
Qed.

Section Hist.
  Variable H : bytes -> bytes.
  Hypothesis H_len : forall b, length (H b) = 32%nat.
  Hypothesis H_byte : forall b, Forall (fun x => x < 256) (H b).
  Variable cfg : config.
  Hypothesis n_pos : 0 < c_n cfg.
  Let cmp := key_cmp (c_kt cfg).

  Lemma fold_spec_contents : forall ops sg x,
    In x (map snd (fold_left (spec_step cmp) ops sg)) ->
    In x (hist_contents ops) \/ In x (map snd sg).
  Proof.
    induction ops as [|o ops IH]; intros sg x Ix; cbn [fold_left hist_contents flat_map] in *; [now right|].
    apply IH in Ix. destruct Ix as [Ix|Ix].
    - left. apply in_or_app. now right.
    - apply spec_step_contents in Ix. destruct Ix as [Ix|Ix]; [|now right].
      left. apply in_or_app. now left.
  Qed.

  (* the contents of a history in two parts: those of the first part with the initial ones, those
     of the second with the ones of the state in between *)
  Lemma hist_nocollide_app : forall ops1 ops2 sg,
    NoCollide H (hist_contents (ops1 ++ ops2) ++ map snd sg) ->
    NoCollide H (hist_contents ops1 ++ map snd sg) /\
    NoCollide H (hist_contents ops2 ++ map snd (fold_left (spec_step cmp) ops1 sg)).
  Proof.
    intros ops1 ops2 sg NC. unfold hist_contents in *. rewrite flat_map_app in NC.
    split; [exact (nocollide_head H _ _ _ NC)|].
    exact (nocollide_rest H _ _ _ _ NC (fold_spec_contents ops1 sg)).
  Qed.

  (* one phase: a reader opened now on the blob of any key keeps the key's content through every
     later API call of the history, at every intermediate point (n counts the filesystem calls
     performed so far).  Live0 provides the blob, C06_cas_immutable_seq the cas_safe trace. *)
  Lemma reader_phase : forall ops m s sg os w si,
    Live0 H cfg m s sg -> wfs w = s -> wfault w = None -> Forall (api_op cfg) ops ->
    NoCollide H (hist_contents ops ++ map snd sg) -> iwf si -> agree si s ->
    exists r w' tr,
      run_ops H (Some (mkHandle cfg m os)) ops w = (r, w') /\ wtrace w' = tr ++ wtrace w /\
      forall k c, sm_get cmp sg k = Some c ->
        exists ino, ilookup si (cas_path (H c)) = Some ino /\ iread si ino = Some c /\
                    forall n, iread (irun si (firstn n (rev tr))) ino = Some c.
  Proof.
    intros ops m s sg os w si L Ws F A NC W Ag.
    destruct (C06_cas_immutable_seq H H_len H_byte cfg n_pos ops m s sg os w L Ws F A NC)
      as (r & w' & E & _ & tr & Et & Sf).
    exists r, w', tr. split; [exact E|]. split; [exact Et|]. intros k c G.
    apply (get_in cmp (key_cmp_refl _) (key_cmp_eq _) (key_cmp_antisym _) (key_cmp_trans _))
      in G; [|exact (lv_sorted _ _ _ _ _ L)].
    destruct (lv_cas _ _ _ _ _ L k c G) as (f & Gf & <-).
    destruct (agree_some si s _ f Ag Gf) as (ino & Li & Ri).
    exists ino. split; [exact Li|]. split; [exact Ri|].
    apply (C06_reader_keeps_its_content_always si (hexpath (H (fdata f)))); try assumption.
    apply Forall_rev. exact Sf.
  Qed.

  (* the same for one key *)
  Theorem reader_survives_ops : forall ops m s sg os w si k c,
    Live0 H cfg m s sg -> wfs w = s -> wfault w = None -> Forall (api_op cfg) ops ->
    NoCollide H (hist_contents ops ++ map snd sg) ->
    iwf si -> (forall p, abs_i si p = option_map fdata (fget s p)) ->
    sm_get cmp sg k = Some c ->
    exists ino r w' tr,
      ilookup si (cas_path (H c)) = Some ino /\ iread si ino = Some c /\
      run_ops H (Some (mkHandle cfg m os)) ops w = (r, w') /\ wtrace w' = tr ++ wtrace w /\
      forall n, iread (irun si (firstn n (rev tr))) ino = Some c.
  Proof.
    intros ops m s sg os w si k c L Ws F A NC W Ag G.
    destruct (reader_phase ops m s sg os w si L Ws F A NC W Ag) as (r & w' & tr & E & Et & K).
    destruct (K k c G) as (ino & Li & Ri & Rn). exists ino, r, w', tr. repeat (split; [assumption|]). exact Rn.
  Qed.

  (* a reader opened at ANY point of a history: run ops1, open a reader on the blob of a key
     k (content c in the specification state reached by ops1), run ops2.  The inode state is
     the one obtained by running the recorded trace from any inode filesystem that agrees with
     the initial name-level filesystem. *)
  Theorem C06_reader_survives_history : forall ops1 ops2 m s sg os w si,
    Live0 H cfg m s sg -> wfs w = s -> wfault w = None ->
    Forall (api_op cfg) (ops1 ++ ops2) ->
    NoCollide H (hist_contents (ops1 ++ ops2) ++ map snd sg) ->
    FsWf s -> iwf si -> (forall p, abs_i si p = option_map fdata (fget s p)) ->
    exists outs1 hd1 w1 r2 w2 tr1 tr2,
      run_ops H (Some (mkHandle cfg m os)) ops1 w = ((outs1, Some hd1), w1) /\
      wtrace w1 = tr1 ++ wtrace w /\
      run_ops H (Some hd1) ops2 w1 = (r2, w2) /\ wtrace w2 = tr2 ++ wtrace w1 /\
      let si1 := irun si (rev tr1) in
      forall k c, sm_get cmp (fold_left (spec_step cmp) ops1 sg) k = Some c ->
        exists ino, ilookup si1 (cas_path (H c)) = Some ino /\ iread si1 ino = Some c /\
                    forall n, iread (irun si1 (firstn n (rev tr2))) ino = Some c.
  Proof.
    intros ops1 ops2 m s sg os w si L Ws F A NC Wx W Ag.
    apply Forall_app in A. destruct A as [A1 A2]. apply hist_nocollide_app in NC. destruct NC as [NC1 NC2].
    destruct (C01_refines_ordered_map H H_len H_byte cfg n_pos ops1 m s sg os w L Ws F A1 NC1)
      as (outs1 & [cfg1 m1 os1] & w1 & E1 & _ & L1 & Ec & F1). cbn [h_cfg h_mem] in *. subst cfg1 s.
    assert (D1 : Forall data_op ops1).
    { eapply Forall_impl; [|exact A1]. intros o. apply api_data_op. }
    destruct (history_name_agreement H ops1 (Some (mkHandle cfg m os)) w si D1 W Wx Ag)
      as (tr1 & Et1 & W1 & _ & Ag1).
    rewrite E1 in Et1, Ag1. cbn [snd] in Et1, Ag1.
    destruct (reader_phase ops2 m1 (wfs w1) _ os1 w1 _ L1 eq_refl F1 A2 NC2 W1 Ag1)
      as (r2 & w2 & tr2 & E2 & Et2 & K).
    exists outs1, (mkHandle cfg m1 os1), w1, r2, w2, tr1, tr2. repeat (split; [assumption|]). exact K.
  Qed.
End Hist.

(* an inode filesystem that agrees with a given name-level one exists (the hypotheses
   "iwf si" and "agree si s" above are satisfiable for every well-formed s) *)
Lemma number_from_spec : forall l n b d, number_from n l = (b, d) ->
  map fst b = map fst l /\ map snd b = seq n (length l) /\ map fst d = seq n (length l) /\
  (forall p, match blook b p with Some i => dget d i | None => None end
             = option_map fdata (lookup l p)).
Proof.
  induction l as [|[q f] l IH]; intros n b d E; cbn [number_from] in E.
  - injection E as <- <-. now repeat split.
  - destruct (number_from (S n) l) as [b' d'] eqn:E'. injection E as <- <-.
    destruct (IH (S n) b' d' E') as (I1 & I2 & I3 & I4).
    cbn [map fst snd length seq]. rewrite I1, I2, I3. repeat (split; [reflexivity|]).
    intros p. cbn [blook lookup]. destruct (path_eqb p q).
    + cbn [dget]. now rewrite Nat.eqb_refl.
    + specialize (I4 p). destruct (blook b' p) as [i|] eqn:Eb; [|exact I4].
      cbn [dget]. destruct (Nat.eqb_spec i n) as [X|X]; [|exact I4].
      exfalso. apply blook_in in Eb. apply (in_map snd) in Eb. cbn [snd] in Eb.
      rewrite I2 in Eb. apply in_seq in Eb. lia.
Qed.

Theorem ifs_of_ok : forall s, FsWf s -> iwf (ifs_of s) /\ agree (ifs_of s) s.
Proof.
  intros s Wx. unfold ifs_of. destruct (number_from 0 (files s)) as [b d] eqn:E.
  destruct (number_from_spec _ _ _ _ E) as (I1 & I2 & I3 & I4). split.
  - constructor; cbn [ibind idata inext].
    + rewrite I1. exact Wx.
    + rewrite I2. apply seq_NoDup.
    + intros p i I. apply (in_map snd) in I. rewrite I2 in I. apply in_seq in I. cbn [snd] in I. lia.
    + intros i c I. apply (in_map fst) in I. rewrite I3 in I. apply in_seq in I. cbn [fst] in I. lia.
    + intros p i I X. assert (Eb : blook b p = Some i).
      { apply in_blook; [|exact I]. rewrite I1. exact Wx. }
      specialize (I4 p). rewrite Eb, X in I4.
      destruct (lookup (files s) p) eqn:El; [discriminate|].
      apply lookup_none_iff in El. apply El. unfold paths. rewrite <- I1.
      apply in_map_iff. now exists (p, i).
  - intros p. unfold abs_i, ilookup, iread, fget. cbn [ibind idata]. apply I4.
Qed.

(* closed examples: a blob is written the way the store does it (staged, then renamed under cas/) *)
Definition ex_blob : path := PCas [[1]].
Definition ex_open : ifs :=
  irun empty_ifs [TCall (CCreateExcl (PStaging 0)); TCall (CAppend (PStaging 0) [10; 20; 30]);
                  TCall (CRename (PStaging 0) ex_blob)].
(* ... a reader is opened on it (inode 0, content 10 20 30); then the name is unlinked and a
   new staged file with DIFFERENT bytes is renamed to the same name (a hypothetical
   non-content-addressed use: the theorem is about inodes, not about hashes) *)
Definition ex_later : list tev :=
  [TCall (CUnlink ex_blob); TCall (CCreateExcl (PStaging 1)); TCall (CAppend (PStaging 1) [77]);
   TCall (CRename (PStaging 1) ex_blob)].

Example reader_example_unlink_and_replace :
  ilookup ex_open ex_blob = Some 0%nat /\ iread ex_open 0%nat = Some [10; 20; 30] /\
  Forall cas_safe ex_later /\
  (* the reader still streams the old bytes *)
  iread (irun ex_open ex_later) 0%nat = Some [10; 20; 30] /\
  (* while the name now denotes another inode with the new bytes *)
  ilookup (irun ex_open ex_later) ex_blob = Some 1%nat /\
  abs_i (irun ex_open ex_later) ex_blob = Some [77] /\
  (* right after the unlink the name is gone and the reader is unaffected *)
  abs_i (irun ex_open (firstn 1 ex_later)) ex_blob = None /\
  iread (irun ex_open (firstn 1 ex_later)) 0%nat = Some [10; 20; 30].
Proof.
  split; [vm_compute; reflexivity|]. split; [vm_compute; reflexivity|].
  split; [unfold ex_later; repeat constructor|].
  repeat split; vm_compute; reflexivity.
Qed.

(* the same with a rename straight over the existing name (no unlink in between) *)
Example reader_example_rename_over :
  let tr := [TCall (CCreateExcl (PStaging 1)); TCall (CAppend (PStaging 1) [77]);
             TCall (CRename (PStaging 1) ex_blob)] in
  Forall cas_safe tr /\ iread (irun ex_open tr) 0%nat = Some [10; 20; 30] /\
  abs_i (irun ex_open tr) ex_blob = Some [77].
Proof.
  cbv zeta. split; [repeat constructor|]. split; vm_compute; reflexivity.
Qed.

(* what cas_safe excludes: an append to (or a truncating open of) the path under cas/ goes to
   the reader's inode, and the reader's content DOES change: the hypothesis is needed *)
Example reader_example_needs_cas_safe :
  ~ cas_safe (TCall (CAppend ex_blob [99])) /\
  iread (irun ex_open [TCall (CAppend ex_blob [99])]) 0%nat = Some [10; 20; 30; 99] /\
  ~ cas_safe (TCall (CCreate ex_blob)) /\
  iread (irun ex_open [TCall (CCreate ex_blob)]) 0%nat = Some [].
Proof.
  split; [intros X; exact X|]. split; [vm_compute; reflexivity|].
  split; [intros X; exact X|]. vm_compute; reflexivity.
Qed.

(* and the name-level model cannot tell: after unlink + replace FS.v shows only the new file *)
Example name_level_view :
  let x0 := mkFs [(ex_blob, mkFile [10; 20; 30] 3)] [[s_staging]; [s_cas]] 0 in
  effective ex_later x0 /\
  option_map fdata (fget (replay_calls ex_later x0) ex_blob) = Some [77].
Proof. cbv zeta. split; vm_compute; [exact I|reflexivity]. Qed.

Print Assumptions inode_name_agreement.
Print Assumptions inode_name_agreement_crash.
Print Assumptions istep_wf.
Print Assumptions C06_reader_keeps_its_content.
Print Assumptions C06_reader_keeps_its_content_always.
Print Assumptions reader_keeps_its_content_gen.
Print Assumptions history_name_agreement.
Print Assumptions reader_survives_ops.
Print Assumptions C06_reader_survives_history.
Print Assumptions ifs_of_ok.
Print Assumptions reader_example_unlink_and_replace.
Print Assumptions reader_example_needs_cas_safe.
