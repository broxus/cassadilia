(* StoreRun.v -- fault-free runs as lists of effective calls.  [Ran cs w w'] : starting in w,
   exactly the calls cs took effect, in this order, and led to w'.  [Does m w a cs] : program m,
   started in w, returns a after such a run; [Then m w k cs] : after such a run m goes on as k.
   What a run preserves (frames, predicates on the trace, files that survive) follows from the
   list alone, by one induction.

   In order: runs; programs along a run; one call; what a run preserves; the BufWriter; then
   (section Programs) the lists of the programs of theories/Store.v, each list with the lemma
   that the program runs it and with what later files need of it:
     writer_close, writer_seal, write_entry (wal_write); append_op (append_op_calls);
     atomic_write (aw_calls); unlink_all, prune_below;
     checkpoint_inner as two runs, the snapshot write and the pruning (checkpoint_inner_run);
     delete_blobs;
     log_and_apply as four runs: append, delete, and the two of a checkpoint (log_and_apply_run);
     mkdir_p, mkdir_cas2, new_staging;
     put up to its call of log_and_apply (put_stage_does); abort (abort_calls);
     of index_load only the creation of a missing segment (next_seg_calls);
     of open_with_recover the first three calls (open_front_then), the rest being [open_tail].
   remove, remove_range and checkpoint are log_and_apply / checkpoint_inner after pure steps
   and close is writer_close: they have no list of their own; nor have the orphan operations.
   Prefixes: aw_ atomic_write, ck_ checkpoint_inner, lap_ log_and_apply. *)
From Cas Require Import History.
From CasProofs Require Import BaseProofs SMapProofs StoreFS.
From Coq Require Import ZifyBool ZifyNat ZifyN.
Open Scope N_scope.

(* Runs *)

(* the calls cs all succeed, one after the other, and lead from s to s' *)
Fixpoint Okc (cs : list call) (s s' : fs) : Prop :=
  match cs with
  | [] => s' = s
  | c :: r => exists s1, apply_call c s = Ok s1 /\ Okc r s1 s'
  end.

(* the world after call c took effect with result s1 *)
Definition after (c : call) (s1 : fs) (w : world) : world :=
  mkWorld s1 (TCall c :: wtrace w) (S (wcount w)) None.

Inductive Ran : list call -> world -> world -> Prop :=
| ran_nil : forall w, wfault w = None -> Ran [] w w
| ran_cons : forall c cs w s1 w', wfault w = None -> apply_call c (wfs w) = Ok s1 ->
    Ran cs (after c s1 w) w' -> Ran (c :: cs) w w'.

Lemma okc_app : forall a b s s1 s', Okc a s s1 -> Okc b s1 s' -> Okc (a ++ b) s s'.
Proof.
  induction a as [|c a IH]; intros b s s1 s' A B; cbn [app Okc] in *.
  - now subst s1.
  - destruct A as (s0 & E & A). exists s0. split; [exact E|]. eapply IH; eassumption.
Qed.

Lemma okc_app_inv : forall a b s s', Okc (a ++ b) s s' -> exists s1, Okc a s s1 /\ Okc b s1 s'.
Proof.
  induction a as [|c a IH]; intros b s s' A; cbn [app Okc] in *.
  - now exists s.
  - destruct A as (s0 & E & A). destruct (IH _ _ _ A) as (s1 & A1 & B1).
    exists s1. split; [|exact B1]. now exists s0.
Qed.

Lemma okc_wf : forall cs s s', Okc cs s s' -> FsWf s -> FsWf s'.
Proof.
  induction cs as [|c cs IH]; intros s s' A W; cbn [Okc] in A; [now subst|].
  destruct A as (s1 & E & A). eapply IH; [exact A|]. eapply apply_call_wf; eassumption.
Qed.

Lemma ran_start : forall cs w w', Ran cs w w' -> wfault w = None.
Proof. intros cs w w' []; assumption. Qed.

Lemma ran_fault : forall cs w w', Ran cs w w' -> wfault w' = None.
Proof. induction 1; assumption. Qed.

Lemma ran_okc : forall cs w w', Ran cs w w' -> Okc cs (wfs w) (wfs w').
Proof. induction 1 as [|c cs w s1 w' F E R IH]; [reflexivity|]. now exists s1. Qed.

Lemma ran_trace : forall cs w w', Ran cs w w' -> wtrace w' = rev (map TCall cs) ++ wtrace w.
Proof.
  induction 1 as [|c cs w s1 w' F E R IH]; [reflexivity|].
  rewrite IH. cbn [map rev after wtrace]. now rewrite <- app_assoc.
Qed.

Lemma ran_nil_inv : forall w w', Ran [] w w' -> w' = w.
Proof. intros w w' R. now inversion R. Qed.

Lemma ran_cons_inv : forall c cs w w', Ran (c :: cs) w w' ->
  exists s1, wfault w = None /\ apply_call c (wfs w) = Ok s1 /\ Ran cs (after c s1 w) w'.
Proof. intros c cs w w' R. inversion R; subst. now exists s1. Qed.

Lemma ran_app : forall a b w w1 w', Ran a w w1 -> Ran b w1 w' -> Ran (a ++ b) w w'.
Proof.
  intros a b w w1 w' A B. induction A as [|c cs w s1 w1 F E A IH]; [exact B|].
  cbn [app]. econstructor; [exact F|exact E|]. now apply IH.
Qed.

Lemma ran_app_inv : forall a b w w', Ran (a ++ b) w w' -> exists w1, Ran a w w1 /\ Ran b w1 w'.
Proof.
  induction a as [|c a IH]; intros b w w' R; cbn [app] in R.
  - exists w. split; [constructor; eapply ran_start; exact R|exact R].
  - apply ran_cons_inv in R. destruct R as (s1 & F & E & R).
    destruct (IH _ _ _ R) as (w1 & A & B). exists w1. split; [|exact B]. econstructor; eassumption.
Qed.

(* Programs along a run *)

(* From w, m behaves as k does after exactly the calls cs: k is the rest of the program, so a
   list can be read off a program piece by piece and a proof can stop in the middle (put before
   its log_and_apply, open after its third call).  The rules below take the continuation of a
   bind as an argument: applying one never copies or rewrites the remaining program, which is
   what keeps these proofs cheap to check. *)
Definition Then {A} (m : M A) (w : world) (k : M A) (cs : list call) : Prop :=
  exists w', m w = k w' /\ Ran cs w w'.

(* the run to the end: m returns a (this is [Then m w (ret a) cs]) *)
Definition Does {A} (m : M A) (w : world) (a : A) (cs : list call) : Prop :=
  exists w', m w = (a, w') /\ Ran cs w w'.

Lemma then_done : forall {A} (k : M A) w, wfault w = None -> Then k w k [].
Proof. intros A k w F. exists w. split; [reflexivity|now constructor]. Qed.

Lemma does_ret : forall {A} (a : A) w, wfault w = None -> Does (ret a) w a [].
Proof. intros A a w. apply then_done. Qed.

Lemma then_bind : forall {A B} (m : M A) (f : A -> M B) w a k cs1 cs2,
  Does m w a cs1 -> (forall w1, Ran cs1 w w1 -> Then (f a) w1 k cs2) ->
  Then (bind m f) w k (cs1 ++ cs2).
Proof.
  intros A B m f w a k cs1 cs2 (w1 & E1 & R1) K. destruct (K w1 R1) as (w2 & E2 & R2).
  exists w2. split; [unfold bind; now rewrite E1|]. eapply ran_app; eassumption.
Qed.

Lemma does_call : forall c w s1, wfault w = None -> apply_call c (wfs w) = Ok s1 ->
  Does (do_call c) w (Ok tt) [c].
Proof.
  intros c w s1 F E. exists (after c s1 w). split; [now apply do_call_ok|].
  econstructor; [exact F|exact E|]. now constructor.
Qed.

Lemma does_call_err : forall c w e, wfault w = None -> apply_call c (wfs w) = Err e ->
  Does (do_call c) w (Err e) [].
Proof. intros c w e F E. exists w. split; [now apply do_call_err|now constructor]. Qed.

Lemma then_call_bind : forall {B} c (f : res errno unit -> M B) w s1 k cs,
  wfault w = None -> apply_call c (wfs w) = Ok s1 -> Then (f (Ok tt)) (after c s1 w) k cs ->
  Then (bind (do_call c) f) w k (c :: cs).
Proof.
  intros B c f w s1 k cs F E (w' & E' & R). exists w'. split.
  - unfold bind. now rewrite (do_call_ok _ _ _ F E).
  - econstructor; eassumption.
Qed.

Lemma then_get_fs_bind : forall {B} (f : fs -> M B) w k cs,
  Then (f (wfs w)) w k cs -> Then (bind get_fs f) w k cs.
Proof. intros B f w k cs D. exact D. Qed.

Lemma then_read_file_bind : forall {B} p (f : option bytes -> M B) w k cs,
  Then (f (match fget (wfs w) p with Some x => Some (fdata x) | None => None end)) w k cs ->
  Then (bind (read_file p) f) w k cs.
Proof. intros B p f w k cs D. exact D. Qed.

Lemma then_bind_nil : forall {A B} (m : M A) (f : A -> M B) w a k cs,
  Does m w a [] -> Then (f a) w k cs -> Then (bind m f) w k cs.
Proof.
  intros A B m f w a k cs (w1 & E1 & R1) D. apply ran_nil_inv in R1. subst w1.
  destruct D as (w2 & E2 & R2). exists w2. split; [unfold bind; now rewrite E1|exact R2].
Qed.

Lemma does_bind_pure : forall {A B} (m : M A) (f : A -> M B) w a b cs,
  Does m w a cs -> (forall w1, f a w1 = (b, w1)) -> Does (bind m f) w b cs.
Proof.
  intros A B m f w a b cs (w1 & E1 & R1) K. exists w1. split; [|exact R1].
  unfold bind. rewrite E1. apply K.
Qed.

(* One call *)

(* what a successful call does to the filesystem.  DiskInv.apply_call_fdat follows from it for
   the data view alone; CrashInv.apply_call_view states view and directories at once *)
Lemma apply_call_eff : forall c s s', apply_call c s = Ok s' ->
  match c with
  | CMkdir d => has_dir s d = false /\ s' = mkFs (files s) (dirs s ++ [d]) (nstage s)
  | CCreate p => s' = upd s p (mkFile [] 0)
  | CCreateExcl p =>
    fget s p = None /\
    s' = mkFs (set_path (files s) p (mkFile [] 0)) (dirs s)
              (match p with PStaging _ => nstage s + 1 | _ => nstage s end)
  | COpenAppend p => s' = match fget s p with Some _ => s | None => upd s p (mkFile [] 0) end
  | CAppend p b => exists f, fget s p = Some f /\ s' = upd s p (mkFile (fdata f ++ b) (fsynced f))
  | CSync p => exists f, fget s p = Some f /\ s' = upd s p (mkFile (fdata f) (length (fdata f)))
  | CRename p q => exists f, fget s p = Some f /\ s' = ren s p q f
  | CUnlink p => fget s p <> None /\ s' = del s p
  end.
Proof.
  intros c s s' E. destruct c; cbn [apply_call] in E.
  - destruct (has_dir s d); [discriminate|]. split; [reflexivity|].
    destruct (removelast d); [|destruct (has_dir s _)]; now inversion E.
  - destruct (parent_ok s p); now inversion E.
  - destruct (parent_ok s p); [|discriminate]. destruct (fget s p); now inversion E.
  - destruct (parent_ok s p); [|discriminate]. destruct (fget s p); now inversion E.
  - destruct (fget s p) as [f|]; inversion E. now exists f.
  - destruct (fget s p) as [f|]; inversion E. now exists f.
  - destruct (fget s p) as [f|]; [|discriminate]. destruct (parent_ok s q); inversion E. now exists f.
  - destruct (fget s p) as [f|]; inversion E. split; [discriminate|reflexivity].
Qed.

(* calls that leave directories and the staging counter alone, on paths in T: [call_on T]
   without CreateExcl.  With T = eq p and no rename this is CrashInv.on p *)
Definition call_in (T : path -> Prop) (c : call) : Prop :=
  match c with CCreateExcl _ => False | _ => call_on T c end.

Lemma apply_call_frame : forall (T : path -> Prop) c s s',
  call_in T c -> apply_call c s = Ok s' -> Frame T s s'.
Proof.
  intros T c s s' Tc E. apply apply_call_eff in E. destruct c; cbn [call_in call_on] in Tc;
    try contradiction.
  - subst s'. now apply frame_upd.
  - subst s'. destruct (fget s p); [apply frame_refl|now apply frame_upd].
  - destruct E as (f & _ & ->). now apply frame_upd.
  - destruct E as (f & _ & ->). now apply frame_upd.
  - destruct E as (f & _ & ->). now apply frame_ren.
  - destruct E as (_ & ->). now apply frame_del.
Qed.

(* file p is still there after the call: every call but an unlink or a rename of p itself *)
Definition survives (p : path) (c : call) : Prop :=
  match c with CUnlink q | CRename q _ => q <> p | _ => True end.

Lemma apply_call_survives : forall p c s s', survives p c -> apply_call c s = Ok s' ->
  fget s p <> None -> fget s' p <> None.
Proof.
  intros p c s s' K E G. apply apply_call_eff in E.
  assert (U : forall q f, fget (upd s q f) p <> None).
  { intros q f. rewrite fget_upd. destruct (path_eqb p q); [discriminate|exact G]. }
  destruct c; cbn [survives] in K.
  - destruct E as (_ & ->). exact G.
  - subst s'. apply U.
  - destruct E as (_ & ->). apply (U p0).
  - subst s'. destruct (fget s p0); [exact G|apply U].
  - destruct E as (f & _ & ->). apply U.
  - destruct E as (f & _ & ->). apply U.
  - destruct E as (f & _ & ->). rewrite fget_ren. destruct (path_eqb p q); [discriminate|].
    rewrite fget_del_other by (intros X; now apply K). exact G.
  - destruct E as (_ & ->). rewrite fget_del_other by (intros X; now apply K). exact G.
Qed.

(* file p exists in s with content d *)
Definition holds (s : fs) (p : path) (d : bytes) : Prop := exists f, fget s p = Some f /\ fdata f = d.

Lemma holds_upd : forall s p f, holds (upd s p f) p (fdata f).
Proof. intros s p f. exists f. split; [apply fget_upd_same|reflexivity]. Qed.

Lemma holds_create : forall p s s', apply_call (CCreate p) s = Ok s' -> holds s' p [].
Proof. intros p s s' E. apply apply_call_eff in E. subst s'. apply (holds_upd s p (mkFile [] 0)). Qed.

Lemma holds_append : forall p b d s s', apply_call (CAppend p b) s = Ok s' -> holds s p d ->
  holds s' p (d ++ b).
Proof.
  intros p b d s s' E (f & G & <-). apply apply_call_eff in E. destruct E as (f' & G' & ->).
  rewrite G in G'. inversion G'; subst f'. apply (holds_upd s p (mkFile _ _)).
Qed.

Lemma holds_sync : forall p d s s', apply_call (CSync p) s = Ok s' -> holds s p d -> holds s' p d.
Proof.
  intros p d s s' E (f & G & <-). apply apply_call_eff in E. destruct E as (f' & G' & ->).
  rewrite G in G'. inversion G'; subst f'. apply (holds_upd s p (mkFile _ _)).
Qed.

Lemma holds_rename : forall p q d s s', apply_call (CRename p q) s = Ok s' -> holds s p d ->
  holds s' q d.
Proof.
  intros p q d s s' E (f & G & <-). apply apply_call_eff in E. destruct E as (f' & G' & ->).
  rewrite G in G'. inversion G'; subst f'. exists f. split; [|reflexivity].
  now rewrite fget_ren, path_eqb_refl.
Qed.

Lemma apply_append : forall s p b, fget s p <> None -> exists s1, apply_call (CAppend p b) s = Ok s1.
Proof. intros s p b G. cbn [apply_call]. destruct (fget s p); [now eexists|contradiction]. Qed.

Lemma apply_sync : forall s p, fget s p <> None -> exists s1, apply_call (CSync p) s = Ok s1.
Proof. intros s p G. cbn [apply_call]. destruct (fget s p); [now eexists|contradiction]. Qed.

Lemma apply_unlink : forall s p, fget s p <> None -> exists s1, apply_call (CUnlink p) s = Ok s1.
Proof. intros s p G. cbn [apply_call]. destruct (fget s p); [now eexists|contradiction]. Qed.

Lemma apply_create : forall s p, parent_ok s p = true ->
  exists s1, apply_call (CCreate p) s = Ok s1 /\ fget s1 p <> None.
Proof.
  intros s p G. cbn [apply_call]. rewrite G. eexists. split; [reflexivity|].
  change (fget (upd s p (mkFile [] 0)) p <> None). rewrite fget_upd_same. discriminate.
Qed.

Lemma apply_open_append : forall s p, parent_ok s p = true ->
  exists s1, apply_call (COpenAppend p) s = Ok s1 /\ fget s1 p <> None.
Proof.
  intros s p G. cbn [apply_call]. rewrite G. destruct (fget s p) eqn:Gp.
  - eexists. split; [reflexivity|]. now rewrite Gp.
  - eexists. split; [reflexivity|].
    change (fget (upd s p (mkFile [] 0)) p <> None). rewrite fget_upd_same. discriminate.
Qed.

Lemma apply_rename : forall s p q, fget s p <> None -> parent_ok s q = true ->
  exists s1, apply_call (CRename p q) s = Ok s1.
Proof.
  intros s p q G Pq. cbn [apply_call]. rewrite Pq. destruct (fget s p); [now eexists|contradiction].
Qed.

(* What a run preserves *)

Lemma okc_survives : forall p cs s s', Forall (survives p) cs -> Okc cs s s' ->
  fget s p <> None -> fget s' p <> None.
Proof.
  intros p. induction cs as [|c cs IH]; intros s s' K A G; cbn [Okc] in A; [now subst|].
  destruct A as (s1 & E & A). inversion K as [|? ? Kc Kcs]; subst.
  eapply IH; [exact Kcs|exact A|]. eapply apply_call_survives; eassumption.
Qed.

Lemma okc_synced : forall cs p s s', Okc (cs ++ [CSync p]) s s' -> fget s' p <> None.
Proof.
  intros cs p s s' A. apply okc_app_inv in A. destruct A as (s1 & _ & s2 & E & ->).
  apply apply_call_eff in E. destruct E as (f & _ & ->). rewrite fget_upd_same. discriminate.
Qed.

Lemma okc_frame : forall (T : path -> Prop) cs s s', Forall (call_in T) cs -> Okc cs s s' -> Frame T s s'.
Proof.
  intros T. induction cs as [|c cs IH]; intros s s' HT A; cbn [Okc] in A.
  - subst s'. apply frame_refl.
  - destruct A as (s1 & E & A). inversion HT as [|? ? Tc Tcs]; subst.
    eapply frame_trans; [eapply apply_call_frame; eassumption|now apply IH].
Qed.

Lemma ran_ext : forall (P : tev -> Prop) cs w w', Ran cs w w' ->
  Forall (fun c => P (TCall c)) cs -> Ext P w w'.
Proof.
  intros P cs w w' R HP. split; [eapply ran_fault; exact R|].
  exists (rev (map TCall cs)). split; [eapply ran_trace; exact R|].
  apply Forall_rev, Forall_map. exact HP.
Qed.

Lemma ran_step_ev : forall (T : path -> Prop) (P : tev -> Prop) cs w w', Ran cs w w' ->
  Forall (call_in T) cs -> Forall (fun c => P (TCall c)) cs -> Step T P w w'.
Proof.
  intros T P cs w w' R HT HP. destruct (ran_ext P _ _ _ R HP) as [F X].
  constructor; [exact F|exact X|]. apply (okc_frame T cs); [exact HT|now apply ran_okc].
Qed.

Lemma call_in_on : forall T c, call_in T c -> call_on T c.
Proof. intros T c. destruct c; cbn; tauto. Qed.

Lemma ran_step : forall (T : path -> Prop) cs w w', Ran cs w w' ->
  Forall (call_in T) cs -> Step T (ev_on T) w w'.
Proof.
  intros T cs w w' R HT. eapply ran_step_ev; [exact R|exact HT|].
  eapply Forall_impl; [|exact HT]. intros c. apply call_in_on.
Qed.

Lemma ran_survives : forall p cs w w', Ran cs w w' -> Forall (survives p) cs ->
  fget (wfs w) p <> None -> fget (wfs w') p <> None.
Proof. intros p cs w w' R K. eapply okc_survives; [exact K|]. now apply ran_okc. Qed.

(* The BufWriter *)

(* it hands a non-empty buffer to the file in one append *)
Definition append_calls (p : path) (d : bytes) : list call :=
  match d with [] => [] | _ => [CAppend p d] end.

(* flush, then sync_data *)
Definition wal_write (seg : N) (d : bytes) : list call :=
  append_calls (PWal seg) d ++ [CSync (PWal seg)].

Lemma append_opt_does : forall p d w, wfault w = None -> fget (wfs w) p <> None ->
  Does (match d with [] => ret (Ok tt) | _ => do_call (CAppend p d) end) w (Ok tt) (append_calls p d).
Proof.
  intros p d w F G. destruct d as [|x d]; [now apply does_ret|].
  destruct (apply_append (wfs w) p (x :: d) G) as (s1 & E). eapply does_call; eassumption.
Qed.

Lemma bw_flush_does : forall p buf w, wfault w = None -> fget (wfs w) p <> None ->
  Does (bw_flush p buf) w (Ok tt, []) (append_calls p buf).
Proof.
  intros p buf w F G. destruct buf as [|x buf]; [now apply does_ret|].
  destruct (apply_append (wfs w) p (x :: buf) G) as (s1 & E).
  apply (then_call_bind _ _ _ s1 _ [] F E). now apply does_ret.
Qed.

(* write_all into an empty BufWriter: the data goes to the file now or stays in the buffer *)
Lemma bw_write_all_does : forall p data w, wfault w = None -> fget (wfs w) p <> None ->
  exists b1 cs1, Does (bw_write_all p [] data) w (Ok tt, b1) cs1 /\
                 cs1 ++ append_calls p b1 = append_calls p data.
Proof.
  intros p data w F G. unfold bw_write_all. cbv zeta.
  assert (Keep : exists b1 cs1, Does (ret (Ok tt, [] ++ data) : M (res errno unit * bytes)) w (Ok tt, b1) cs1 /\
                                cs1 ++ append_calls p b1 = append_calls p data).
  { exists data, []. split; [now apply does_ret|reflexivity]. }
  destruct (len data <? BUFCAP - len []); [exact Keep|].
  assert (D0 : Does (if BUFCAP - len [] <? len data then bw_flush p [] else ret (Ok tt, [])) w
                    (Ok tt : res errno unit, [] : bytes) []).
  { destruct (BUFCAP - len [] <? len data); now apply does_ret. }
  destruct (BUFCAP <=? len data) eqn:Big.
  - exists [], [CAppend p data]. split.
    + apply (then_bind_nil _ _ _ _ _ _ D0).
      destruct (apply_append (wfs w) p data G) as (s1 & E).
      apply (then_call_bind _ _ _ s1 _ [] F E). now apply does_ret.
    + destruct data; [discriminate Big|reflexivity].
  - destruct Keep as (b1 & cs1 & D & L). exists b1, cs1. split; [|exact L].
    exact (then_bind_nil _ _ _ _ _ _ D0 D).
Qed.

Lemma append_calls_holds : forall p d0 d s s', Okc (append_calls p d) s s' -> holds s p d0 ->
  holds s' p (d0 ++ d).
Proof.
  intros p d0 [|x d] s s' A X; cbn [append_calls Okc] in A.
  - subst s'. now rewrite app_nil_r.
  - destruct A as (s1 & E & ->). eapply holds_append; eassumption.
Qed.

Lemma append_calls_survive : forall p q d, Forall (survives q) (append_calls p d).
Proof. intros p q [|x d]; repeat constructor. Qed.

Lemma write_calls_survive : forall p d cs1 b1, cs1 ++ append_calls p b1 = append_calls p d ->
  Forall (survives p) cs1.
Proof.
  intros p d cs1 b1 L. pose proof (append_calls_survive p p d) as K. rewrite <- L in K.
  now apply Forall_app in K.
Qed.

Section Programs.
  Variable H : bytes -> bytes.
  Variable cfg : config.

  Lemma writer_close_does : forall seg buf w, wfault w = None -> fget (wfs w) (PWal seg) <> None ->
    Does (writer_close seg buf) w (Ok tt) (wal_write seg buf).
  Proof.
    intros seg buf w F G. unfold writer_close, wal_write.
    apply (then_bind _ _ _ _ _ _ _ (bw_flush_does _ buf w F G)). intros w1 R1.
    destruct (apply_sync (wfs w1) (PWal seg)) as (s2 & E2).
    { exact (ran_survives _ _ _ _ R1 (append_calls_survive _ _ _) G). }
    apply (then_call_bind _ _ _ s2 _ [] (ran_fault _ _ _ R1) E2). now apply does_ret.
  Qed.

  Lemma writer_seal_does : forall seg w, wfault w = None -> fget (wfs w) (PWal seg) <> None ->
    Does (writer_seal seg []) w (Ok tt) (wal_write seg sentinel).
  Proof.
    intros seg w F G. unfold writer_seal.
    destruct (bw_write_all_does (PWal seg) sentinel w F G) as (b1 & cs1 & D1 & L).
    unfold wal_write. rewrite <- L, <- app_assoc.
    apply (then_bind _ _ _ _ _ _ _ D1). intros w1 R1.
    apply writer_close_does; [exact (ran_fault _ _ _ R1)|].
    exact (ran_survives _ _ _ _ R1 (write_calls_survive _ _ _ _ L) G).
  Qed.

  Lemma write_entry_does : forall seg ver payload w,
    wfault w = None -> fget (wfs w) (PWal seg) <> None ->
    Does (write_entry H seg [] ver payload) w (Ok tt, []) (wal_write seg (enc_record H ver payload)).
  Proof.
    intros seg ver payload w F G. unfold write_entry. cbv zeta.
    destruct (bw_write_all_does (PWal seg) (enc_record H ver payload) w F G) as (b1 & cs1 & D1 & L).
    unfold wal_write. rewrite <- L, <- app_assoc.
    apply (then_bind _ _ _ _ _ _ _ D1). intros w1 R1.
    pose proof (ran_survives _ _ _ _ R1 (write_calls_survive _ _ _ _ L) G) as G1.
    apply (then_bind _ _ _ _ _ _ _ (bw_flush_does _ b1 w1 (ran_fault _ _ _ R1) G1)). intros w2 R2.
    destruct (apply_sync (wfs w2) (PWal seg)) as (s3 & E3).
    { exact (ran_survives _ _ _ _ R2 (append_calls_survive _ _ _) G1). }
    apply (then_call_bind _ _ _ s3 _ [] (ran_fault _ _ _ R2) E3). now apply does_ret.
  Qed.

  Lemma wal_write_in : forall (T : path -> Prop) seg d, T (PWal seg) -> Forall (call_in T) (wal_write seg d).
  Proof.
    intros T seg d Tp. apply Forall_app. split; [destruct d|]; repeat constructor; exact Tp.
  Qed.

  Lemma wal_write_present : forall cs seg d w w', Ran (cs ++ wal_write seg d) w w' ->
    fget (wfs w') (PWal seg) <> None.
  Proof.
    intros cs seg d w w' R. apply ran_okc in R. unfold wal_write in R. rewrite app_assoc in R.
    exact (okc_synced _ _ _ _ R).
  Qed.

  (* the segment changes with the version: seal the old one, open the new one *)
  Definition roll_calls (wl : wal) (t : N) : list call :=
    match writer wl with
    | None => [COpenAppend (PWal t)]
    | Some (s, _) => if s =? t then [] else wal_write s sentinel ++ [COpenAppend (PWal t)]
    end.

  Definition append_op_calls (wl : wal) (payload : bytes) : list call :=
    roll_calls wl (seg_of cfg (nextv wl))
    ++ wal_write (seg_of cfg (nextv wl)) (enc_record H (nextv wl) payload).

  Lemma append_op_does : forall (wl : wal) payload w, wfault w = None ->
    match writer wl with
    | None => True
    | Some (sg, buf) => buf = [] /\ fget (wfs w) (PWal sg) <> None
    end ->
    Does (append_op H cfg wl payload) w
         (Ok (nextv wl), mkWal (nextv wl + 1) (Some (seg_of cfg (nextv wl), [])))
         (append_op_calls wl payload).
  Proof.
    intros wl payload w F Hw. unfold append_op, append_op_calls. cbv zeta.
    set (ver := nextv wl). set (t := seg_of cfg ver).
    eapply then_bind.
    -
      instantiate (1 := (Ok tt, mkWal (ver + 1) (Some (t, [])))). unfold roll_calls.
      assert (Open : forall w0, wfault w0 = None ->
                Does (do! r <- do_call (COpenAppend (PWal t)) ;;
                      match r with
                      | Err _ => ret (Err EWalIo, mkWal (ver + 1) None)
                      | Ok _ => ret (Ok tt, mkWal (ver + 1) (Some (t, [])))
                      end) w0 (Ok tt, mkWal (ver + 1) (Some (t, []))) [COpenAppend (PWal t)]).
      { intros w0 F0. destruct (apply_open_append (wfs w0) (PWal t) eq_refl) as (s1 & E1 & _).
        apply (then_call_bind _ _ _ s1 _ [] F0 E1). now apply does_ret. }
      destruct (writer wl) as [[s b]|].
      + destruct Hw as [-> Gs]. destruct (N.eqb_spec s t) as [->|Ns]; cbn [negb].
        * now apply does_ret.
        * apply (then_bind _ _ _ _ _ _ _ (writer_seal_does s w F Gs)). intros w0 R0.
          apply Open. exact (ran_fault _ _ _ R0).
      + now apply Open.
    - intros w1 R1. cbn [writer nextv].
      eapply does_bind_pure; [apply write_entry_does; [exact (ran_fault _ _ _ R1)|]|reflexivity].
      (* the target segment exists: it was the writer's, or has just been opened *)
      unfold roll_calls in R1. destruct (writer wl) as [[s b]|].
      + destruct Hw as [_ Gs]. destruct (N.eqb_spec s t) as [->|Ns].
        * apply ran_nil_inv in R1. now subst w1.
        * apply ran_app_inv in R1. destruct R1 as (w0 & _ & R1).
          apply ran_okc in R1. destruct R1 as (s1 & E1 & ->).
          destruct (apply_open_append (wfs w0) (PWal t) eq_refl) as (s1' & E1' & G1).
          congruence.
      + apply ran_okc in R1. destruct R1 as (s1 & E1 & ->).
          destruct (apply_open_append (wfs w) (PWal t) eq_refl) as (s1' & E1' & G1). congruence.
  Qed.

  Lemma append_op_calls_in : forall (T : path -> Prop) wl payload, (forall i, T (PWal i)) ->
    Forall (call_in T) (append_op_calls wl payload).
  Proof.
    intros T wl payload TW. apply Forall_app. split; [|apply wal_write_in, TW].
    assert (Op : forall t, Forall (call_in T) [COpenAppend (PWal t)]) by (repeat constructor; apply TW).
    unfold roll_calls. destruct (writer wl) as [[s b]|]; [|apply Op].
    destruct (s =? _); [constructor|]. apply Forall_app. split; [apply wal_write_in, TW|apply Op].
  Qed.

  Definition aw_calls (target tmp : path) (data : bytes) : list call :=
    CCreate tmp :: append_calls tmp data ++ [CSync tmp; CRename tmp target].

  Lemma atomic_write_does : forall target tmp data w, wfault w = None ->
    parent_dir target = None -> parent_dir tmp = None ->
    Does (atomic_write target tmp data) w (Ok tt) (aw_calls target tmp data).
  Proof.
    intros target tmp data w F Pt Pm. unfold atomic_write, aw_calls.
    assert (PO : forall s p, parent_dir p = None -> parent_ok s p = true).
    { intros s p E. unfold parent_ok. now rewrite E. }
    destruct (apply_create (wfs w) tmp (PO _ _ Pm)) as (s1 & E1 & G1).
    apply (then_call_bind _ _ _ s1 _ _ F E1).
    apply (then_bind _ _ _ _ _ _ _ (append_opt_does tmp data (after _ s1 w) eq_refl G1)).
    intros w2 R2. pose proof (ran_survives _ _ _ _ R2 (append_calls_survive _ _ _) G1) as G2.
    destruct (apply_sync (wfs w2) tmp G2) as (s3 & E3).
    apply (then_call_bind _ _ _ s3 _ _ (ran_fault _ _ _ R2) E3).
    destruct (apply_rename s3 tmp target) as (s4 & E4); [|apply PO, Pt|].
    { eapply (apply_call_survives tmp (CSync tmp)); [exact I|exact E3|exact G2]. }
    eapply does_call; [reflexivity|exact E4].
  Qed.

  Lemma aw_calls_in : forall (T : path -> Prop) target tmp data, T target -> T tmp ->
    Forall (call_in T) (aw_calls target tmp data).
  Proof.
    intros T target tmp data Tt Tm. constructor; [exact Tm|]. apply Forall_app.
    split; [destruct data|]; repeat constructor; assumption.
  Qed.

  Lemma aw_calls_holds : forall target tmp data s s', Okc (aw_calls target tmp data) s s' ->
    holds s' target data.
  Proof.
    intros target tmp data s s' (s1 & E1 & A). apply okc_app_inv in A.
    destruct A as (s2 & A2 & s3 & E3 & s4 & E4 & ->).
    eapply holds_rename; [exact E4|]. eapply holds_sync; [exact E3|].
    exact (append_calls_holds _ [] _ _ _ A2 (holds_create _ _ _ E1)).
  Qed.

  (* unlink_all stops at the first path that is not there *)
  Fixpoint unlink_calls (ps : list path) (s : fs) : list call :=
    match ps with
    | [] => []
    | p :: r => match fget s p with
                | Some _ => CUnlink p :: unlink_calls r (del s p)
                | None => []
                end
    end.

  Lemma unlink_all_does : forall ps w, wfault w = None ->
    exists r, Does (unlink_all ps) w r (unlink_calls ps (wfs w)).
  Proof.
    induction ps as [|p ps IH]; intros w F; cbn [unlink_all unlink_calls].
    - exists (Ok tt). now apply does_ret.
    - destruct (fget (wfs w) p) as [f|] eqn:G.
      + assert (E : apply_call (CUnlink p) (wfs w) = Ok (del (wfs w) p)) by (cbn [apply_call]; now rewrite G).
        destruct (IH (after (CUnlink p) (del (wfs w) p) w) eq_refl) as (r & D).
        exists r. exact (then_call_bind _ _ _ _ _ _ F E D).
      + exists (Err ENOENT). apply then_bind_nil with (a := Err ENOENT); [|now apply does_ret].
        apply does_call_err; [exact F|]. cbn [apply_call]. now rewrite G.
  Qed.

  Lemma unlink_calls_in : forall (T : path -> Prop) ps s, (forall p, In p ps -> T p) ->
    Forall (call_in T) (unlink_calls ps s).
  Proof.
    intros T. induction ps as [|p ps IH]; intros s HT; cbn [unlink_calls]; [constructor|].
    destruct (fget s p); constructor; [apply HT; now left|]. apply IH. intros q Iq. apply HT. now right.
  Qed.

  Lemma unlink_calls_all : forall ps s, FsWf s -> NoDup ps -> (forall p, In p ps -> fget s p <> None) ->
    unlink_calls ps s = map CUnlink ps.
  Proof.
    induction ps as [|p ps IH]; intros s W ND Ex; cbn [unlink_calls map]; [reflexivity|].
    inversion ND as [|? ? Np ND']; subst.
    destruct (fget s p) eqn:G; [|now contradiction (Ex p (or_introl eq_refl))].
    f_equal. apply IH; [now apply del_wf|exact ND'|].
    intros q Iq. rewrite fget_del_other; [apply Ex; now right|]. intros ->. contradiction.
  Qed.

  Definition prune_calls (bound : N) (s : fs) : list call :=
    unlink_calls (map PWal (filter (fun i => i <? bound) (sort_ids (wal_ids s)))) s.

  Lemma prune_below_does : forall bound w, wfault w = None ->
    Does (prune_below bound) w tt (prune_calls bound (wfs w)).
  Proof.
    intros bound w F. unfold prune_below. apply then_get_fs_bind.
    destruct (unlink_all_does (map PWal (filter (fun i => i <? bound) (sort_ids (wal_ids (wfs w))))) w F)
      as (r & D).
    eapply does_bind_pure; [exact D|reflexivity].
  Qed.

  Lemma prune_calls_in : forall (T : path -> Prop) bound s, (forall i, i < bound -> T (PWal i)) ->
    Forall (call_in T) (prune_calls bound s).
  Proof.
    intros T bound s HT. apply unlink_calls_in. intros p Ip. apply in_map_iff in Ip.
    destruct Ip as (i & <- & Ii). apply filter_In in Ii. apply HT. lia.
  Qed.

  (* Index::checkpoint_inner: nothing, or the snapshot at version nextv - 1 written atomically and
     then, unless the index was already that far, the segments below that version's pruned *)
  Definition ck_skips (reason : ckreason) (m : mem) : bool :=
    negb (match reason with
          | RAfterReplay | RExplicit => true
          | RRollover => if lpv (idx m) =? 0 then 1 <? nextv (mwal m)
                         else lpv (idx m) + 1 <? nextv (mwal m)
          end) || (nextv (mwal m) - 1 =? 0).
  Lemma ck_skips_not : forall reason m, reason <> RRollover -> 0 < nextv (mwal m) - 1 ->
    ck_skips reason m = false.
  Proof.
    intros reason m Nr Pos. unfold ck_skips. replace (nextv (mwal m) - 1 =? 0) with false by lia.
    now destruct reason.
  Qed.

  Definition ck_data (m : mem) : bytes := enc_snapshot (nextv (mwal m) - 1) (km (idx m)).
  Definition ck_write_calls (reason : ckreason) (m : mem) : list call :=
    if ck_skips reason m then [] else aw_calls PIndex PIndexTmp (ck_data m).
  Definition ck_prune_calls (reason : ckreason) (m : mem) (s : fs) : list call :=
    if ck_skips reason m || (negb (lpv (idx m) =? 0) && (nextv (mwal m) - 1 <=? lpv (idx m))) then []
    else prune_calls (seg_of cfg (nextv (mwal m) - 1)) s.

  (* the memory a fault-free checkpoint_inner returns *)
  Definition ck_mem (reason : ckreason) (m : mem) : mem :=
    if ck_skips reason m then m
    else mkMem (mkIstate (km (idx m)) (rc (idx m)) (nextv (mwal m) - 1) (ub (idx m)) (tb (idx m))
                         (len (ck_data m))) (mwal m) (mpre m).

  Lemma checkpoint_inner_run : forall reason m w, wfault w = None ->
    exists w1 w', checkpoint_inner cfg reason m w = ((Ok tt, ck_mem reason m), w') /\
                  Ran (ck_write_calls reason m) w w1 /\
                  Ran (ck_prune_calls reason m (wfs w1)) w1 w'.
  Proof.
    intros reason m w F. unfold checkpoint_inner, ck_write_calls, ck_prune_calls, ck_mem. cbv zeta.
    fold (ck_skips reason m). destruct (ck_skips reason m); cbn [orb].
    - exists w, w. split; [reflexivity|]. split; now constructor.
    - destruct (atomic_write_does PIndex PIndexTmp (ck_data m) w F eq_refl eq_refl) as (w1 & E1 & R1).
      unfold ck_data in *. cbn [km]. rewrite (bind_eq _ _ _ _ _ E1).
      pose proof (ran_fault _ _ _ R1) as F1.
      destruct (negb (lpv (idx m) =? 0) && (nextv (mwal m) - 1 <=? lpv (idx m))).
      + exists w1, w1. split; [reflexivity|]. split; [exact R1|now constructor].
      + destruct (prune_below_does (seg_of cfg (nextv (mwal m) - 1)) w1 F1) as (w2 & E2 & R2).
        rewrite (bind_eq _ _ _ _ _ E2). exists w1, w2. split; [reflexivity|]. now split.
  Qed.

  Lemma ck_mem_same : forall reason m, let m' := ck_mem reason m in
    km (idx m') = km (idx m) /\ rc (idx m') = rc (idx m) /\ ub (idx m') = ub (idx m) /\
    tb (idx m') = tb (idx m) /\ mwal m' = mwal m /\ mpre m' = mpre m.
  Proof. intros reason m. unfold ck_mem. destruct (ck_skips reason m); now repeat split. Qed.

  Lemma ck_calls_in : forall (T : path -> Prop) reason m s, T PIndex -> T PIndexTmp ->
    (forall i, i < seg_of cfg (nextv (mwal m) - 1) -> T (PWal i)) ->
    Forall (call_in T) (ck_write_calls reason m ++ ck_prune_calls reason m s).
  Proof.
    intros T reason m s Ti Tt Tw. unfold ck_write_calls, ck_prune_calls. apply Forall_app. split.
    - destruct (ck_skips reason m); [constructor|now apply aw_calls_in].
    - destruct (_ || _); [constructor|now apply prune_calls_in].
  Qed.

  (* only lpv and ssz of the index change, whatever the world *)
  Lemma checkpoint_inner_mem : forall reason m w,
    let m' := snd (fst (checkpoint_inner cfg reason m w)) in
    km (idx m') = km (idx m) /\ rc (idx m') = rc (idx m) /\ ub (idx m') = ub (idx m) /\
    tb (idx m') = tb (idx m) /\ mwal m' = mwal m /\ mpre m' = mpre m.
  Proof.
    intros reason m w. unfold checkpoint_inner. cbv zeta.
    match goal with |- context [if ?c then _ else _] => destruct c end; [now repeat split|].
    unfold bind. destruct (atomic_write _ _ _ w) as [[|e] w1]; [|now repeat split].
    match goal with |- context [if ?c then ret tt else _] => destruct c end.
    - now repeat split.
    - destruct (prune_below _ w1). now repeat split.
  Qed.

  (* delete_blobs skips what is not there *)
  Fixpoint delete_calls (hs : list bytes) (s : fs) : list call :=
    match hs with
    | [] => []
    | h :: r => match fget s (cas_path h) with
                | Some _ => CUnlink (cas_path h) :: delete_calls r (del s (cas_path h))
                | None => delete_calls r s
                end
    end.

  Lemma delete_blobs_does : forall hs w, wfault w = None ->
    Does (delete_blobs hs) w (Ok tt) (delete_calls hs (wfs w)).
  Proof.
    induction hs as [|h hs IH]; intros w F; cbn [delete_blobs delete_calls].
    - now apply does_ret.
    - destruct (fget (wfs w) (cas_path h)) as [f|] eqn:G.
      + assert (E : apply_call (CUnlink (cas_path h)) (wfs w) = Ok (del (wfs w) (cas_path h)))
          by (cbn [apply_call]; now rewrite G).
        exact (then_call_bind _ _ _ _ _ _ F E (IH (after _ _ w) eq_refl)).
      + apply then_bind_nil with (a := Err ENOENT); [|exact (IH w F)].
        apply does_call_err; [exact F|]. cbn [apply_call]. now rewrite G.
  Qed.

  Lemma delete_calls_incl : forall hs s, incl (delete_calls hs s) (map (fun h => CUnlink (cas_path h)) hs).
  Proof.
    induction hs as [|h hs IH]; intros s; cbn [delete_calls map]; [apply incl_refl|].
    destruct (fget s (cas_path h)).
    - apply incl_cons; [now left|]. apply incl_tl, IH.
    - apply incl_tl, IH.
  Qed.

  Definition blob_paths (hs : list bytes) (q : path) : Prop := exists h, In h hs /\ q = cas_path h.

  Lemma delete_calls_in : forall hs s, Forall (call_in (blob_paths hs)) (delete_calls hs s).
  Proof.
    intros hs s. apply Forall_forall. intros c Ic. apply delete_calls_incl, in_map_iff in Ic.
    destruct Ic as (h & <- & Ih). now exists h.
  Qed.

  Lemma delete_calls_gone : forall hs s s', FsWf s -> Okc (delete_calls hs s) s s' ->
    forall h, In h hs -> fget s' (cas_path h) = None.
  Proof.
    induction hs as [|h0 hs IH]; intros s s' W A h Ih; [destruct Ih|]. cbn [delete_calls] in A.
    assert (Later : forall s1, FsWf s1 -> fget s1 (cas_path h0) = None -> Okc (delete_calls hs s1) s1 s' ->
              fget s' (cas_path h) = None).
    { intros s1 W1 G1 A1. destruct Ih as [<-|Ih]; [|exact (IH _ _ W1 A1 h Ih)].
      destruct (fr_get _ _ _ (okc_frame _ _ _ _ (delete_calls_in hs s1) A1) (cas_path h0))
        as [(h2 & I2 & ->)|X]; [exact (IH _ _ W1 A1 h2 I2)|now rewrite X]. }
    destruct (fget s (cas_path h0)) eqn:G; [|now apply (Later s)].
    destruct A as (s1 & E & A). apply apply_call_eff in E. destruct E as (_ & ->).
    apply (Later (del s (cas_path h0))); [now apply del_wf|now apply fget_del_same|exact A].
  Qed.

  (* the record just logged is the first of its segment: checkpoint_inner RRollover runs *)
  Definition lap_rolled (wl : wal) : bool :=
    negb ((if last_written wl =? 0 then 0 else seg_of cfg (last_written wl)) =? seg_of cfg (nextv wl)).

  (* the memory after the WAL append and the index update *)
  Definition lap_mem (m : mem) (i' : istate) : mem :=
    mkMem i' (mkWal (nextv (mwal m) + 1) (Some (seg_of cfg (nextv (mwal m)), []))) (mpre m).

  Definition lap_res (m : mem) (i' : istate) : mem :=
    if lap_rolled (mwal m) then ck_mem RRollover (lap_mem m i') else lap_mem m i'.

  (* log, apply to the index, delete what became unreferenced, checkpoint after a roll-over *)
  Lemma log_and_apply_run : forall m o i' un w, wfault w = None ->
    match writer (mwal m) with
    | None => True
    | Some (sg, buf) => buf = [] /\ fget (wfs w) (PWal sg) <> None
    end ->
    apply_op (key_cmp (c_kt cfg)) (idx m) o = Ok (i', un) ->
    exists w1 w2 w3 w',
      log_and_apply H cfg m o w = ((Ok tt, lap_res m i'), w') /\
      Ran (append_op_calls (mwal m) (enc_op o)) w w1 /\
      Ran (delete_calls un (wfs w1)) w1 w2 /\
      Ran (if lap_rolled (mwal m) then ck_write_calls RRollover (lap_mem m i') else []) w2 w3 /\
      Ran (if lap_rolled (mwal m) then ck_prune_calls RRollover (lap_mem m i') (wfs w3) else []) w3 w'.
  Proof.
    intros m o i' un w F Hw Eap. unfold log_and_apply, lap_res. cbv zeta.
    destruct (append_op_does (mwal m) (enc_op o) w F Hw) as (w1 & E1 & R1).
    rewrite (bind_eq _ _ _ _ _ E1), Eap.
    destruct (delete_blobs_does un w1 (ran_fault _ _ _ R1)) as (w2 & E2 & R2).
    rewrite (bind_eq _ _ _ _ _ E2). pose proof (ran_fault _ _ _ R2) as F2.
    fold (lap_mem m i'). fold (lap_rolled (mwal m)). destruct (lap_rolled (mwal m)).
    - destruct (checkpoint_inner_run RRollover (lap_mem m i') w2 F2) as (w3 & w' & E3 & R3 & R4).
      exists w1, w2, w3, w'. now repeat split.
    - exists w1, w2, w2, w2. split; [reflexivity|]. split; [exact R1|].
      split; [exact R2|]. split; now constructor.
  Qed.

  Lemma lap_res_same : forall m i', let m' := lap_res m i' in
    km (idx m') = km i' /\ rc (idx m') = rc i' /\ ub (idx m') = ub i' /\ tb (idx m') = tb i' /\
    mwal m' = mwal (lap_mem m i') /\ mpre m' = mpre m.
  Proof.
    intros m i'. unfold lap_res. destruct (lap_rolled (mwal m)); [|now repeat split].
    exact (ck_mem_same RRollover (lap_mem m i')).
  Qed.

  Definition mkdir_calls (d : dir) (s : fs) : list call := if has_dir s d then [] else [CMkdir d].

  Lemma mkdir_p_does : forall d w, wfault w = None ->
    (removelast d = [] \/ has_dir (wfs w) (removelast d) = true) ->
    Does (mkdir_p d) w (Ok tt) (mkdir_calls d (wfs w)).
  Proof.
    intros d w F Par. unfold mkdir_p, mkdir_calls. apply then_get_fs_bind.
    destruct (has_dir (wfs w) d) eqn:Hd; [now apply does_ret|].
    eapply does_call; [exact F|]. cbn [apply_call]. rewrite Hd.
    destruct (removelast d) as [|x l]; [reflexivity|].
    destruct Par as [X|X]; [discriminate|]. now rewrite X.
  Qed.

  Definition is_mkdir (c : call) : Prop := match c with CMkdir _ => True | _ => False end.

  Lemma okc_mkdirs : forall cs s s', Forall is_mkdir cs -> Okc cs s s' ->
    files s' = files s /\ nstage s' = nstage s /\
    (forall d, has_dir s' d = true <-> has_dir s d = true \/ In (CMkdir d) cs).
  Proof.
    induction cs as [|c cs IH]; intros s s' M A; cbn [Okc] in A.
    - subst s'. repeat split; auto. now intros [X|[]].
    - destruct A as (s1 & E & A). inversion M as [|? ? Mc Mcs]; subst.
      destruct c; try contradiction. apply apply_call_eff in E. destruct E as (_ & ->).
      destruct (IH _ _ Mcs A) as (Fi & Ns & Ds). split; [exact Fi|]. split; [exact Ns|].
      intros d'. rewrite Ds, !has_dir_iff. cbn [dirs In]. rewrite in_app_iff. cbn [In].
      split; [intros [[X|[X|[]]]|X]|intros [X|[X|X]]]; auto.
      + right. left. now f_equal.
      + inversion X. auto.
  Qed.

  Lemma mkdir_calls_mkdir : forall d s, Forall is_mkdir (mkdir_calls d s).
  Proof. intros d s. unfold mkdir_calls. destruct (has_dir s d); repeat constructor. Qed.

  Lemma mkdir_calls_eff : forall d s s1, Okc (mkdir_calls d s) s s1 ->
    has_dir s1 d = true /\ forall d', d' <> d -> has_dir s1 d' = has_dir s d'.
  Proof.
    intros d s s1. unfold mkdir_calls. destruct (has_dir s d) eqn:Hd; cbn [Okc].
    - intros ->. now split.
    - intros (s2 & E & ->). apply apply_call_eff in E. destruct E as (_ & ->).
      unfold has_dir. cbn [dirs]. split; [|intros d' Ne]; rewrite existsb_app; cbn [existsb].
      + rewrite (proj2 (dir_eqb_true_iff d d) eq_refl). apply orb_true_r.
      + destruct (dir_eqb d' d) eqn:X; [apply dir_eqb_true_iff in X; contradiction|apply orb_false_r].
  Qed.

  Definition mkdir_cas2_calls (a b : bytes) (s : fs) : list call :=
    mkdir_calls [s_cas; a] s ++ mkdir_calls [s_cas; a; b] s.

  Lemma mkdir_cas2_calls_mkdir : forall a b s, Forall is_mkdir (mkdir_cas2_calls a b s).
  Proof. intros a b s. apply Forall_app. split; apply mkdir_calls_mkdir. Qed.

  Lemma mkdir_cas2_does : forall a b w, wfault w = None -> has_dir (wfs w) [s_cas] = true ->
    Does (mkdir_cas2 a b) w (Ok tt) (mkdir_cas2_calls a b (wfs w)).
  Proof.
    intros a b w F Hc. unfold mkdir_cas2, mkdir_cas2_calls.
    apply (then_bind _ _ _ _ _ _ _ (mkdir_p_does [s_cas; a] w F (or_intror Hc))). intros w1 R1.
    destruct (mkdir_calls_eff _ _ _ (ran_okc _ _ _ R1)) as [Ha Oth].
    unfold mkdir_calls at 1. rewrite <- (Oth [s_cas; a; b]) by discriminate.
    apply mkdir_p_does; [exact (ran_fault _ _ _ R1)|right; exact Ha].
  Qed.

  Lemma new_staging_does : forall w, wfault w = None -> has_dir (wfs w) [s_staging] = true ->
    fget (wfs w) (PStaging (nstage (wfs w))) = None ->
    Does new_staging w (Ok (PStaging (nstage (wfs w)))) [CCreateExcl (PStaging (nstage (wfs w)))].
  Proof.
    intros w F D G. unfold new_staging. apply then_get_fs_bind.
    eapply then_call_bind; [exact F| |now apply does_ret].
    cbn [apply_call]. unfold parent_ok. cbn [parent_dir]. now rewrite D, G.
  Qed.

  Lemma mkdir_cas2_calls_dirs : forall a b s s', dirs s' = dirs s ->
    mkdir_cas2_calls a b s' = mkdir_cas2_calls a b s.
  Proof. intros a b s s' E. unfold mkdir_cas2_calls, mkdir_calls, has_dir. now rewrite E. Qed.

  Lemma created_excl : forall p s s', apply_call (CCreateExcl p) s = Ok s' -> fget s' p <> None.
  Proof.
    intros p s s' E. apply apply_call_eff in E. destruct E as (_ & ->). unfold fget. cbn [files].
    rewrite lookup_set_path, path_eqb_refl. discriminate.
  Qed.

  (* the staging part of put: stage, write, sync, make the fan-out directories, rename *)
  Definition put_stage_calls (m : mem) (chunks : list bytes) (s : fs) : list call :=
    let c := concat chunks in
    let p := PStaging (nstage s) in
    let hp := hexpath (H c) in
    [CCreateExcl p] ++ append_calls p c ++ (if c_sync cfg then [CSync p] else [])
    ++ (if mpre m then [] else mkdir_cas2_calls (nth 0 hp []) (nth 1 hp []) s)
    ++ [CRename p (cas_path (H c))].

  (* content and sync touch the staging file only *)
  Lemma stage_write_in : forall p d,
    Forall (call_in (eq p)) (append_calls p d ++ (if c_sync cfg then [CSync p] else [])).
  Proof. intros p d. apply Forall_app. split; [destruct d|destruct (c_sync cfg)]; repeat constructor. Qed.

  Lemma put_stage_does : forall m k chunks xa xb xc w, wfault w = None ->
    has_dir (wfs w) [s_staging] = true -> fget (wfs w) (PStaging (nstage (wfs w))) = None ->
    (if mpre m then parent_ok (wfs w) (cas_path (H (concat chunks))) = true
     else has_dir (wfs w) [s_cas] = true) ->
    hexpath (H (concat chunks)) = [xa; xb; xc] ->
    Then (put H cfg m k chunks) w
         (log_and_apply H cfg m (RPut k (H (concat chunks)) (len (concat chunks))))
         (put_stage_calls m chunks (wfs w)).
  Proof.
    intros m k chunks xa xb xc w F D G Dc Hp. unfold put, put_stage_calls. cbv zeta.
    set (c := concat chunks) in *. set (p := PStaging (nstage (wfs w))) in *.
    set (q := cas_path (H c)) in *.
    apply (then_bind _ _ _ _ _ _ _ (new_staging_does w F D G)). fold p. intros w1 R1.
    destruct (ran_okc _ _ _ R1) as (s1 & E1 & X1).
    assert (G1 : fget (wfs w1) p <> None) by (rewrite X1; exact (created_excl _ _ _ E1)).
    assert (D1 : dirs (wfs w1) = dirs (wfs w)).
    { rewrite X1. apply apply_call_eff in E1. now destruct E1 as (_ & ->). }
    apply (then_bind _ _ _ _ _ _ _ (append_opt_does p c w1 (ran_fault _ _ _ R1) G1)). intros w2 R2.
    pose proof (ran_survives _ _ _ _ R2 (append_calls_survive _ _ _) G1) as G2.
    assert (Sy : Does (if c_sync cfg then do_call (CSync p) else ret (Ok tt)) w2 (Ok tt)
                      (if c_sync cfg then [CSync p] else [])).
    { destruct (c_sync cfg); [|exact (does_ret _ _ (ran_fault _ _ _ R2))].
      destruct (apply_sync (wfs w2) p G2) as (s3 & E3). exact (does_call _ _ s3 (ran_fault _ _ _ R2) E3). }
    apply (then_bind _ _ _ _ _ _ _ Sy). intros w3 R3.
    assert (G3 : fget (wfs w3) p <> None).
    { apply (ran_survives _ _ _ _ R3); [destruct (c_sync cfg); repeat constructor|exact G2]. }
    pose proof (fr_dirs _ _ _ (okc_frame _ _ _ _ (stage_write_in p c)
                                 (ran_okc _ _ _ (ran_app _ _ _ _ _ R2 R3)))) as D3.
    rewrite D1 in D3.
    assert (Mk : Does (if mpre m then ret (Ok tt)
                       else mkdir_cas2 (nth 0 (hexpath (H c)) []) (nth 1 (hexpath (H c)) [])) w3 (Ok tt)
                      (if mpre m then []
                       else mkdir_cas2_calls (nth 0 (hexpath (H c)) []) (nth 1 (hexpath (H c)) []) (wfs w))).
    { destruct (mpre m); [exact (does_ret _ _ (ran_fault _ _ _ R3))|].
      rewrite <- (mkdir_cas2_calls_dirs _ _ _ _ D3).
      apply mkdir_cas2_does; [exact (ran_fault _ _ _ R3)|]. unfold has_dir in *. now rewrite D3. }
    apply (then_bind _ _ _ _ _ _ _ Mk). intros w4 R4.
    assert (M4 : Forall is_mkdir (if mpre m then []
                   else mkdir_cas2_calls (nth 0 (hexpath (H c)) []) (nth 1 (hexpath (H c)) []) (wfs w)))
      by (destruct (mpre m); [constructor|apply mkdir_cas2_calls_mkdir]).
    destruct (okc_mkdirs _ _ _ M4 (ran_okc _ _ _ R4)) as (Fi4 & _ & Ds4).
    destruct (apply_rename (wfs w4) p q) as (s5 & E5).
    { unfold fget. rewrite Fi4. exact G3. }
    { unfold parent_ok, q, cas_path. cbn [parent_dir]. rewrite Hp. cbn [removelast].
      apply Ds4. destruct (mpre m).
      - left. unfold parent_ok, q, cas_path in Dc. cbn [parent_dir] in Dc. rewrite Hp in Dc.
        cbn [removelast] in Dc. unfold has_dir in *. now rewrite D3.
      - rewrite Hp. cbn [nth]. unfold mkdir_cas2_calls, mkdir_calls.
        destruct (has_dir (wfs w) [s_cas; xa; xb]) eqn:X.
        + left. unfold has_dir in *. now rewrite D3.
        + right. apply in_or_app. right. now left. }
    rewrite <- (app_nil_r [CRename p q]).
    apply (then_bind _ _ _ _ _ _ _ (does_call _ _ s5 (ran_fault _ _ _ R4) E5)). intros w5 R5.
    apply then_done. exact (ran_fault _ _ _ R5).
  Qed.

  Lemma put_stage_calls_eff : forall m chunks s s', Okc (put_stage_calls m chunks s) s s' ->
    let c := concat chunks in let p := PStaging (nstage s) in let q := cas_path (H c) in
    holds s' q c /\
    (forall r, r <> p -> r <> q -> fget s' r = fget s r) /\
    (FsWf s -> FsWf s' /\ fget s' p = None) /\
    nstage s' = nstage s + 1 /\
    (forall d, has_dir s d = true -> has_dir s' d = true).
  Proof.
    intros m chunks s s' A c p q. unfold put_stage_calls in A. cbv zeta in A. fold c p q in A.
    cbn [app Okc] in A. destruct A as (s1 & E1 & A). apply okc_app_inv in A. destruct A as (s2 & A2 & A).
    apply okc_app_inv in A. destruct A as (s3 & A3 & A). apply okc_app_inv in A.
    destruct A as (s4 & A4 & s5 & E5 & ->).
    pose proof (apply_call_wf _ _ _ E1) as W1. apply apply_call_eff in E1. destruct E1 as (_ & E1).
    assert (G1 : forall r, fget s1 r = if path_eqb r p then Some (mkFile [] 0) else fget s r).
    { intros r. rewrite E1. unfold fget. cbn [files]. apply lookup_set_path. }
    pose proof (okc_frame _ _ _ _ (stage_write_in p c) (okc_app _ _ _ _ _ A2 A3)) as F13.
    assert (H3 : holds s3 p c).
    { assert (H2 : holds s2 p c).
      { apply (append_calls_holds p [] c s1 s2 A2). exists (mkFile [] 0).
        now rewrite G1, path_eqb_refl. }
      destruct (c_sync cfg); cbn [Okc] in A3; [|now subst s3]. destruct A3 as (s3' & E3 & ->).
      eapply holds_sync; eassumption. }
    assert (M4 : Forall is_mkdir (if mpre m then []
                   else mkdir_cas2_calls (nth 0 (hexpath (H c)) []) (nth 1 (hexpath (H c)) []) s))
      by (destruct (mpre m); [constructor|apply mkdir_cas2_calls_mkdir]).
    destruct (okc_mkdirs _ _ _ M4 A4) as (Fi4 & Ns4 & Ds4).
    assert (G4 : forall r, fget s4 r = fget s3 r) by (intros r; unfold fget; now rewrite Fi4).
    apply apply_call_eff in E5. destruct E5 as (f & Gf & ->). destruct H3 as (f3 & G3 & D3).
    rewrite G4, G3 in Gf. inversion Gf; subst f3. split; [|split; [|split; [|split]]].
    - exists f. split; [|exact D3]. now rewrite fget_ren, path_eqb_refl.
    - intros r Np Nq. rewrite fget_ren, (path_eqb_neq _ _ Nq), (fget_del_other _ _ _ Np), G4.
      destruct (fr_get _ _ _ F13 r) as [X|X]; [now contradiction Np|].
      now rewrite X, G1, (path_eqb_neq _ _ Np).
    - intros W. assert (W4 : FsWf s4).
      { unfold FsWf. rewrite Fi4. exact (fr_wf _ _ _ F13 (W1 W)). }
      split; [now apply ren_wf|].
      rewrite fget_ren, path_eqb_neq by discriminate. now apply fget_del_same.
    - unfold ren. cbn [with_files nstage]. rewrite Ns4, (fr_nstage _ _ _ F13), E1. reflexivity.
    - intros d X. unfold has_dir, ren. cbn [with_files dirs]. apply Ds4. left.
      unfold has_dir. rewrite (fr_dirs _ _ _ F13), E1. exact X.
  Qed.

  (* a transaction dropped without finish(): stage, what the BufWriter had to let through, unlink *)
  Definition abort_calls (chunks : list bytes) (s : fs) : list call :=
    let p := PStaging (nstage s) in
    [CCreateExcl p] ++ (if bw_sim 0 chunks then [CAppend p (concat chunks)] else []) ++ [CUnlink p].

  Lemma abort_does : forall m k chunks w, wfault w = None ->
    has_dir (wfs w) [s_staging] = true -> fget (wfs w) (PStaging (nstage (wfs w))) = None ->
    Does (abort m k chunks) w (Ok tt, m) (abort_calls chunks (wfs w)).
  Proof.
    intros m k chunks w F D G. unfold abort, abort_calls. cbv zeta.
    set (p := PStaging (nstage (wfs w))) in *.
    apply (then_bind _ _ _ _ _ _ _ (new_staging_does w F D G)). fold p. intros w1 R1.
    destruct (ran_okc _ _ _ R1) as (s1 & E1 & X1).
    assert (G1 : fget (wfs w1) p <> None) by (rewrite X1; exact (created_excl _ _ _ E1)).
    assert (Ap : Does (if bw_sim 0 chunks then do_call (CAppend p (concat chunks)) else ret (Ok tt)) w1
                      (Ok tt) (if bw_sim 0 chunks then [CAppend p (concat chunks)] else [])).
    { destruct (bw_sim 0 chunks); [|exact (does_ret _ _ (ran_fault _ _ _ R1))].
      destruct (apply_append (wfs w1) p (concat chunks) G1) as (s2 & E2).
      exact (does_call _ _ s2 (ran_fault _ _ _ R1) E2). }
    apply (then_bind _ _ _ _ _ _ _ Ap). intros w2 R2.
    destruct (apply_unlink (wfs w2) p) as (s3 & E3).
    { eapply ran_survives; [exact R2| |exact G1]. destruct (bw_sim 0 chunks); repeat constructor. }
    apply (then_call_bind _ _ _ s3 _ [] (ran_fault _ _ _ R2) E3). now apply does_ret.
  Qed.

  (* in the tail of Index::load (Recover.load_tail): the segment of the next version is
     created if missing *)
  Definition next_seg_calls (t : N) (s : fs) : list call :=
    match fget s (PWal t) with Some _ => [] | None => [CCreate (PWal t); CSync (PWal t)] end.

  Lemma next_seg_does : forall t w, wfault w = None ->
    Does (match fget (wfs w) (PWal t) with
          | Some _ => ret (Ok tt)
          | None => do! x <- do_call (CCreate (PWal t)) ;;
                    match x with Err e => ret (Err e) | Ok _ => do_call (CSync (PWal t)) end
          end) w (Ok tt) (next_seg_calls t (wfs w)).
  Proof.
    intros t w F. unfold next_seg_calls. destruct (fget (wfs w) (PWal t)); [now apply does_ret|].
    destruct (apply_create (wfs w) (PWal t) eq_refl) as (s1 & E1 & G1).
    apply (then_call_bind _ _ _ s1 _ _ F E1).
    destruct (apply_sync s1 (PWal t) G1) as (s2 & E2). eapply does_call; [reflexivity|exact E2].
  Qed.

  (* open_with_recover after its first three calls (both mkdir_p and the lock file) is
     [open_tail]: open_front_then checks this copy of the program text by conversion.
     [settings_gate], the settings part, returns `pre`; [open_load] is Index::load and the
     orphan scan *)
  Definition settings_gate : M (res serr bool) :=
    do! sf <- read_file PSettings ;;
    match sf with
    | Some data =>
      match dec_settings data with
      | None => ret (Err ESettingsParse)
      | Some (ver, pre, n) =>
        if negb (ver =? CURRENT_DB_VERSION) then ret (Err ESettingsVersion)
        else if negb (n =? c_n cfg) then ret (Err ESettingsN)
        else ret (Ok pre)
      end
    | None =>
      do! r <- (if c_pre cfg then pre_create_all else ret (Ok tt)) ;;
      match r with Err _ => ret (Err ECasDir) | Ok _ =>
      do! r <- atomic_write PSettings PSettingsTmp
             (enc_settings CURRENT_DB_VERSION (c_pre cfg) (c_n cfg)) ;;
      match r with Err _ => ret (Err ESettingsWrite) | Ok _ => ret (Ok (c_pre cfg)) end
      end
    end.

  Definition open_load (pre : bool) : M (res serr (mem * option ostats)) :=
    do! rm <- index_load H cfg pre ;;
    match rm with Err e => ret (Err e) | Ok m =>
    do! s <- get_fs ;;
    ret (Ok (m, if c_scan cfg then Some (scan_orphans H m s (c_verify cfg)) else None))
    end.

  Definition open_tail : M (res serr (mem * option ostats)) :=
    do! rs <- settings_gate ;;
    match rs with Err e => ret (Err e) | Ok pre => open_load pre end.

  Definition open_front_calls (s : fs) : list call :=
    mkdir_calls [s_staging] s ++ mkdir_calls [s_cas] s ++ [CCreate PLock].

  Lemma open_front_then : forall w, wfault w = None ->
    Then (open_with_recover H cfg) w open_tail (open_front_calls (wfs w)).
  Proof.
    intros w F. unfold open_with_recover, open_front_calls.
    apply (then_bind _ _ _ _ _ _ _ (mkdir_p_does [s_staging] w F (or_introl eq_refl))). intros w1 R1.
    destruct (mkdir_calls_eff _ _ _ (ran_okc _ _ _ R1)) as [_ Oth].
    unfold mkdir_calls at 1. rewrite <- (Oth [s_cas]) by discriminate.
    apply (then_bind _ _ _ _ _ _ _ (mkdir_p_does [s_cas] w1 (ran_fault _ _ _ R1) (or_introl eq_refl))).
    intros w2 R2. destruct (apply_create (wfs w2) PLock eq_refl) as (s3 & E3 & _).
    apply (then_call_bind _ _ _ s3 _ [] (ran_fault _ _ _ R2) E3). now apply then_done.
  Qed.
End Programs.
