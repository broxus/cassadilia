(* SMapProofs.v -- facts about the sorted association lists of theories/SMap.v.

   First [map_vals] (a map with its values changed) and (Section SearchPath) what insertion,
   deletion and deleting a list of keys do along the search path of [sm_get]: this holds for
   any comparison function whatever; sums over a map (Section Measure).  Then (Section SMapFacts)
   what needs [cmp] to be a strict total order in the [comparison] sense (the four
   hypotheses there).  All lemmas of that section are generalised over the four hypotheses
   uniformly ([Proof using Ord]), so that after the section every lemma [L] is used as
   [L cmp cmp_refl cmp_eq cmp_antisym cmp_trans ...].  At the end the lemmas are instantiated
   for [lex_cmp] as [lex_...] (the reference-count map of Index.v), and a lex-sorted map is
   read as the representation of a partial function ([Repr]). *)
From Cas Require Import Base SMap.
From CasProofs Require Export CodecBase.

Lemma key_eq_dec (a b : bytes) : {a = b} + {a <> b}.
Proof. apply (list_eq_dec N.eq_dec). Qed.

(* the same key in every entry, the value changed by [g] *)
Definition map_vals {V W} (g : bytes -> V -> W) (m : smap V) : smap W :=
  map (fun e => (fst e, g (fst e) (snd e))) m.

Section SearchPath.
  Variable cmp : bytes -> bytes -> comparison.
  Context {V : Type}.
  Implicit Types (m r : smap V) (k : bytes) (v : V).

  Lemma In_sm_ins m k v e : In e (sm_ins cmp m k v) -> e = (k, v) \/ In e m.
  Proof.
    induction m as [|[k1 v1] r IH]; cbn [sm_ins]; intros H.
    - destruct H as [H|[]]; auto.
    - destruct (cmp k k1).
      + destruct H as [H|H]; [left; auto|right; right; exact H].
      + destruct H as [H|H]; [left; auto|right; exact H].
      + destruct H as [H|H]; [right; left; exact H|].
        destruct (IH H); [left|right; right]; assumption.
  Qed.

  Lemma In_sm_del m k e : In e (sm_del cmp m k) -> In e m.
  Proof.
    induction m as [|[k1 v1] r IH]; cbn [sm_del]; intros H; [exact H|].
    destruct (cmp k k1).
    - right; exact H.
    - exact H.
    - destruct H as [H|H]; [left; exact H|right; apply IH, H].
  Qed.

  Lemma sm_del_absent m k : sm_get cmp m k = None -> sm_del cmp m k = m.
  Proof.
    induction m as [|[k1 v1] r IH]; cbn [sm_get sm_del]; [reflexivity|].
    destruct (cmp k k1); intros H; [discriminate|reflexivity|]. now rewrite (IH H).
  Qed.

  Lemma length_sm_ins_none m k v :
    sm_get cmp m k = None -> length (sm_ins cmp m k v) = S (length m).
  Proof.
    induction m as [|[k1 v1] r IH]; cbn [sm_get sm_ins]; [reflexivity|].
    destruct (cmp k k1); intros H; [discriminate|reflexivity|].
    cbn [length]. now rewrite (IH H).
  Qed.

  Lemma length_sm_del_some m k p :
    sm_get cmp m k = Some p -> length m = S (length (sm_del cmp m k)).
  Proof.
    induction m as [|[k1 v1] r IH]; cbn [sm_get sm_del]; [discriminate|].
    destruct (cmp k k1); intros H; [reflexivity|discriminate|].
    cbn [length]. now rewrite (IH H).
  Qed.

  Lemma length_sm_ins_le m k v : (length (sm_ins cmp m k v) <= S (length m))%nat.
  Proof.
    induction m as [|[k1 v1] r IH]; cbn [sm_ins length]; [lia|].
    destruct (cmp k k1); cbn [length]; lia.
  Qed.

  Lemma length_sm_del_le m k : (length (sm_del cmp m k) <= length m)%nat.
  Proof.
    induction m as [|[k1 v1] r IH]; cbn [sm_del length]; [lia|].
    destruct (cmp k k1); cbn [length]; lia.
  Qed.

  Lemma In_fold_del ks : forall m e,
    In e (fold_left (fun m k => sm_del cmp m k) ks m) -> In e m.
  Proof.
    induction ks as [|k ks IH]; intros m e I; [exact I|]. eapply In_sm_del, IH, I.
  Qed.

  Lemma length_fold_del_le ks : forall m,
    (length (fold_left (fun m k => sm_del cmp m k) ks m) <= length m)%nat.
  Proof.
    induction ks as [|k ks IH]; intros m; cbn [fold_left]; [lia|].
    specialize (IH (sm_del cmp m k)). pose proof (length_sm_del_le m k). lia.
  Qed.

  (* an additive measure of the entries *)
  Section Measure.
    Variable w : bytes * V -> N.
    Definition total (m : smap V) : N := fold_right (fun e a => w e + a) 0 m.

    Lemma total_cons e m : total (e :: m) = w e + total m.
    Proof. reflexivity. Qed.

    Lemma total_sm_ins_none m k v :
      sm_get cmp m k = None -> total (sm_ins cmp m k v) = w (k, v) + total m.
    Proof.
      induction m as [|[k1 v1] r IH]; cbn [sm_get sm_ins]; [reflexivity|].
      destruct (cmp k k1); intros H; [discriminate|reflexivity|].
      rewrite !total_cons, (IH H). lia.
    Qed.
  End Measure.

  (* [map_vals] commutes with everything that looks at keys only *)
  Context {W : Type} (g : bytes -> V -> W).

  Lemma sorted_map_vals m : sorted cmp m -> sorted cmp (map_vals g m).
  Proof.
    induction m as [|[k1 v1] [|[k2 v2] r] IH]; cbn; auto.
    intros [H S]. split; [exact H|apply IH, S].
  Qed.

  Lemma sm_ins_map_vals m k v :
    sm_ins cmp (map_vals g m) k (g k v) = map_vals g (sm_ins cmp m k v).
  Proof.
    induction m as [|[k1 v1] r IH]; cbn [map_vals map sm_ins fst snd]; [reflexivity|].
    destruct (cmp k k1); cbn [map fst snd]; try reflexivity. f_equal. apply IH.
  Qed.

  Lemma sm_del_map_vals m k : sm_del cmp (map_vals g m) k = map_vals g (sm_del cmp m k).
  Proof.
    induction m as [|[k1 v1] r IH]; cbn [map_vals map sm_del fst snd]; [reflexivity|].
    destruct (cmp k k1); cbn [map fst snd]; try reflexivity. f_equal. apply IH.
  Qed.
  Lemma fold_del_map_vals ks : forall m,
    fold_left (fun a k => sm_del cmp a k) ks (map_vals g m)
    = map_vals g (fold_left (fun a k => sm_del cmp a k) ks m).
  Proof.
    induction ks as [|k ks IH]; intros m; cbn [fold_left]; [reflexivity|].
    now rewrite sm_del_map_vals, IH.
  Qed.

  Lemma filter_map_vals (f : bytes -> bool) m :
    filter (fun e => f (fst e)) (map_vals g m) = map_vals g (filter (fun e => f (fst e)) m).
  Proof.
    induction m as [|[k1 v1] r IH]; cbn [map_vals map filter fst snd]; [reflexivity|].
    destruct (f k1); cbn [map fst snd]; [f_equal|]; apply IH.
  Qed.

  Lemma keys_map_vals m : sm_keys (map_vals g m) = sm_keys m.
  Proof. unfold sm_keys, map_vals. rewrite map_map. reflexivity. Qed.

  Lemma In_map_vals m k x : In (k, x) (map_vals g m) <-> exists v, In (k, v) m /\ x = g k v.
  Proof.
    unfold map_vals. rewrite in_map_iff. split.
    - intros ([k' v] & [= -> <-] & I). now exists v.
    - intros (v & I & ->). now exists (k, v).
  Qed.
End SearchPath.

Section SMapFacts.
  Variable cmp : bytes -> bytes -> comparison.
  Hypothesis cmp_refl : forall a, cmp a a = Eq.
  Hypothesis cmp_eq : forall a b, cmp a b = Eq -> a = b.
  Hypothesis cmp_antisym : forall a b, cmp b a = CompOpp (cmp a b).
  Hypothesis cmp_trans : forall a b c, cmp a b = Lt -> cmp b c = Lt -> cmp a c = Lt.
  Context {V : Type}.
  Collection Ord := cmp_refl cmp_eq cmp_antisym cmp_trans.

  Implicit Types (m r : smap V) (k : bytes) (v : V).

  Lemma cmp_gt_lt a b : cmp a b = Gt -> cmp b a = Lt.
  Proof using Ord. intros H. rewrite (cmp_antisym a b), H. reflexivity. Qed.

  Lemma cmp_lt_gt a b : cmp a b = Lt -> cmp b a = Gt.
  Proof using Ord. intros H. rewrite (cmp_antisym a b), H. reflexivity. Qed.

  Lemma cmp_lt_neq a b : cmp a b = Lt -> a <> b.
  Proof using Ord. intros H E. subst b. rewrite cmp_refl in H. discriminate. Qed.

  Lemma cmp_neq a b : a <> b -> cmp a b <> Eq.
  Proof using Ord. intros H E. apply H, cmp_eq, E. Qed.

  (* [lb k m]: k is strictly below every key of m *)
  Definition lb k m : Prop := forall k' v', In (k', v') m -> cmp k k' = Lt.

  Lemma lb_trans k k' m : cmp k k' = Lt -> lb k' m -> lb k m.
  Proof using Ord. intros H L a b I. eapply cmp_trans; [exact H|]. eapply L, I. Qed.

  Lemma lb_sub k m m' : (forall e, In e m' -> In e m) -> lb k m -> lb k m'.
  Proof using Ord. intros S L a b I. eapply L, S, I. Qed.

  Lemma sorted_inv k v r : sorted cmp ((k, v) :: r) -> lb k r /\ sorted cmp r.
  Proof using Ord.
    revert k v. induction r as [|[k1 v1] r IH]; intros k v [H1 H2].
    - split; [intros a b []|exact I].
    - split; [|exact H2].
      destruct (IH _ _ H2) as [L _].
      intros a b [E|I].
      + inversion E; subst. exact H1.
      + eapply cmp_trans; [exact H1|]. eapply L, I.
  Qed.

  Lemma sorted_intro k v r : lb k r -> sorted cmp r -> sorted cmp ((k, v) :: r).
  Proof using Ord.
    intros L S. destruct r as [|[k1 v1] r]; cbn; split; auto.
    apply (L k1 v1). left; reflexivity.
  Qed.

  Lemma sorted_tail k v r : sorted cmp ((k, v) :: r) -> sorted cmp r.
  Proof using Ord. intros H. apply (sorted_inv _ _ _ H). Qed.

  Lemma sorted_ins m k v : sorted cmp m -> sorted cmp (sm_ins cmp m k v).
  Proof using Ord.
    induction m as [|[k1 v1] r IH]; intros S; cbn [sm_ins].
    - cbn; auto.
    - destruct (sorted_inv _ _ _ S) as [L Sr].
      destruct (cmp k k1) eqn:E.
      + apply cmp_eq in E; subst k1. apply sorted_intro; assumption.
      + apply sorted_intro; [|exact S].
        intros a b [I|I]; [inversion I; subst; exact E|].
        eapply cmp_trans; [exact E|]. eapply L, I.
      + apply sorted_intro; [|apply IH, Sr].
        intros a b I. apply In_sm_ins in I. destruct I as [I|I].
        * inversion I; subst. apply cmp_gt_lt, E.
        * eapply L, I.
  Qed.

  Lemma sorted_del m k : sorted cmp m -> sorted cmp (sm_del cmp m k).
  Proof using Ord.
    induction m as [|[k1 v1] r IH]; intros S; cbn [sm_del]; [exact S|].
    destruct (sorted_inv _ _ _ S) as [L Sr].
    destruct (cmp k k1) eqn:E; [exact Sr|exact S|].
    apply sorted_intro; [|apply IH, Sr].
    eapply lb_sub; [|exact L]. intros e. apply In_sm_del.
  Qed.

  Lemma get_lb m k : lb k m -> sm_get cmp m k = None.
  Proof using Ord.
    destruct m as [|[k1 v1] r]; intros L; cbn [sm_get]; [reflexivity|].
    rewrite (L k1 v1); [reflexivity|left; reflexivity].
  Qed.

  Lemma get_ins_same m k v : sm_get cmp (sm_ins cmp m k v) k = Some v.
  Proof using Ord.
    induction m as [|[k1 v1] r IH]; cbn [sm_ins].
    - cbn [sm_get]. rewrite cmp_refl. reflexivity.
    - destruct (cmp k k1) eqn:E; cbn [sm_get].
      + rewrite cmp_refl; reflexivity.
      + rewrite cmp_refl; reflexivity.
      + rewrite E. exact IH.
  Qed.

  Lemma get_ins_other m k v k' :
    k' <> k -> sorted cmp m -> sm_get cmp (sm_ins cmp m k v) k' = sm_get cmp m k'.
  Proof using Ord.
    intros N. induction m as [|[k1 v1] r IH]; intros S; cbn [sm_ins].
    - cbn [sm_get]. destruct (cmp k' k) eqn:E; try reflexivity.
      apply cmp_eq in E; contradiction.
    - destruct (cmp k k1) eqn:E.
      + apply cmp_eq in E; subst k1. cbn [sm_get].
        destruct (cmp k' k) eqn:E'; try reflexivity. apply cmp_eq in E'; contradiction.
      + cbn [sm_get]. destruct (cmp k' k) eqn:E'.
        * apply cmp_eq in E'; contradiction.
        * rewrite (cmp_trans _ _ _ E' E). reflexivity.
        * reflexivity.
      + cbn [sm_get]. destruct (cmp k' k1); try reflexivity.
        apply IH. eapply sorted_tail, S.
  Qed.

  Lemma get_del_same m k : sorted cmp m -> sm_get cmp (sm_del cmp m k) k = None.
  Proof using Ord.
    induction m as [|[k1 v1] r IH]; intros S; cbn [sm_del]; [reflexivity|].
    destruct (sorted_inv _ _ _ S) as [L Sr].
    destruct (cmp k k1) eqn:E.
    - apply cmp_eq in E; subst k1. apply get_lb, L.
    - cbn [sm_get]. rewrite E. reflexivity.
    - cbn [sm_get]. rewrite E. apply IH, Sr.
  Qed.

  Lemma get_del_other m k k' :
    k' <> k -> sorted cmp m -> sm_get cmp (sm_del cmp m k) k' = sm_get cmp m k'.
  Proof using Ord.
    intros N. induction m as [|[k1 v1] r IH]; intros S; cbn [sm_del]; [reflexivity|].
    destruct (sorted_inv _ _ _ S) as [L Sr].
    destruct (cmp k k1) eqn:E.
    - apply cmp_eq in E; subst k1. cbn [sm_get].
      destruct (cmp k' k) eqn:E'.
      + apply cmp_eq in E'; contradiction.
      + apply get_lb. eapply lb_trans; eassumption.
      + reflexivity.
    - reflexivity.
    - cbn [sm_get]. destruct (cmp k' k1); try reflexivity. apply IH, Sr.
  Qed.

  (* a binding found is an entry, sorted or not *)
  Lemma get_some_In m k v : sm_get cmp m k = Some v -> In (k, v) m.
  Proof using Ord.
    induction m as [|[k1 v1] r IH]; cbn [sm_get]; [discriminate|].
    destruct (cmp k k1) eqn:E; intros H; [|discriminate|right; apply IH, H].
    apply cmp_eq in E. injection H as ->. subst k1. now left.
  Qed.

  Lemma get_in m k v : sorted cmp m -> (sm_get cmp m k = Some v <-> In (k, v) m).
  Proof using Ord.
    intros S. split; [apply get_some_In|]. revert S.
    induction m as [|[k1 v1] r IH]; cbn [sm_get]; intros S I; [destruct I|].
    destruct (sorted_inv _ _ _ S) as [L Sr]. destruct I as [[= -> ->]|I].
    - now rewrite cmp_refl.
    - rewrite (cmp_lt_gt _ _ (L _ _ I)). now apply IH.
  Qed.

  Lemma get_none_notin m k : sorted cmp m -> (sm_get cmp m k = None <-> ~ In k (sm_keys m)).
  Proof using Ord.
    intros S. split.
    - intros H I. apply in_map_iff in I. destruct I as [[k' v] [E I]]. cbn in E; subst k'.
      apply (get_in _ _ _ S) in I. congruence.
    - intros H. destruct (sm_get cmp m k) as [v|] eqn:E; [|reflexivity].
      exfalso. apply H. apply (get_in _ _ _ S) in E.
      apply in_map_iff. exists (k, v). split; [reflexivity|exact E].
  Qed.

  (* the same key is never bound twice *)
  Lemma sorted_functional m k v v' : sorted cmp m -> In (k, v) m -> In (k, v') m -> v = v'.
  Proof using Ord.
    intros S I I'. apply (get_in _ _ _ S) in I. apply (get_in _ _ _ S) in I'. congruence.
  Qed.

  Lemma keys_nodup m : sorted cmp m -> NoDup (sm_keys m).
  Proof using Ord.
    induction m as [|[k1 v1] r IH]; intros S; cbn; [constructor|].
    destruct (sorted_inv _ _ _ S) as [L Sr].
    constructor; [|apply IH, Sr].
    intros I. apply in_map_iff in I. destruct I as [[k' v] [E I]]. cbn in E; subst k'.
    apply L in I. rewrite cmp_refl in I. discriminate.
  Qed.

  Lemma sorted_nodup m : sorted cmp m -> NoDup m.
  Proof using Ord.
    intros S. apply keys_nodup in S. unfold sm_keys in S.
    apply NoDup_map_inv in S. exact S.
  Qed.

  Lemma In_ins_iff m k v k' v' : sorted cmp m ->
    (In (k', v') (sm_ins cmp m k v) <-> (k' = k /\ v' = v) \/ (k' <> k /\ In (k', v') m)).
  Proof using Ord.
    intros S. rewrite <- (get_in _ _ _ (sorted_ins _ k v S)).
    destruct (key_eq_dec k' k) as [E|E].
    - subst k'. rewrite get_ins_same. split.
      + intros H; inversion H; auto.
      + intros [[_ H]|[H _]]; [subst; reflexivity|contradiction].
    - rewrite (get_ins_other _ _ _ _ E S), (get_in _ _ _ S). split.
      + intros H; auto.
      + intros [[H _]|[_ H]]; [contradiction|exact H].
  Qed.

  Lemma In_del_iff m k k' v' : sorted cmp m ->
    (In (k', v') (sm_del cmp m k) <-> k' <> k /\ In (k', v') m).
  Proof using Ord.
    intros S. rewrite <- (get_in _ _ _ (sorted_del _ k S)).
    destruct (key_eq_dec k' k) as [E|E].
    - subst k'. rewrite (get_del_same _ _ S). split; [discriminate|intros [H _]; contradiction].
    - rewrite (get_del_other _ _ _ E S), (get_in _ _ _ S). split; [auto|intros [_ H]; exact H].
  Qed.

  (* extensionality: a sorted map is determined by its lookups *)
  Lemma sm_ext m1 m2 :
    sorted cmp m1 -> sorted cmp m2 -> (forall k, sm_get cmp m1 k = sm_get cmp m2 k) -> m1 = m2.
  Proof using Ord.
    revert m2. induction m1 as [|[k1 v1] r1 IH]; intros [|[k2 v2] r2] S1 S2 H.
    - reflexivity.
    - specialize (H k2). cbn [sm_get] in H. rewrite cmp_refl in H. discriminate.
    - specialize (H k1). cbn [sm_get] in H. rewrite cmp_refl in H. discriminate.
    - destruct (sorted_inv _ _ _ S1) as [L1 Sr1]. destruct (sorted_inv _ _ _ S2) as [L2 Sr2].
      assert (E : cmp k1 k2 = Eq).
      { destruct (cmp k1 k2) eqn:E; [reflexivity| |].
        - specialize (H k1). cbn [sm_get] in H. rewrite cmp_refl, E in H. discriminate.
        - specialize (H k2). cbn [sm_get] in H. rewrite cmp_refl, (cmp_gt_lt _ _ E) in H.
          discriminate. }
      apply cmp_eq in E. subst k2.
      assert (v1 = v2).
      { specialize (H k1). cbn [sm_get] in H. rewrite cmp_refl in H. congruence. }
      subst v2. f_equal. apply IH; try assumption.
      intros k. specialize (H k). cbn [sm_get] in H.
      destruct (cmp k k1) eqn:E.
      + apply cmp_eq in E; subst k. rewrite (get_lb _ _ L1), (get_lb _ _ L2). reflexivity.
      + rewrite (get_lb r1 k), (get_lb r2 k); [reflexivity| |];
          eapply lb_trans; eassumption.
      + exact H.
  Qed.

  (* two sorted maps with the same elements are equal *)
  Lemma sorted_same_elements m1 m2 :
    sorted cmp m1 -> sorted cmp m2 -> (forall e, In e m1 <-> In e m2) -> m1 = m2.
  Proof using Ord.
    intros S1 S2 H. apply sm_ext; try assumption.
    intros k. destruct (sm_get cmp m1 k) as [v|] eqn:E.
    - symmetry. apply (get_in _ _ _ S2), H, (get_in _ _ _ S1), E.
    - destruct (sm_get cmp m2 k) as [v|] eqn:E'; [|reflexivity].
      apply (get_in _ _ _ S2), H, (get_in _ _ _ S1) in E'. congruence.
  Qed.

  Lemma sorted_filter (f : bytes * V -> bool) m : sorted cmp m -> sorted cmp (filter f m).
  Proof using Ord.
    induction m as [|[k1 v1] r IH]; intros S; cbn [filter]; [exact S|].
    destruct (sorted_inv _ _ _ S) as [L Sr].
    destruct (f (k1, v1)); [|apply IH, Sr].
    apply sorted_intro; [|apply IH, Sr].
    eapply lb_sub; [|exact L]. intros e I. apply filter_In in I. apply I.
  Qed.

  Lemma get_filter (f : bytes * V -> bool) m k : sorted cmp m ->
    sm_get cmp (filter f m) k =
    match sm_get cmp m k with
    | Some v => if f (k, v) then Some v else None
    | None => None
    end.
  Proof using Ord.
    induction m as [|[k1 v1] r IH]; intros S; cbn [filter sm_get]; [reflexivity|].
    destruct (sorted_inv _ _ _ S) as [L Sr]. specialize (IH Sr).
    assert (Lf : lb k1 (filter f r)).
    { eapply lb_sub; [|exact L]. intros e I. apply filter_In in I. apply I. }
    destruct (f (k1, v1)) eqn:F.
    - cbn [sm_get]. destruct (cmp k k1) eqn:E.
      + apply cmp_eq in E; subst k1. rewrite F. reflexivity.
      + reflexivity.
      + exact IH.
    - destruct (cmp k k1) eqn:E.
      + apply cmp_eq in E; subst k1. rewrite F. apply get_lb, Lf.
      + apply get_lb. eapply lb_trans; eassumption.
      + exact IH.
  Qed.

  Section Measure.
    Variable w : bytes * V -> N.

    Lemma total_ins_some m k v p :
      sm_get cmp m k = Some p -> total w (sm_ins cmp m k v) + w (k, p) = w (k, v) + total w m.
    Proof using Ord.
      induction m as [|[k1 v1] r IH]; cbn [sm_get sm_ins]; [discriminate|].
      destruct (cmp k k1) eqn:E; intros H; [|discriminate|].
      - apply cmp_eq in E; subst k1. inversion H; subst. rewrite !total_cons. lia.
      - rewrite !total_cons. specialize (IH H). lia.
    Qed.

    Lemma total_del_some m k p :
      sm_get cmp m k = Some p -> total w (sm_del cmp m k) + w (k, p) = total w m.
    Proof using Ord.
      induction m as [|[k1 v1] r IH]; cbn [sm_get sm_del]; [discriminate|].
      destruct (cmp k k1) eqn:E; intros H; [|discriminate|].
      - apply cmp_eq in E; subst k1. inversion H; subst. rewrite !total_cons. lia.
      - rewrite !total_cons. specialize (IH H). lia.
    Qed.
  End Measure.

  Lemma fold_del_sorted ks : forall m,
    sorted cmp m -> sorted cmp (fold_left (fun m k => sm_del cmp m k) ks m).
  Proof using Ord.
    induction ks as [|k ks IH]; intros m S; cbn [fold_left]; [exact S|]. apply IH, sorted_del, S.
  Qed.

  Lemma get_fold_del_in ks x : forall m, sorted cmp m -> In x ks ->
    sm_get cmp (fold_left (fun m k => sm_del cmp m k) ks m) x = None.
  Proof using Ord.
    induction ks as [|k ks IH]; intros m S []; cbn [fold_left].
    - subst k. apply get_none_notin; [apply fold_del_sorted, sorted_del, S|].
      intros I. apply in_map_iff in I. destruct I as ([x' v] & E & I). cbn in E; subst x'.
      apply In_fold_del, get_in in I; [|apply sorted_del, S].
      rewrite get_del_same in I by exact S. discriminate.
    - apply IH; [apply sorted_del, S|assumption].
  Qed.

  Lemma get_fold_del_notin ks x : forall m, sorted cmp m -> ~ In x ks ->
    sm_get cmp (fold_left (fun m k => sm_del cmp m k) ks m) x = sm_get cmp m x.
  Proof using Ord.
    induction ks as [|k ks IH]; intros m S N; cbn [fold_left]; [reflexivity|].
    rewrite IH; [|apply sorted_del, S|intros X; apply N; now right].
    apply get_del_other; [|exact S]. intros ->. apply N. now left.
  Qed.

  (* deleting the keys that satisfy [f] is filtering by its negation *)
  Lemma fold_del_filter (f : bytes -> bool) m : sorted cmp m ->
    fold_left (fun mm k => sm_del cmp mm k) (map fst (filter (fun e => f (fst e)) m)) m
    = filter (fun e => negb (f (fst e))) m.
  Proof using Ord.
    intros S. apply sm_ext; [apply fold_del_sorted, S|apply sorted_filter, S|].
    intros x. rewrite (get_filter _ _ _ S). cbn [fst].
    destruct (in_dec key_eq_dec x (map fst (filter (fun e => f (fst e)) m))) as [I|I].
    - rewrite (get_fold_del_in _ _ _ S I). apply in_map_iff in I. destruct I as ([x' v] & E & I).
      apply filter_In in I. cbn [fst] in *. subst x'. destruct I as [I Fx].
      apply (get_in _ _ _ S) in I. now rewrite I, Fx.
    - rewrite (get_fold_del_notin _ _ _ S I). destruct (sm_get cmp m x) as [v|] eqn:G; [|reflexivity].
      destruct (f x) eqn:Fx; [|reflexivity]. exfalso. apply I, in_map_iff. exists (x, v).
      split; [reflexivity|]. apply filter_In. split; [now apply (get_in _ _ _ S)|exact Fx].
  Qed.

  Lemma get_map_vals {W} (g : bytes -> V -> W) m k :
    sm_get cmp (map_vals g m) k = option_map (g k) (sm_get cmp m k).
  Proof using Ord.
    induction m as [|[k1 v1] r IH]; cbn [map_vals map sm_get fst snd]; [reflexivity|].
    destruct (cmp k k1) eqn:E; [|reflexivity|exact IH]. apply cmp_eq in E. now subst k1.
  Qed.

  (* inserting (kf x, vf x) for the x of a list: the domain is that of the initial map together
     with the inserted keys, every value is an initial or an inserted one *)
  Lemma fold_ins_spec {A} (kf : A -> bytes) (vf : A -> V) (l : list A) : forall acc,
    let ins := fun acc x => sm_ins cmp acc (kf x) (vf x) in
    sorted cmp acc ->
    sorted cmp (fold_left ins l acc) /\
    (forall k v, sm_get cmp (fold_left ins l acc) k = Some v ->
       sm_get cmp acc k = Some v \/ exists x, In x l /\ kf x = k /\ vf x = v) /\
    (forall k, sm_get cmp acc k <> None \/ (exists x, In x l /\ kf x = k) ->
       sm_get cmp (fold_left ins l acc) k <> None).
  Proof using Ord.
    induction l as [|a l IH]; intros acc ins S; cbn [fold_left].
    - split; [exact S|]. split; [now left|]. intros k [D|(x & [] & _)]. exact D.
    - destruct (IH _ (sorted_ins acc (kf a) (vf a) S)) as (S' & G & D). split; [exact S'|]. split.
      + intros k v E. destruct (G k v E) as [E1|(x & I & Ex)]; [|right; exists x; split; [now right|exact Ex]].
        destruct (key_eq_dec k (kf a)) as [->|N].
        * rewrite get_ins_same in E1. inversion E1. right. exists a. split; [now left|now split].
        * rewrite get_ins_other in E1 by assumption. now left.
      + intros k Dk. apply D. destruct (key_eq_dec k (kf a)) as [->|N].
        * left. rewrite get_ins_same. discriminate.
        * destruct Dk as [Dk|(x & [->|I] & Ex)]; [left; now rewrite get_ins_other| |right; now exists x].
          now contradiction N.
  Qed.

  Lemma fold_ins_In (l : list (bytes * V)) m k v :
    NoDup (map fst l) -> sorted cmp m ->
    (In (k, v) (fold_left (fun m e => sm_ins cmp m (fst e) (snd e)) l m) <->
     In (k, v) l \/ (In (k, v) m /\ ~ In k (map fst l))).
  Proof using Ord.
    revert m. induction l as [|[k1 v1] l IH]; intros m ND S; cbn [fold_left map fst snd In].
    - tauto.
    - inversion ND as [|? ? N1 ND']; subst.
      rewrite (IH _ ND' (sorted_ins _ k1 v1 S)), (In_ins_iff _ _ _ _ _ S).
      cbn [In]. split.
      + intros [H|[[[H1 H2]|[H1 H2]] H3]].
        * left; right; exact H.
        * subst. left; left; reflexivity.
        * right. split; [exact H2|]. intros [E|E]; [apply H1; symmetry; exact E|contradiction].
      + intros [[H|H]|[H1 H2]].
        * inversion H; subst. right. split; [left; auto|exact N1].
        * left; exact H.
        * right. split.
          -- right. split; [|exact H1]. intros E. apply H2. left. symmetry; exact E.
          -- intros E. apply H2. right; exact E.
  Qed.
End SMapFacts.

Lemma beqb_sym a b : beqb a b = beqb b a.
Proof.
  destruct (beqb a b) eqn:E.
  - apply beqb_true_iff in E. subst. symmetry. apply beqb_refl.
  - symmetry. apply beqb_false_iff. apply beqb_false_iff in E. congruence.
Qed.

(* the instance for lex_cmp (the rc map of Index.v) *)
Section LexInstance.
  Context {V : Type}.
  Implicit Types (m : smap V) (k : bytes) (v : V).
  Local Notation I L := (L lex_cmp lex_refl lex_eq lex_antisym lex_trans V) (only parsing).

  Lemma lex_sorted_ins m k v : sorted lex_cmp m -> sorted lex_cmp (sm_ins lex_cmp m k v).
  Proof. apply (I (@sorted_ins)). Qed.
  Lemma lex_sorted_del m k : sorted lex_cmp m -> sorted lex_cmp (sm_del lex_cmp m k).
  Proof. apply (I (@sorted_del)). Qed.
  Lemma lex_get_ins_same m k v : sm_get lex_cmp (sm_ins lex_cmp m k v) k = Some v.
  Proof. apply (I (@get_ins_same)). Qed.
  Lemma lex_get_ins_other m k v k' :
    k' <> k -> sorted lex_cmp m -> sm_get lex_cmp (sm_ins lex_cmp m k v) k' = sm_get lex_cmp m k'.
  Proof. apply (I (@get_ins_other)). Qed.
  Lemma lex_get_del_same m k : sorted lex_cmp m -> sm_get lex_cmp (sm_del lex_cmp m k) k = None.
  Proof. apply (I (@get_del_same)). Qed.
  Lemma lex_get_del_other m k k' :
    k' <> k -> sorted lex_cmp m -> sm_get lex_cmp (sm_del lex_cmp m k) k' = sm_get lex_cmp m k'.
  Proof. apply (I (@get_del_other)). Qed.
  Lemma lex_get_in m k v : sorted lex_cmp m -> (sm_get lex_cmp m k = Some v <-> In (k, v) m).
  Proof. apply (I (@get_in)). Qed.
  Lemma lex_keys_nodup m : sorted lex_cmp m -> NoDup (sm_keys m).
  Proof. apply (I (@keys_nodup)). Qed.
  Lemma lex_sm_ext m1 m2 :
    sorted lex_cmp m1 -> sorted lex_cmp m2 ->
    (forall k, sm_get lex_cmp m1 k = sm_get lex_cmp m2 k) -> m1 = m2.
  Proof. apply (I (@sm_ext)). Qed.
  Lemma lex_sorted_filter (f : bytes * V -> bool) m :
    sorted lex_cmp m -> sorted lex_cmp (filter f m).
  Proof. apply (I (@sorted_filter)). Qed.
  Lemma lex_get_filter (f : bytes * V -> bool) m k : sorted lex_cmp m ->
    sm_get lex_cmp (filter f m) k =
    match sm_get lex_cmp m k with Some v => if f (k, v) then Some v else None | None => None end.
  Proof. apply (I (@get_filter)). Qed.
End LexInstance.

(* a lex-sorted map as the representation of a partial function *)
Section Repr.
  Context {V : Type}.
  Implicit Types (U : smap V) (f g : bytes -> option V).

  Definition Repr U f : Prop := sorted lex_cmp U /\ forall h, sm_get lex_cmp U h = f h.

  Lemma Repr_nil : Repr [] (fun _ => None).
  Proof. split; [exact I|reflexivity]. Qed.

  Lemma Repr_ext U f g : (forall h, f h = g h) -> Repr U f -> Repr U g.
  Proof. intros E [S G]. split; [exact S|]. intros h. now rewrite <- E. Qed.

  (* the function determines the map *)
  Lemma Repr_unique U U' f : Repr U f -> Repr U' f -> U = U'.
  Proof. intros [S G] [S' G']. apply lex_sm_ext; try assumption. intros h. now rewrite G, G'. Qed.

  (* point updates: [g] is [f] except at [h] *)
  Lemma Repr_ins U f g h v :
    Repr U f -> g h = Some v -> (forall x, x <> h -> g x = f x) -> Repr (sm_ins lex_cmp U h v) g.
  Proof.
    intros [S G] Gh Gx. split; [apply lex_sorted_ins, S|]. intros x.
    destruct (key_eq_dec x h) as [->|N].
    - now rewrite lex_get_ins_same.
    - now rewrite lex_get_ins_other, Gx.
  Qed.

  Lemma Repr_del U f g h :
    Repr U f -> g h = None -> (forall x, x <> h -> g x = f x) -> Repr (sm_del lex_cmp U h) g.
  Proof.
    intros [S G] Gh Gx. split; [apply lex_sorted_del, S|]. intros x.
    destruct (key_eq_dec x h) as [->|N].
    - now rewrite lex_get_del_same.
    - now rewrite lex_get_del_other, Gx.
  Qed.
End Repr.

Lemma Repr_map {V W} (w : bytes -> V -> W) (U : smap V) f :
  Repr U f -> Repr (map_vals w U) (fun h => option_map (w h) (f h)).
Proof.
  intros [S G]. split; [apply sorted_map_vals, S|]. intros h.
  now rewrite (get_map_vals lex_cmp lex_refl lex_eq lex_antisym lex_trans), G.
Qed.

Print Assumptions sorted_ins.
Print Assumptions sorted_del.
Print Assumptions get_ins_other.
Print Assumptions get_del_other.
Print Assumptions get_in.
Print Assumptions keys_nodup.
Print Assumptions sm_ext.
Print Assumptions get_filter.
Print Assumptions fold_ins_In.
Print Assumptions lex_sm_ext.
