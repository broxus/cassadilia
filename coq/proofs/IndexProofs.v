(* IndexProofs.v -- property C12: reference counts, sizes and statistics of the index
   state (theories/Index.v) are exact.

   Main statements (Section Index, for any key order [cmp] satisfying the four order
   hypotheses):
     C12_empty, C12_apply_ok, C12_unreferenced, C12_counts_exact,
     C12_incremental_eq_recomputed, C12_km_spec, C12_apply (all of the above at once),
     C12_ub_is_rc_length / C12_tb_is_rc_sum (statistics in terms of the rc map),
     C12_load, C12_load_sorted, and the closed example C12_example.

   Proof organisation.  [apply_put]/[apply_remove] pass through intermediate states in
   which km is already updated but rc and the statistics are not.  So rc and the statistics
   are specified against an *abstract* count function [cnt : bytes -> N] and a global size
   oracle [sizeof : bytes -> N], each as the lex-sorted map that represents a partial
   function (SMapProofs.Repr):
     RcRep r cnt        : r represents  h |-> cnt h  (absent iff cnt h = 0)
     StRep u t f        : u, t are the length and value sum of the map that represents f
                          (there is only one: Repr_unique)
     Rep sizeof s cnt   : RcRep (rc s) cnt /\ StRep (ub s) (tb s) (h |-> sizeof h if cnt h > 0)
   [do_inc]/[do_dec] transform Rep by cnt[h +/- 1], a point update of the represented
   functions (Repr_ins / Repr_del); at the end cnt is shown extensionally equal to
   [count_refs] of the new key map.  The list of unreferenced hashes is specified the same
   way, by [Dropped c0 c1 un] between two abstract counts.  The key map and lpv of the
   result are read off the code without any invariant (C12_km_spec). *)
From Cas Require Import Base Codec SMap Index.
From CasProofs Require Import SMapProofs.
Open Scope N_scope.

Definition b01 (b : bool) : N := if b then 1 else 0.

(* number of entries of m whose hash is h *)
Fixpoint count_refs (m : smap item) (h : bytes) : N :=
  match m with
  | [] => 0
  | (_, i) :: r => b01 (beqb (ihash i) h) + count_refs r h
  end.

(* one hash, one size *)
Definition hashes_sized (m : smap item) : Prop :=
  forall k1 k2 i1 i2, In (k1, i1) m -> In (k2, i2) m -> ihash i1 = ihash i2 -> isize i1 = isize i2.

(* all sizes in m are given by the oracle *)
Definition sized_by (sizeof : bytes -> N) (m : smap item) : Prop :=
  forall k i, In (k, i) m -> isize i = sizeof (ihash i).

(* size of the first entry with hash h *)
Fixpoint fsz (m : smap item) (h : bytes) : option N :=
  match m with
  | [] => None
  | (_, i) :: r => if beqb (ihash i) h then Some (isize i) else fsz r h
  end.

Definition usum (U : smap N) : N := fold_right (fun e a => snd e + a) 0 U.

Definition op_respects_sizes (s : istate) (o : rawop) : Prop :=
  match o with
  | RPut k h sz => forall k' i, In (k', i) (km s) -> ihash i = h -> isize i = sz
  | RRemove _ => True
  end.

Local Notation LX L := (L lex_cmp lex_refl lex_eq lex_antisym lex_trans) (only parsing).

Lemma b01_same h : b01 (beqb h h) = 1.
Proof. now rewrite beqb_refl. Qed.

Lemma b01_other h x : x <> h -> b01 (beqb h x) = 0.
Proof. intros N. now rewrite (proj2 (beqb_false_iff h x)) by congruence. Qed.

Lemma count_total m h :
  count_refs m h = total (fun e : bytes * item => b01 (beqb (ihash (snd e)) h)) m.
Proof.
  induction m as [|[k i] r IH]; [reflexivity|].
  cbn [count_refs]. rewrite IH. reflexivity.
Qed.

Lemma count_pos_in m k i : In (k, i) m -> 0 < count_refs m (ihash i).
Proof.
  induction m as [|[k1 i1] r IH]; intros H; [destruct H|].
  cbn [count_refs]. destruct H as [H|H].
  - inversion H; subst. rewrite b01_same. lia.
  - specialize (IH H). lia.
Qed.

Lemma count_pos_ex m h : 0 < count_refs m h -> exists k i, In (k, i) m /\ ihash i = h.
Proof.
  induction m as [|[k1 i1] r IH]; cbn [count_refs]; intros H; [lia|].
  destruct (beqb_spec (ihash i1) h) as [E|_].
  - exists k1, i1. split; [left; reflexivity|exact E].
  - cbn [b01] in H. destruct IH as (k & i & I & Hh); [lia|].
    exists k, i. split; [right; exact I|exact Hh].
Qed.

Lemma fsz_sized sizeof m h :
  sized_by sizeof m -> fsz m h = if count_refs m h =? 0 then None else Some (sizeof h).
Proof.
  induction m as [|[k i] r IH]; intros S; [reflexivity|].
  cbn [fsz count_refs].
  assert (Sr : sized_by sizeof r) by (intros a b I; apply (S a b); right; exact I).
  destruct (beqb_spec (ihash i) h) as [<-|_]; cbn [b01].
  - rewrite (S k i) by (left; reflexivity).
    now rewrite (proj2 (N.eqb_neq _ 0)) by lia.
  - rewrite N.add_0_l. apply IH, Sr.
Qed.

Lemma fsz_some m h z : fsz m h = Some z -> exists k i, In (k, i) m /\ ihash i = h /\ isize i = z.
Proof.
  induction m as [|[k1 i1] r IH]; cbn [fsz]; intros H; [discriminate|].
  destruct (beqb_spec (ihash i1) h) as [E|_].
  - inversion H; subst. exists k1, i1. repeat split. left; reflexivity.
  - destruct (IH H) as (k & i & I & R). exists k, i. split; [right; exact I|exact R].
Qed.

Lemma fsz_in m k i : In (k, i) m -> exists z, fsz m (ihash i) = Some z.
Proof.
  induction m as [|[k1 i1] r IH]; intros H; [destruct H|].
  cbn [fsz]. destruct (beqb_spec (ihash i1) (ihash i)) as [_|N]; [eexists; reflexivity|].
  destruct H as [H|H]; [|apply IH, H]. inversion H; subst. now destruct N.
Qed.

Lemma hashes_sized_oracle m : hashes_sized m -> exists sizeof, sized_by sizeof m.
Proof.
  intros HS. exists (fun h => match fsz m h with Some z => z | None => 0 end).
  intros k i I. destruct (fsz_in _ _ _ I) as [z Hz]. rewrite Hz.
  destruct (fsz_some _ _ _ Hz) as (k' & i' & I' & Hh & Hs).
  rewrite <- Hs. apply (HS k k' i i' I I'). symmetry; exact Hh.
Qed.

Lemma sized_by_hashes_sized sizeof m : sized_by sizeof m -> hashes_sized m.
Proof.
  intros S k1 k2 i1 i2 I1 I2 E. rewrite (S _ _ I1), (S _ _ I2), E. reflexivity.
Qed.

(* uniq_sizes computes the lex-sorted map with lookup function fsz *)
Lemma uniq_sizes_repr m : forall seen f, Repr seen f ->
  Repr (uniq_sizes m seen) (fun h => match f h with Some z => Some z | None => fsz m h end).
Proof.
  induction m as [|[k i] r IH]; intros seen f R; cbn [uniq_sizes fsz].
  - eapply Repr_ext; [|exact R]. intros h. now destruct (f h).
  - rewrite (proj2 R). destruct (f (ihash i)) as [z0|] eqn:G.
    + eapply Repr_ext; [|apply IH, R]. intros h. cbn beta.
      destruct (f h) eqn:G'; [reflexivity|].
      destruct (beqb_spec (ihash i) h) as [<-|_]; [congruence|reflexivity].
    + set (g x := if beqb (ihash i) x then Some (isize i) else f x).
      eapply Repr_ext; [|apply IH, (Repr_ins _ _ g _ _ R)]; unfold g.
      * intros h. cbn beta. destruct (beqb_spec (ihash i) h) as [<-|_]; [now rewrite G|reflexivity].
      * now rewrite beqb_refl.
      * intros x N. now rewrite (proj2 (beqb_false_iff _ _)) by congruence.
Qed.

Lemma uniq_sizes_fsz m : Repr (uniq_sizes m []) (fsz m).
Proof. exact (uniq_sizes_repr m [] _ Repr_nil). Qed.

(* abstract representation of rc and of the statistics *)

(* [Repr r (h |-> cnt h, absent when 0)] *)
Definition RcRep (r : smap N) (cnt : bytes -> N) : Prop :=
  sorted lex_cmp r /\ forall h, rc_get r h = if cnt h =? 0 then None else Some (cnt h).

Definition StRep (u t : N) (f : bytes -> option N) : Prop :=
  exists U : smap N, Repr U f /\ u = N.of_nat (length U) /\ t = usum U.

Definition fof (sizeof cnt : bytes -> N) : bytes -> option N :=
  fun h => if cnt h =? 0 then None else Some (sizeof h).

Definition Rep (sizeof : bytes -> N) (s : istate) (cnt : bytes -> N) : Prop :=
  RcRep (rc s) cnt /\ StRep (ub s) (tb s) (fof sizeof cnt).

Lemma RcRep_ext r cnt cnt' : (forall h, cnt h = cnt' h) -> RcRep r cnt -> RcRep r cnt'.
Proof. intros E. apply Repr_ext. intros h. now rewrite E. Qed.

Lemma StRep_ext u t f f' : (forall h, f h = f' h) -> StRep u t f -> StRep u t f'.
Proof. intros E (U & R & HU). exists U. split; [eapply Repr_ext; eassumption|exact HU]. Qed.

Lemma Rep_ext sizeof s cnt cnt' : (forall h, cnt h = cnt' h) -> Rep sizeof s cnt -> Rep sizeof s cnt'.
Proof.
  intros E [R T]. split; [eapply RcRep_ext; eassumption|].
  eapply StRep_ext; [|exact T]. intros h. unfold fof. rewrite E. reflexivity.
Qed.

Lemma inc_ref_rep r cnt h : RcRep r cnt ->
  inc_ref r h = (sm_ins lex_cmp r h (cnt h + 1), cnt h =? 0) /\
  RcRep (sm_ins lex_cmp r h (cnt h + 1)) (fun x => cnt x + b01 (beqb h x)).
Proof.
  intros R. split.
  - unfold inc_ref. rewrite (proj2 R h). destruct (cnt h =? 0) eqn:E; [|now rewrite E].
    apply N.eqb_eq in E. now rewrite E.
  - apply (Repr_ins _ _ _ _ _ R); cbn beta.
    + now rewrite b01_same, (proj2 (N.eqb_neq _ 0)) by lia.
    + intros x N. now rewrite (b01_other _ _ N), N.add_0_r.
Qed.

Lemma dec_ref_rep r cnt h : RcRep r cnt -> 0 < cnt h ->
  exists r', dec_ref r h = Ok (r', cnt h =? 1) /\
             RcRep r' (fun x => cnt x - b01 (beqb h x)).
Proof.
  intros R P. assert (E0 : (cnt h =? 0) = false) by (apply N.eqb_neq; lia).
  unfold dec_ref. rewrite (proj2 R h), E0. cbv iota. rewrite E0.
  destruct (N.eqb_spec (cnt h) 1) as [E1|E1]; eexists; (split; [reflexivity|]).
  - apply (Repr_del _ _ _ _ R); cbn beta.
    + now rewrite b01_same, E1.
    + intros x N. now rewrite (b01_other _ _ N), N.sub_0_r.
  - apply (Repr_ins _ _ _ _ _ R); cbn beta.
    + now rewrite b01_same, (proj2 (N.eqb_neq _ 0)) by lia.
    + intros x N. now rewrite (b01_other _ _ N), N.sub_0_r.
Qed.

Lemma StRep_add u t sizeof cnt h :
  StRep u t (fof sizeof cnt) -> cnt h = 0 ->
  StRep (u + 1) (t + sizeof h) (fof sizeof (fun x => cnt x + b01 (beqb h x))).
Proof.
  intros (U & R & -> & ->) Z.
  assert (GN : sm_get lex_cmp U h = None) by (rewrite (proj2 R); unfold fof; now rewrite Z).
  exists (sm_ins lex_cmp U h (sizeof h)). split; [|split].
  - apply (Repr_ins _ _ _ _ _ R); unfold fof.
    + now rewrite b01_same, Z.
    + intros x N. now rewrite (b01_other _ _ N), N.add_0_r.
  - rewrite (length_sm_ins_none _ _ _ _ GN). lia.
  - pose proof (total_sm_ins_none lex_cmp snd _ _ (sizeof h) GN) as T.
    change (usum (sm_ins lex_cmp U h (sizeof h)) = sizeof h + usum U) in T. lia.
Qed.

Lemma StRep_same u t sizeof cnt cnt' :
  StRep u t (fof sizeof cnt) -> (forall x, (cnt x =? 0) = (cnt' x =? 0)) ->
  StRep u t (fof sizeof cnt').
Proof.
  intros T E. eapply StRep_ext; [|exact T]. intros x. unfold fof. rewrite E. reflexivity.
Qed.

Lemma StRep_sub u t sizeof cnt h :
  StRep u t (fof sizeof cnt) -> cnt h = 1 ->
  u <> 0 /\ sizeof h <= t /\
  StRep (u - 1) (t - sizeof h) (fof sizeof (fun x => cnt x - b01 (beqb h x))).
Proof.
  intros (U & R & -> & ->) Z.
  assert (GS : sm_get lex_cmp U h = Some (sizeof h))
    by (rewrite (proj2 R); unfold fof; now rewrite Z).
  pose proof (length_sm_del_some _ _ _ _ GS) as L.
  pose proof (LX total_del_some snd _ _ _ GS) as T.
  change (usum (sm_del lex_cmp U h) + sizeof h = usum U) in T.
  split; [lia|]. split; [lia|].
  exists (sm_del lex_cmp U h). split; [|split; lia].
  apply (Repr_del _ _ _ _ R); unfold fof.
  - now rewrite b01_same, Z.
  - intros x N. now rewrite (b01_other _ _ N), N.sub_0_r.
Qed.

Lemma do_inc_rep sizeof s cnt h sz :
  Rep sizeof s cnt -> sz = sizeof h ->
  Rep sizeof (do_inc s h sz) (fun x => cnt x + b01 (beqb h x)).
Proof.
  intros [R T] ->. destruct (inc_ref_rep _ _ h R) as [E R'].
  unfold do_inc. rewrite E.
  destruct (N.eqb_spec (cnt h) 0) as [Z|Z]; (split; [exact R'|]); cbn [add_stats set_rc ub tb].
  - apply StRep_add; assumption.
  - eapply StRep_same; [exact T|]. intros x. cbn beta.
    destruct (beqb_spec h x) as [<-|_]; cbn [b01]; [|now rewrite N.add_0_r].
    now rewrite !(proj2 (N.eqb_neq _ 0)) by lia.
Qed.

Lemma do_dec_rep sizeof s cnt h sz acc :
  Rep sizeof s cnt -> 0 < cnt h -> sz = sizeof h ->
  exists s', do_dec s h sz acc = Ok (s', if cnt h =? 1 then acc ++ [h] else acc) /\
             Rep sizeof s' (fun x => cnt x - b01 (beqb h x)).
Proof.
  intros [R T] P ->. destruct (dec_ref_rep _ _ h R P) as (r' & E & R').
  unfold do_dec. rewrite E. cbn [rbind].
  destruct (N.eqb_spec (cnt h) 1) as [Z|Z].
  - destruct (StRep_sub _ _ _ _ _ T Z) as (U0 & T0 & T').
    unfold sub_stats. cbn [set_rc ub tb km rc lpv ssz].
    rewrite (proj2 (N.eqb_neq _ 0) U0), (proj2 (N.ltb_ge _ _) T0).
    cbn [orb rbind]. eexists. split; [reflexivity|]. split; assumption.
  - eexists. split; [reflexivity|]. split; [exact R'|]. cbn [set_rc ub tb].
    eapply StRep_same; [exact T|]. intros x. cbn beta.
    destruct (beqb_spec h x) as [<-|_]; cbn [b01]; [|now rewrite N.sub_0_r].
    now rewrite !(proj2 (N.eqb_neq _ 0)) by lia.
Qed.

(* what can be read off the code of do_inc / do_dec, whether or not the counts are right:
   km and lpv are untouched, at most one hash is reported *)
Lemma do_inc_km s h sz : km (do_inc s h sz) = km s /\ lpv (do_inc s h sz) = lpv s.
Proof.
  unfold do_inc. destruct (inc_ref (rc s) h) as [r b]. destruct b; split; reflexivity.
Qed.

Lemma do_dec_km s h sz acc s' acc' :
  do_dec s h sz acc = Ok (s', acc') ->
  km s' = km s /\ lpv s' = lpv s /\ (length acc' <= S (length acc))%nat.
Proof.
  unfold do_dec. intros ([r b] & _ & H)%rbind_ok. destruct b.
  - unfold sub_stats in H. destruct (_ || _); [discriminate|]. injection H as <- <-.
    rewrite app_length, Nat.add_1_r. repeat split. apply Nat.le_refl.
  - injection H as <- <-. repeat split. apply Nat.le_succ_diag_r.
Qed.

(* the hashes reported as unreferenced: [un] lists, once each, the hashes whose count
   went from [c0 > 0] to [c1 = 0] *)
Definition Dropped (c0 c1 : bytes -> N) (un : list bytes) : Prop :=
  NoDup un /\ forall x, In x un <-> 0 < c0 x /\ c1 x = 0.

Lemma dropped_nil c0 c1 : (forall x, c0 x <= c1 x) -> Dropped c0 c1 [].
Proof.
  intros Le. split; [constructor|]. intros x. specialize (Le x). split; [intros []|lia].
Qed.

Lemma dropped_ext c0 c1 c1' un : (forall x, c1 x = c1' x) -> Dropped c0 c1 un -> Dropped c0 c1' un.
Proof. intros E [ND HI]. split; [exact ND|]. intros x. now rewrite <- E. Qed.

(* one decrement, as [do_dec] reports it *)
Lemma dropped_dec c0 h : 0 < c0 h ->
  Dropped c0 (fun x => c0 x - b01 (beqb h x)) (if c0 h =? 1 then [h] else []).
Proof.
  intros P. split; [destruct (_ =? 1); repeat constructor; intros []|].
  intros x. destruct (beqb_spec h x) as [<-|N]; cbn [b01];
    destruct (N.eqb_spec (c0 h) 1) as [C|C]; cbn [In].
  - split; [intros _; lia|intros _; now left].
  - split; [intros []|lia].
  - split; [intros [E|[]]; destruct (N E)|lia].
  - split; [intros []|lia].
Qed.

(* a later increment of a hash that was not dropped changes nothing *)
Lemma dropped_inc c0 c1 un h :
  Dropped c0 c1 un -> ~ In h un -> Dropped c0 (fun x => c1 x + b01 (beqb h x)) un.
Proof.
  intros [ND HI] NI. split; [exact ND|]. intros x. rewrite HI.
  destruct (beqb_spec h x) as [<-|_]; cbn [b01]; [|now rewrite N.add_0_r].
  rewrite <- HI. split; [contradiction|lia].
Qed.

(* two steps in a row, the counts never increasing *)
Lemma dropped_app c0 c1 c2 l1 l2 :
  (forall x, c1 x <= c0 x) -> (forall x, c2 x <= c1 x) ->
  Dropped c0 c1 l1 -> Dropped c1 c2 l2 -> Dropped c0 c2 (l1 ++ l2).
Proof.
  intros L1 L2 [ND1 H1] [ND2 H2]. split.
  - apply NoDup_app_intro; try assumption. intros x I1 I2. apply H1 in I1. apply H2 in I2. lia.
  - intros x. rewrite in_app_iff, H1, H2. specialize (L1 x). specialize (L2 x). lia.
Qed.

Section Index.
  Variable cmp : bytes -> bytes -> comparison.
  Hypothesis cmp_refl : forall a, cmp a a = Eq.
  Hypothesis cmp_eq : forall a b, cmp a b = Eq -> a = b.
  Hypothesis cmp_antisym : forall a b, cmp b a = CompOpp (cmp a b).
  Hypothesis cmp_trans : forall a b c, cmp a b = Lt -> cmp b c = Lt -> cmp a c = Lt.

  Local Notation KX L := (L cmp cmp_refl cmp_eq cmp_antisym cmp_trans) (only parsing).

  Definition IdxInv (s : istate) : Prop :=
    sorted cmp (km s) /\
    sorted lex_cmp (rc s) /\
    (forall h, rc_get (rc s) h =
               if count_refs (km s) h =? 0 then None else Some (count_refs (km s) h)) /\
    hashes_sized (km s) /\
    ub s = N.of_nat (length (uniq_sizes (km s) [])) /\
    tb s = usum (uniq_sizes (km s) []).

  (* the clauses of IdxInv; the two about rc are RcRep *)
  Lemma IdxInv_km s : IdxInv s -> sorted cmp (km s).
  Proof using. now intros (Sk & _). Qed.

  Lemma IdxInv_rc s : IdxInv s -> RcRep (rc s) (count_refs (km s)).
  Proof using. intros (_ & Sr & Hr & _). exact (conj Sr Hr). Qed.

  Lemma IdxInv_sized s : IdxInv s -> hashes_sized (km s).
  Proof using. now intros (_ & _ & _ & Hs & _). Qed.

  Lemma IdxInv_ub s : IdxInv s -> ub s = N.of_nat (length (uniq_sizes (km s) [])).
  Proof using. now intros (_ & _ & _ & _ & Hu & _). Qed.

  Lemma IdxInv_tb s : IdxInv s -> tb s = usum (uniq_sizes (km s) []).
  Proof using. now intros (_ & _ & _ & _ & _ & Ht). Qed.

  Lemma inv_to_rep sizeof s :
    IdxInv s -> sized_by sizeof (km s) -> Rep sizeof s (count_refs (km s)).
  Proof using.
    intros Inv SB. split; [exact (IdxInv_rc s Inv)|].
    exists (uniq_sizes (km s) []). split; [|exact (conj (IdxInv_ub s Inv) (IdxInv_tb s Inv))].
    eapply Repr_ext; [|apply uniq_sizes_fsz]. intros h. apply fsz_sized, SB.
  Qed.

  Lemma rep_to_inv sizeof s cnt :
    sorted cmp (km s) -> sized_by sizeof (km s) -> Rep sizeof s cnt ->
    (forall x, cnt x = count_refs (km s) x) -> IdxInv s.
  Proof using.
    intros Sk SB R E. apply (Rep_ext _ _ _ _ E) in R.
    destruct R as [[Sr Hr] (U & RU & Hu & Ht)].
    assert (U = uniq_sizes (km s) []).
    { apply (Repr_unique _ _ _ RU). eapply Repr_ext; [|apply uniq_sizes_fsz].
      intros h. apply fsz_sized, SB. }
    subst U. repeat split; try assumption.
    eapply sized_by_hashes_sized, SB.
  Qed.

  Lemma count_ins_none m k v x :
    sm_get cmp m k = None ->
    count_refs (sm_ins cmp m k v) x = b01 (beqb (ihash v) x) + count_refs m x.
  Proof using.
    intros G. rewrite !count_total.
    apply (total_sm_ins_none cmp (fun e : bytes * item => b01 (beqb (ihash (snd e)) x)) _ _ v G).
  Qed.

  Lemma count_ins_some m k v p x :
    sm_get cmp m k = Some p ->
    count_refs (sm_ins cmp m k v) x + b01 (beqb (ihash p) x) =
    b01 (beqb (ihash v) x) + count_refs m x.
  Proof using cmp_refl cmp_eq cmp_antisym cmp_trans.
    intros G. rewrite !count_total.
    apply (KX total_ins_some (fun e : bytes * item => b01 (beqb (ihash (snd e)) x)) _ _ v _ G).
  Qed.

  Lemma count_del_some m k p x :
    sm_get cmp m k = Some p ->
    count_refs (sm_del cmp m k) x + b01 (beqb (ihash p) x) = count_refs m x.
  Proof using cmp_refl cmp_eq cmp_antisym cmp_trans.
    intros G. rewrite !count_total.
    apply (KX total_del_some (fun e : bytes * item => b01 (beqb (ihash (snd e)) x)) _ _ _ G).
  Qed.

  Lemma count_del_le m k x : count_refs (sm_del cmp m k) x <= count_refs m x.
  Proof using cmp_refl cmp_eq cmp_antisym cmp_trans.
    destruct (sm_get cmp m k) as [p|] eqn:G.
    - pose proof (count_del_some _ _ _ x G). lia.
    - rewrite (sm_del_absent _ _ _ G). lia.
  Qed.

  Lemma count_fold_del_le ks x : forall m,
    count_refs (fold_left (fun m k => sm_del cmp m k) ks m) x <= count_refs m x.
  Proof using cmp_refl cmp_eq cmp_antisym cmp_trans.
    induction ks as [|k ks IH]; intros m; cbn [fold_left]; [lia|].
    specialize (IH (sm_del cmp m k)). pose proof (count_del_le m k x). lia.
  Qed.

  Theorem C12_empty : IdxInv empty_istate.
  Proof using.
    unfold IdxInv, empty_istate; cbn. repeat split; auto.
    intros k1 k2 i1 i2 [].
  Qed.

  (* the key map after apply_op is the expected one (needs no invariant) *)
  Definition km_expected (s : istate) (o : rawop) : smap item :=
    match o with
    | RPut k h sz => sm_ins cmp (km s) k (mkItem h sz)
    | RRemove ks => fold_left (fun m k => sm_del cmp m k) ks (km s)
    end.

  Lemma apply_remove_km ks : forall s acc s' un,
    apply_remove cmp s ks acc = Ok (s', un) ->
    km s' = fold_left (fun m k => sm_del cmp m k) ks (km s) /\ lpv s' = lpv s /\
    (length un <= length acc + length ks)%nat.
  Proof using.
    induction ks as [|k ks IH]; intros s acc s' un; cbn [apply_remove fold_left length].
    - intros [= <- <-]. rewrite Nat.add_0_r. repeat split. apply Nat.le_refl.
    - destruct (sm_get cmp (km s) k) as [it|] eqn:G.
      + intros ([s1 acc1] & E & H)%rbind_ok. apply do_dec_km in E as (K1 & L1 & A1).
        apply IH in H. rewrite K1, L1 in H. destruct H as (K & L & A).
        split; [exact K|]. split; [exact L|]. lia.
      + rewrite (sm_del_absent _ _ _ G). intros H. apply IH in H as (K & L & A).
        split; [exact K|]. split; [exact L|]. lia.
  Qed.

  (* the same for apply_op, with the number of hashes it can report *)
  Lemma apply_op_shape s o s' un :
    apply_op cmp s o = Ok (s', un) ->
    km s' = km_expected s o /\ lpv s' = lpv s /\
    (length un <= match o with RPut _ _ _ => 1 | RRemove ks => length ks end)%nat.
  Proof using.
    destruct o as [k h sz|ks]; cbn [apply_op km_expected]; [|apply apply_remove_km].
    unfold apply_put. destruct (sm_get cmp (km s) k) as [p|].
    - destruct (beqb (ihash p) h).
      + destruct (isize p =? sz); [|discriminate]. intros [= <- <-]. repeat split. apply Nat.le_0_1.
      + intros ([s1 un1] & E & [= <- <-])%rbind_ok. apply do_dec_km in E as (K1 & L1 & A1).
        destruct (do_inc_km s1 h sz) as [K2 L2]. rewrite K2, L2. repeat split; assumption.
    - intros [= <- <-].
      destruct (do_inc_km (set_km s (sm_ins cmp (km s) k (mkItem h sz))) h sz) as [K L].
      exact (conj K (conj L Nat.le_0_1)).
  Qed.

  Theorem C12_km_spec s o s' un :
    apply_op cmp s o = Ok (s', un) -> km s' = km_expected s o /\ lpv s' = lpv s.
  Proof using cmp_refl cmp_eq cmp_antisym cmp_trans.
    intros E. destruct (apply_op_shape _ _ _ _ E) as (K & L & _). split; assumption.
  Qed.

  Lemma put_oracle m h sz :
    hashes_sized m -> (forall k' i, In (k', i) m -> ihash i = h -> isize i = sz) ->
    exists sizeof, sizeof h = sz /\ sized_by sizeof m.
  Proof using.
    intros Hs Hsz. destruct (hashes_sized_oracle _ Hs) as [sizeof0 SB0].
    exists (fun x => if beqb x h then sz else sizeof0 x). split; [now rewrite beqb_refl|].
    intros a i I. destruct (beqb_spec (ihash i) h) as [E|_]; [eapply Hsz; eassumption|].
    apply SB0 in I. exact I.
  Qed.

  Lemma apply_put_ok s k h sz :
    IdxInv s ->
    (forall k' i, In (k', i) (km s) -> ihash i = h -> isize i = sz) ->
    exists s' un,
      apply_put cmp s k h sz = Ok (s', un) /\ IdxInv s' /\
      Dropped (count_refs (km s)) (count_refs (km s')) un.
  Proof using cmp_refl cmp_eq cmp_antisym cmp_trans.
    intros Inv Hsz. pose proof (IdxInv_km s Inv) as Sk.
    destruct (put_oracle _ _ _ (IdxInv_sized s Inv) Hsz) as (sizeof & Hh & SB).
    pose proof (inv_to_rep sizeof s Inv SB) as R0.
    set (m' := sm_ins cmp (km s) k (mkItem h sz)).
    assert (Sk' : sorted cmp m') by (apply (KX sorted_ins), Sk).
    assert (SB' : sized_by sizeof m').
    { intros a i I. apply In_sm_ins in I as [[= _ ->]|I]; [symmetry; exact Hh|eapply SB, I]. }
    unfold apply_put. fold m'.
    destruct (sm_get cmp (km s) k) as [p|] eqn:G.
    - assert (Ip : In (k, p) (km s)) by (apply (KX get_in _ _ _ Sk), G).
      assert (HC : forall x, count_refs m' x + b01 (beqb (ihash p) x) =
                             b01 (beqb h x) + count_refs (km s) x).
      { intros x. apply (count_ins_some _ _ (mkItem h sz) _ x G). }
      destruct (beqb_spec (ihash p) h) as [B|B].
      + (* same hash: the size must agree, nothing else changes *)
        rewrite (Hsz _ _ Ip B), N.eqb_refl.
        exists (set_km s m'), []. split; [reflexivity|].
        assert (HE : forall x, count_refs (km s) x = count_refs m' x).
        { intros x. specialize (HC x). rewrite B in HC. lia. }
        split; [exact (rep_to_inv sizeof (set_km s m') _ Sk' SB' R0 HE)|].
        apply dropped_nil. intros x. cbn [set_km km]. rewrite (HE x). apply N.le_refl.
      + (* different hash: release the old one, take the new one *)
        assert (P : 0 < count_refs (km s) (ihash p)) by (eapply count_pos_in, Ip).
        destruct (do_dec_rep sizeof (set_km s m') _ (ihash p) (isize p) [] R0 P (SB _ _ Ip))
          as (s1 & E1 & R1).
        rewrite E1. cbn [rbind]. apply do_dec_km in E1 as [K1 _].
        pose proof (do_inc_rep sizeof s1 _ h sz R1 (eq_sym Hh)) as R2.
        destruct (do_inc_km s1 h sz) as [K2 _]. rewrite K1 in K2. cbn [set_km km] in K2.
        assert (HE : forall x, count_refs (km s) x - b01 (beqb (ihash p) x) + b01 (beqb h x) =
                               count_refs m' x).
        { intros x. specialize (HC x).
          destruct (beqb_spec (ihash p) x) as [E|_]; [subst x|]; cbn [b01] in *; lia. }
        eexists _, _. split; [reflexivity|]. rewrite K2. split.
        * apply (rep_to_inv sizeof _ _) with (3 := R2); rewrite ?K2; assumption.
        * apply (dropped_ext _ _ _ _ HE), dropped_inc; [apply dropped_dec, P|].
          destruct (_ =? 1); [intros [E|[]]; exact (B E)|intros []].
    - (* new key *)
      assert (HC : forall x, count_refs (km s) x + b01 (beqb h x) = count_refs m' x).
      { intros x. unfold m'. rewrite (count_ins_none _ _ (mkItem h sz) x G). apply N.add_comm. }
      pose proof (do_inc_rep sizeof (set_km s m') _ h sz R0 (eq_sym Hh)) as R2.
      destruct (do_inc_km (set_km s m') h sz) as [K2 _]. cbn [set_km km] in K2.
      eexists _, _. split; [reflexivity|]. rewrite K2. split.
      + apply (rep_to_inv sizeof _ _) with (3 := R2); rewrite ?K2; assumption.
      + apply dropped_nil. intros x. rewrite <- HC. apply N.le_add_r.
  Qed.

  Lemma apply_remove_ok ks : forall s acc,
    IdxInv s ->
    exists s' l,
      apply_remove cmp s ks acc = Ok (s', acc ++ l) /\ IdxInv s' /\
      Dropped (count_refs (km s)) (count_refs (km s')) l.
  Proof using cmp_refl cmp_eq cmp_antisym cmp_trans.
    induction ks as [|k ks IH]; intros s acc Inv; cbn [apply_remove].
    - exists s, []. rewrite app_nil_r. split; [reflexivity|]. split; [exact Inv|].
      apply dropped_nil. intros x. apply N.le_refl.
    - destruct (sm_get cmp (km s) k) as [it|] eqn:G; [|apply IH, Inv].
      pose proof (IdxInv_km s Inv) as Sk.
      destruct (hashes_sized_oracle _ (IdxInv_sized s Inv)) as [sizeof SB].
      set (m1 := sm_del cmp (km s) k).
      assert (Ip : In (k, it) (km s)) by (apply (KX get_in _ _ _ Sk), G).
      assert (HC : forall x, count_refs (km s) x - b01 (beqb (ihash it) x) = count_refs m1 x).
      { intros x. pose proof (count_del_some _ _ _ x G). fold m1 in H. lia. }
      assert (P : 0 < count_refs (km s) (ihash it)) by (eapply count_pos_in, Ip).
      destruct (do_dec_rep sizeof (set_km s m1) _ (ihash it) (isize it) acc
                           (inv_to_rep sizeof s Inv SB) P (SB _ _ Ip)) as (s1 & E1 & R1).
      rewrite E1. cbn [rbind]. apply do_dec_km in E1 as [K1 _]. cbn [set_km km] in K1.
      assert (Inv1 : IdxInv s1).
      { apply (rep_to_inv sizeof _ _) with (3 := R1); rewrite K1; [|intros a i I|exact HC].
        - apply (KX sorted_del), Sk.
        - apply In_sm_del in I. eapply SB, I. }
      set (l1 := if count_refs (km s) (ihash it) =? 1 then [ihash it] else []).
      replace (if _ =? 1 then acc ++ [ihash it] else acc) with (acc ++ l1)
        by (unfold l1; destruct (_ =? 1); [reflexivity|apply app_nil_r]).
      destruct (IH s1 (acc ++ l1) Inv1) as (s' & l2 & E2 & Inv' & D2).
      exists s', (l1 ++ l2). rewrite app_assoc. split; [exact E2|]. split; [exact Inv'|].
      rewrite K1 in D2. apply (dropped_app _ (count_refs m1)); [| | |exact D2].
      + intros x. apply count_del_le.
      + intros x. rewrite (proj1 (apply_remove_km _ _ _ _ _ E2)), K1. apply count_fold_del_le.
      + apply (dropped_ext _ _ _ _ HC), dropped_dec, P.
  Qed.

  (* everything at once *)
  Theorem C12_apply s o :
    IdxInv s -> op_respects_sizes s o ->
    exists s' un,
      apply_op cmp s o = Ok (s', un) /\ IdxInv s' /\
      km s' = km_expected s o /\ lpv s' = lpv s /\
      NoDup un /\
      (forall h, In h un <-> 0 < count_refs (km s) h /\ count_refs (km s') h = 0).
  Proof using cmp_refl cmp_eq cmp_antisym cmp_trans.
    intros Inv Hop.
    assert (exists s' un, apply_op cmp s o = Ok (s', un) /\ IdxInv s' /\
              Dropped (count_refs (km s)) (count_refs (km s')) un) as (s' & un & E & Inv' & D).
    { destruct o as [k h sz|ks]; [now apply apply_put_ok|apply (apply_remove_ok ks s [] Inv)]. }
    exists s', un. destruct (C12_km_spec _ _ _ _ E) as [K L].
    exact (conj E (conj Inv' (conj K (conj L D)))).
  Qed.

  (* apply never errors (no DecZero / HashNotFound / SizeMismatch / Underflow) and
     re-establishes the invariant *)
  Theorem C12_apply_ok s o :
    IdxInv s -> op_respects_sizes s o ->
    exists s' un, apply_op cmp s o = Ok (s', un) /\ IdxInv s'.
  Proof using cmp_refl cmp_eq cmp_antisym cmp_trans.
    intros Inv Hop. destruct (C12_apply s o Inv Hop) as (s' & un & E & Inv' & _).
    exists s', un. split; assumption.
  Qed.

  (* the reported unreferenced hashes are exactly those whose count dropped to zero *)
  Theorem C12_unreferenced s o s' un :
    IdxInv s -> op_respects_sizes s o -> apply_op cmp s o = Ok (s', un) ->
    NoDup un /\
    (forall h, In h un <-> 0 < count_refs (km s) h /\ count_refs (km s') h = 0).
  Proof using cmp_refl cmp_eq cmp_antisym cmp_trans.
    intros Inv Hop E. destruct (C12_apply s o Inv Hop) as (s2 & un2 & E2 & _ & _ & _ & ND & HI).
    rewrite E in E2. inversion E2; subst. split; assumption.
  Qed.

  (* no zero entries; the known blobs are exactly the referenced hashes *)
  Theorem C12_counts_exact s : IdxInv s ->
    forall h c, rc_get (rc s) h = Some c <-> (c = count_refs (km s) h /\ 0 < c).
  Proof using.
    intros Inv h c. rewrite (proj2 (IdxInv_rc s Inv)).
    destruct (N.eqb_spec (count_refs (km s) h) 0) as [Z|Z]; split.
    - discriminate.
    - intros [-> P]. lia.
    - intros H; inversion H; subst. split; [reflexivity|lia].
    - intros [-> _]. reflexivity.
  Qed.

  Corollary C12_known_iff_referenced s : IdxInv s ->
    forall h, rc_get (rc s) h <> None <-> exists k i, In (k, i) (km s) /\ ihash i = h.
  Proof using.
    intros Inv h. rewrite (proj2 (IdxInv_rc s Inv)).
    destruct (N.eqb_spec (count_refs (km s) h) 0) as [Z|Z]; split.
    - intros H; contradiction.
    - intros (k & i & I & <-). apply count_pos_in in I. lia.
    - intros _. apply count_pos_ex. lia.
    - intros _. discriminate.
  Qed.

  (* the incrementally maintained statistics equal the recomputed ones *)
  Theorem C12_incremental_eq_recomputed s x : IdxInv s ->
    ub (recompute_stats s x) = ub s /\ tb (recompute_stats s x) = tb s.
  Proof using.
    intros Inv. unfold recompute_stats. cbn [ub tb].
    split; symmetry; [exact (IdxInv_ub s Inv)|exact (IdxInv_tb s Inv)].
  Qed.

  (* the statistics in terms of the rc map: unique_blobs is the number of known
     hashes, total_bytes the sum of their sizes.  Both because the map of first sizes is
     the rc map with every count replaced by the size of its hash. *)
  Lemma inv_sizes s sizeof : IdxInv s -> sized_by sizeof (km s) ->
    uniq_sizes (km s) [] = map_vals (fun h _ => sizeof h) (rc s).
  Proof using.
    intros Inv SB.
    apply (Repr_unique _ _ (fsz (km s))); [apply uniq_sizes_fsz|].
    eapply Repr_ext; [|apply Repr_map, (IdxInv_rc s Inv)]. intros h. cbn beta.
    rewrite (fsz_sized sizeof _ _ SB). now destruct (count_refs (km s) h =? 0).
  Qed.

  Theorem C12_ub_is_rc_length s : IdxInv s -> ub s = N.of_nat (length (rc s)).
  Proof using.
    intros Inv. destruct (hashes_sized_oracle _ (IdxInv_sized s Inv)) as [sizeof SB].
    rewrite (IdxInv_ub s Inv), (inv_sizes s sizeof Inv SB). unfold map_vals. now rewrite map_length.
  Qed.

  Theorem C12_tb_is_rc_sum s sizeof : IdxInv s -> sized_by sizeof (km s) ->
    tb s = fold_right (fun h a => sizeof h + a) 0 (map fst (rc s)).
  Proof using.
    intros Inv SB. rewrite (IdxInv_tb s Inv), (inv_sizes s sizeof Inv SB).
    induction (rc s) as [|[h z] R IH]; [reflexivity|].
    cbn [map_vals map usum fold_right fst snd]. f_equal. exact IH.
  Qed.

  Section Load.
    Variable t : ktype.

    Definition load_step (s : istate) (e : entry) : istate :=
      mkIstate (sm_ins cmp (km s) (fst e) (snd e)) (fst (inc_ref (rc s) (ihash (snd e))))
               (lpv s) (ub s) (tb s) (ssz s).

    Lemma load_fold l : forall s,
      NoDup (map fst l) -> sorted cmp (km s) ->
      (forall k, In k (map fst l) -> ~ In k (sm_keys (km s))) ->
      RcRep (rc s) (count_refs (km s)) ->
      let s' := fold_left load_step l s in
      RcRep (rc s') (count_refs (km s')) /\ sorted cmp (km s') /\ lpv s' = lpv s /\
      km s' = fold_left (fun m e => sm_ins cmp m (fst e) (snd e)) l (km s).
    Proof using cmp_refl cmp_eq cmp_antisym cmp_trans.
      induction l as [|[k i] l IH]; intros s ND Sk Dj R; cbn [fold_left].
      - split; [exact R|]. split; [exact Sk|]. split; reflexivity.
      - inversion ND as [|? ? N1 ND']; subst.
        assert (G : sm_get cmp (km s) k = None).
        { apply (KX get_none_notin _ _ Sk). apply Dj. left; reflexivity. }
        set (s1 := load_step s (k, i)).
        assert (K1 : km s1 = sm_ins cmp (km s) k i) by reflexivity.
        apply (IH s1 ND').
        + rewrite K1. apply (KX sorted_ins), Sk.
        + intros k' I J. rewrite K1 in J. apply in_map_iff in J.
          destruct J as [[a b] [Ea J]]. cbn [fst] in Ea. subst a.
          apply In_sm_ins in J as [[= -> _]|J]; [contradiction|].
          apply (Dj k'); [right; exact I|]. apply in_map_iff. exists (k', b). split; auto.
        + destruct (inc_ref_rep _ _ (ihash i) R) as [E R'].
          unfold s1, load_step. cbn [rc km fst snd]. rewrite E. cbn [fst].
          eapply RcRep_ext; [|exact R']. intros x. cbn beta.
          rewrite (count_ins_none _ _ i x G). apply N.add_comm.
    Qed.

    (* the loaded state has exact reference counts and a sorted key map *)
    Theorem C12_load ver es s :
      load_entries cmp t ver es = Some s ->
      RcRep (rc s) (count_refs (km s)) /\ sorted cmp (km s) /\ lpv s = ver /\
      km s = fold_left (fun m e => sm_ins cmp m (fst e) (snd e))
               (fold_left (fun m e => sm_ins lex_cmp m (fst e) (snd e)) es []) [].
    Proof using cmp_refl cmp_eq cmp_antisym cmp_trans.
      unfold load_entries.
      set (raw := fold_left (fun m e => sm_ins lex_cmp m (fst e) (snd e)) es []).
      destruct (forallb _ raw); [|discriminate]. intros [= <-].
      apply (load_fold raw (mkIstate [] [] ver 0 0 0)).
      - apply (LX keys_nodup), (LX fold_ins_spec fst snd), I.
      - exact I.
      - intros k _ [].
      - split; [exact I|]. intros h. reflexivity.
    Qed.

    (* a snapshot written from a sorted key map with valid keys is read back identically *)
    Theorem C12_load_sorted ver es :
      sorted cmp es -> (forall e, In e es -> key_valid t (fst e) = true) ->
      exists s, load_entries cmp t ver es = Some s /\ km s = es /\ lpv s = ver /\
                sorted lex_cmp (rc s) /\
                (forall h, rc_get (rc s) h =
                   if count_refs es h =? 0 then None else Some (count_refs es h)).
    Proof using cmp_refl cmp_eq cmp_antisym cmp_trans.
      intros Se Val.
      set (raw := fold_left (fun m e => sm_ins lex_cmp m (fst e) (snd e)) es []).
      assert (SR : sorted lex_cmp raw) by (apply (LX fold_ins_spec fst snd); exact I).
      assert (HR : forall k i, In (k, i) raw <-> In (k, i) es).
      { intros k i. unfold raw. rewrite (LX fold_ins_In es [] k i (KX keys_nodup _ Se) I).
        cbn [In]. tauto. }
      destruct (load_entries cmp t ver es) as [s|] eqn:E.
      - exists s. destruct (C12_load _ _ _ E) as (R & Sk & L & K). fold raw in K.
        assert (Ke : km s = es).
        { apply (KX sorted_same_elements); try assumption.
          intros [k i]. rewrite K, (KX fold_ins_In raw [] k i (LX keys_nodup _ SR) I), HR.
          cbn [In]. tauto. }
        rewrite Ke in R. exact (conj eq_refl (conj Ke (conj L R))).
      - exfalso. unfold load_entries in E. fold raw in E.
        rewrite (proj2 (forallb_forall _ raw)) in E; [discriminate|].
        intros [k i] J. apply Val, HR, J.
    Qed.

    (* load leaves the statistics at 0; after recompute_stats the full invariant holds
       (given one-hash-one-size, which load cannot know by itself) *)
    Theorem C12_load_recompute ver es s x :
      load_entries cmp t ver es = Some s -> hashes_sized (km s) ->
      IdxInv (recompute_stats s x).
    Proof using cmp_refl cmp_eq cmp_antisym cmp_trans.
      intros E HS. destruct (C12_load _ _ _ E) as ([Sr Hr] & Sk & _).
      exact (conj Sk (conj Sr (conj Hr (conj HS (conj eq_refl eq_refl))))).
    Qed.
  End Load.
End Index.

(* a concrete state: two keys sharing one blob *)
Example C12_example :
  IdxInv lex_cmp
    (mkIstate [([1], mkItem [7] 3); ([2], mkItem [7] 3)] [([7], 2)] 0 1 3 0).
Proof.
  split; [exact (conj eq_refl (conj I I))|]. split; [exact (conj I I)|].
  split; [|split; [|split; reflexivity]].
  - intros h. cbn [km rc count_refs ihash]. unfold rc_get. cbn [sm_get].
    destruct (beqb_spec [7] h) as [<-|N]; [reflexivity|]. cbn [b01].
    destruct (lex_cmp h [7]) eqn:E; try reflexivity. apply lex_eq in E. now destruct N.
  - intros k1 k2 i1 i2 [[= <- <-]|[[= <- <-]|[]]] [[= <- <-]|[[= <- <-]|[]]] _; reflexivity.
Qed.

(* the example evolves as expected: removing one key keeps the blob, removing both frees it *)
Example C12_example_run :
  let s0 := mkIstate [([1], mkItem [7] 3); ([2], mkItem [7] 3)] [([7], 2)] 0 1 3 0 in
  apply_op lex_cmp s0 (RRemove [[1]]) =
    Ok (mkIstate [([2], mkItem [7] 3)] [([7], 1)] 0 1 3 0, []) /\
  apply_op lex_cmp s0 (RRemove [[1]; [2]]) = Ok (mkIstate [] [] 0 0 0 0, [[7]]).
Proof. split; reflexivity. Qed.

Print Assumptions C12_empty.
Print Assumptions C12_apply.
Print Assumptions C12_apply_ok.
Print Assumptions C12_unreferenced.
Print Assumptions C12_counts_exact.
Print Assumptions C12_incremental_eq_recomputed.
Print Assumptions C12_km_spec.
Print Assumptions C12_ub_is_rc_length.
Print Assumptions C12_tb_is_rc_sum.
Print Assumptions C12_load.
Print Assumptions C12_load_sorted.
Print Assumptions C12_load_recompute.
Print Assumptions C12_example.
Print Assumptions C12_example_run.
