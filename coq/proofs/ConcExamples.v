(* ConcExamples.v -- closed instances of the concurrent model, by computation.

   1. Two threads put the same key with different contents; three schedules reach final
      states, shown [reachable], to which C04_no_dangling, C07_quiescent_exact and C15 apply;
      the final states are also displayed.
   2. C05_aba_now_returns_content: the interleaving of the ABA race (delete-then-reput of the
      same content while the reader is parked before its open) leaves the reader parked at the
      open under the shared state lock, and its next step returns the content;
      reader_blocks_exclusive_S: meanwhile a writer at lock_S is blocked;
      progA_never_missing: the instance of C05_read_never_fails.
   3. Progress: the step bound of C15_progress and C15_calls_complete on the two-put program.
   4. Faults: the two-put program with the path of the first blob obstructed (the rename fails,
      the intent is reverted, the put returns CErr) and with failing checkpoints; the general
      theorems instantiated with a nonempty [bad].  (The F6 schedule is in ConcFault.v.)

   5. Ranged reads and iteration: a KGetRange racing an overwrite by a longer value (both
      outcomes: the slice of the old value clamped to the old size; after the retry the slice
      of the new value clamped to the CURRENT size) and a KIter racing a put (blocked while the
      writer holds S exclusively; both snapshots occur).

   Sections 1-3 and 5 instantiate the fault parameters with nobad / false.  The toy hash [toyH],
   [nobad] and [no_dangling] are defined here and used by the examples of the other Conc files. *)
From Cas Require Import SMap Index Conc.
From CasProofs Require Import SMapProofs ConcInv ConcProofs ConcProgress.
From Coq Require Import List NArith Lia Bool.
Import ListNotations.
Open Scope N_scope.

Definition toyH (b : bytes) : bytes := repeat (N.of_nat (length b) mod 256) 32.

(* collision freedom of toyH over a list of contents of pairwise different lengths is
   decided by computation *)
Fixpoint nocollide_list (l : list bytes) : bool :=
  match l with
  | [] => true
  | a :: r => forallb (fun b => beqb a b || negb (beqb (toyH a) (toyH b))) r && nocollide_list r
  end.

Lemma nocollide_list_sound l : nocollide_list l = true ->
  forall a b, In a l -> In b l -> toyH a = toyH b -> a = b.
Proof.
  induction l as [|x r IH]; cbn [nocollide_list]; intros C a b Ia Ib E; [destruct Ia|].
  apply andb_true_iff in C. destruct C as [C1 C2]. rewrite forallb_forall in C1.
  assert (X : forall y, In y r -> toyH x = toyH y -> x = y).
  { intros y Iy Ey. specialize (C1 y Iy). apply orb_true_iff in C1. destruct C1 as [C1|C1].
    - apply beqb_true_iff, C1.
    - rewrite Ey, beqb_refl in C1. discriminate. }
  destruct Ia as [<-|Ia], Ib as [<-|Ib].
  - reflexivity.
  - apply X; assumption.
  - symmetry. apply X; [assumption|congruence].
  - apply IH; assumption.
Qed.

(* the fault-free instance of the fault parameters *)
Definition nobad : bytes -> bool := fun _ => false.

(* a theorem of the general development at the toy instance: hash toyH, keys in byte order,
   segments of 100 operations, no initial blobs *)
Notation toy L bad ck prog nd nc :=
  (L toyH lex_cmp lex_refl lex_eq lex_antisym lex_trans 100 bad ck prog nd [] I (nil_named toyH) nc)
  (only parsing).

(* 1. two puts of the same key *)
Definition prog2 : list (nat * list ccall) :=
  [(1%nat, [KPut [1] [10]]); (2%nat, [KPut [1] [20; 21]])].

Lemma prog2_nodup : NoDup (map fst prog2).
Proof. cbn. repeat constructor; cbn; intuition discriminate. Qed.

Lemma prog2_nocollide :
  forall a b, In a (allc prog2 []) -> In b (allc prog2 []) -> toyH a = toyH b -> a = b.
Proof. apply nocollide_list_sound. vm_compute. reflexivity. Qed.

Definition sched_seq : list nat := repeat 1%nat 9 ++ repeat 2%nat 12.
(* thread 2 registers and renames first, thread 1 overtakes it at the locks, thread 2
   commits last and unlinks the blob of thread 1 *)
Definition sched_mix : list nat :=
  [2; 2; 2; 1; 1; 2; 1; 1; 1; 1; 2; 1; 2; 1; 1; 2; 2; 2; 2; 2; 2; 2]%nat.
(* thread 1 commits last *)
Definition sched_mix' : list nat :=
  [1; 2; 1; 2; 1; 2; 2; 2; 2; 2; 2; 2; 1; 1; 1; 1; 1; 1; 1; 1; 1]%nat.

Definition g_seq := crun toyH lex_cmp 100 nobad false (init_c prog2 []) sched_seq.
Definition g_mix := crun toyH lex_cmp 100 nobad false (init_c prog2 []) sched_mix.
Definition g_mix' := crun toyH lex_cmp 100 nobad false (init_c prog2 []) sched_mix'.

Example g_seq_reachable : reachable toyH lex_cmp 100 nobad false prog2 [] g_seq.
Proof. exists sched_seq. reflexivity. Qed.
Example g_mix_reachable : reachable toyH lex_cmp 100 nobad false prog2 [] g_mix.
Proof. exists sched_mix. reflexivity. Qed.
Example g_mix'_reachable : reachable toyH lex_cmp 100 nobad false prog2 [] g_mix'.
Proof. exists sched_mix'. reflexivity. Qed.

(* all three runs are complete; the last committer wins and only its blob remains *)
Example g_seq_final :
  all_finished g_seq = true /\
  km (g_idx g_seq) = [([1], mkItem (toyH [20; 21]) 2)] /\
  g_cas g_seq = [(toyH [20; 21], [20; 21])] /\ g_byhash g_seq = [] /\
  g_I g_seq = None /\ g_S g_seq = None.
Proof. vm_compute. repeat split. Qed.

Example g_mix_final :
  all_finished g_mix = true /\
  km (g_idx g_mix) = [([1], mkItem (toyH [20; 21]) 2)] /\
  g_cas g_mix = [(toyH [20; 21], [20; 21])] /\ g_byhash g_mix = [].
Proof. vm_compute. repeat split. Qed.

Example g_mix'_final :
  all_finished g_mix' = true /\
  km (g_idx g_mix') = [([1], mkItem (toyH [10]) 1)] /\
  g_cas g_mix' = [(toyH [10], [10])] /\ g_byhash g_mix' = [].
Proof. vm_compute. repeat split. Qed.

(* the theorem instances *)
Definition no_dangling (g : cstate) : Prop :=
  forall k it, sm_get lex_cmp (km (g_idx g)) k = Some it ->
  exists c, sm_get lex_cmp (g_cas g) (ihash it) = Some c /\ toyH c = ihash it /\ len c = isize it.

Lemma prog2_no_dangling g : reachable toyH lex_cmp 100 nobad false prog2 [] g -> no_dangling g.
Proof.
  intros R. unfold no_dangling.
  apply (toy C04_no_dangling nobad false prog2 prog2_nodup prog2_nocollide g R).
Qed.

Example g_seq_no_dangling : no_dangling g_seq.
Proof. apply prog2_no_dangling, g_seq_reachable. Qed.
Example g_mix_no_dangling : no_dangling g_mix.
Proof. apply prog2_no_dangling, g_mix_reachable. Qed.
Example g_mix'_no_dangling : no_dangling g_mix'.
Proof. apply prog2_no_dangling, g_mix'_reachable. Qed.

(* an intermediate state of the interleaved run: both intents registered, both blobs present,
   nothing indexed yet; the invariant (hence no dangling, deadlock freedom) applies too *)
Definition g_mid := crun toyH lex_cmp 100 nobad false (init_c prog2 []) (firstn 9 sched_mix).
Example g_mid_state :
  km (g_idx g_mid) = [] /\
  g_byhash g_mid = [(toyH [10], 1); (toyH [20; 21], 1)] /\
  map fst (g_cas g_mid) = [toyH [10]; toyH [20; 21]] /\ g_I g_mid = Some 1%nat.
Proof. vm_compute. repeat split. Qed.

Example g_mid_can_move : exists t, enabled toyH lex_cmp 100 nobad false g_mid t = true.
Proof.
  apply (toy C15_deadlock_free nobad false prog2 prog2_nodup prog2_nocollide).
  - exists (firstn 9 sched_mix). reflexivity.
  - vm_compute. reflexivity.
Qed.

(* 2. the ABA interleaving: the reader returns the content *)
Definition progA : list (nat * list ccall) :=
  [(1%nat, [KPut [1] [10]; KRemove [1]; KPut [1] [10]]); (2%nat, [KGet [1]])].

Lemma progA_nodup : NoDup (map fst progA).
Proof. cbn. repeat constructor; cbn; intuition discriminate. Qed.

Lemma progA_nocollide :
  forall a b, In a (allc progA []) -> In b (allc progA []) -> toyH a = toyH b -> a = b.
Proof. apply nocollide_list_sound. vm_compute. reflexivity. Qed.

(* the schedule of the race: a re-read without the state lock would end in BlobDataMissing *)
Definition schedA : list nat :=
  repeat 1%nat 9          (* thread 1: put k := c, complete *)
  ++ repeat 2%nat 3       (* thread 2: get k looks up the item (H c, 1), parks at open_blob *)
  ++ repeat 1%nat 10      (* thread 1: remove k, complete: the blob is unlinked *)
  ++ [2%nat]              (* thread 2: open fails with NotFound, parks at the re-read *)
  ++ repeat 1%nat 9       (* thread 1: put k := c again, complete *)
  ++ [2%nat].             (* thread 2: re-reads k and keeps the state lock shared *)

Definition g_A := crun toyH lex_cmp 100 nobad false (init_c progA []) schedA.
Definition g_A' := crun toyH lex_cmp 100 nobad false (init_c progA []) (schedA ++ [2%nat]).

Example C05_aba_now_returns_content :
  reachable toyH lex_cmp 100 nobad false progA [] g_A /\
  (* after schedA the reader is parked at the open under the read lock, carrying the CURRENT
     item of the key *)
  tget (g_thr g_A) 2%nat = Some (mkT [] (GOpenL [1] (mkItem (toyH [10]) 1) MFull) []) /\
  g_R g_A = [2%nat] /\ g_S g_A = None /\
  (* its next step returns the content and releases the lock *)
  reachable toyH lex_cmp 100 nobad false progA [] g_A' /\
  all_finished g_A' = true /\
  tget (g_thr g_A') 2%nat = Some (mkT [] Idle [CBytes (Some [10])]) /\
  g_R g_A' = [] /\
  km (g_idx g_A') = [([1], mkItem (toyH [10]) 1)] /\
  g_cas g_A' = [(toyH [10], [10])].
Proof.
  split; [exists schedA; reflexivity|].
  split; [vm_compute; reflexivity|]. split; [vm_compute; reflexivity|].
  split; [vm_compute; reflexivity|].
  split; [exists (schedA ++ [2%nat]); reflexivity|].
  vm_compute. repeat split.
Qed.

(* while the reader holds the lock shared, a writer that wants S exclusively is blocked: here
   thread 1 is made to run a further put up to lock_S after the reader parked *)
Definition progB : list (nat * list ccall) :=
  [(1%nat, [KPut [1] [10]; KRemove [1]; KPut [1] [10]; KPut [2] [30; 31; 32]]); (2%nat, [KGet [1]])].
Definition g_B := crun toyH lex_cmp 100 nobad false (init_c progB []) (schedA ++ repeat 1%nat 5).
Example reader_blocks_exclusive_S :
  tget (g_thr g_B) 1%nat =
    Some (mkT [] (WLockS (WPut [2] (toyH [30; 31; 32]) 3)) [CUnit; CBool true; CUnit]) /\
  g_R g_B = [2%nat] /\
  enabled toyH lex_cmp 100 nobad false g_B 1%nat = false /\ enabled toyH lex_cmp 100 nobad false g_B 2%nat = true.
Proof. vm_compute. repeat split. Qed.

(* the general theorem on this program: no reachable state has a CMissing result *)
Example progA_never_missing g : reachable toyH lex_cmp 100 nobad false progA [] g ->
  forall t ts, tget (g_thr g) t = Some ts -> ~ In CMissing (t_res ts).
Proof.
  apply (toy C05_read_never_fails nobad false progA progA_nodup progA_nocollide).
Qed.

(* 3. progress on the two-put program *)
(* at most 24 steps under ANY schedule (total work 2 * 12) *)
Example prog2_step_bound : forall sched,
  (csteps toyH lex_cmp 100 nobad false (init_c prog2 []) sched <= 24)%nat.
Proof.
  intros sched.
  apply (C15_progress toyH lex_cmp lex_refl lex_eq lex_antisym lex_trans 100 nobad false prog2 [] sched).
Qed.

(* from the intermediate state some schedule completes both calls *)
Example g_mid_completes : exists sched, all_finished (crun toyH lex_cmp 100 nobad false g_mid sched) = true.
Proof.
  apply (toy C15_calls_complete nobad false prog2 prog2_nodup prog2_nocollide).
  exists (firstn 9 sched_mix). reflexivity.
Qed.

(* 4. faults *)
(* the path of the blob of [10] is obstructed; every checkpoint fails *)
Definition badA : bytes -> bool := fun h => beqb h (toyH [10]).

Definition progC : list (nat * list ccall) :=
  [(1%nat, [KPut [1] [10]; KCheckpoint]); (2%nat, [KPut [1] [20; 21]])].

Lemma progC_nodup : NoDup (map fst progC).
Proof. cbn. repeat constructor; cbn; intuition discriminate. Qed.

Lemma progC_nocollide :
  forall a b, In a (allc progC []) -> In b (allc progC []) -> toyH a = toyH b -> a = b.
Proof. apply nocollide_list_sound. vm_compute. reflexivity. Qed.

(* both threads register their intents; thread 1's rename fails and it parks at the drop of
   its guard; thread 2 commits; thread 1 reverts its intent, returns CErr, then checkpoints *)
Definition sched_C : list nat :=
  [1; 1; 1; 2; 2; 2; 1]%nat ++ repeat 2%nat 6 ++ repeat 1%nat 4.

Definition g_C_mid := crun toyH lex_cmp 100 badA true (init_c progC []) (firstn 7 sched_C).
Definition g_C := crun toyH lex_cmp 100 badA true (init_c progC []) sched_C.

(* thread 1 is parked at guard_drop.lock_I: it remembers that it replaced nothing in by_key,
   while by_key[k] now belongs to thread 2; both hashes are in the ledger *)
Example g_C_mid_state :
  tget (g_thr g_C_mid) 1%nat = Some (mkT [KCheckpoint] (PDropI [1] (toyH [10]) None) []) /\
  g_bykey g_C_mid = [([1], toyH [20; 21])] /\
  g_byhash g_C_mid = [(toyH [10], 1); (toyH [20; 21], 1)] /\ g_cas g_C_mid = [].
Proof. vm_compute. repeat split. Qed.

Example g_C_final :
  all_finished g_C = true /\
  tget (g_thr g_C) 1%nat = Some (mkT [] Idle [CErr; CErr]) /\   (* failed put, failed checkpoint *)
  tget (g_thr g_C) 2%nat = Some (mkT [] Idle [CUnit]) /\
  km (g_idx g_C) = [([1], mkItem (toyH [20; 21]) 2)] /\
  g_cas g_C = [(toyH [20; 21], [20; 21])] /\ g_byhash g_C = [] /\ g_bykey g_C = [] /\
  g_I g_C = None /\ g_S g_C = None.
Proof. vm_compute. repeat split. Qed.

Example g_C_reachable : reachable toyH lex_cmp 100 badA true progC [] g_C.
Proof. exists sched_C. reflexivity. Qed.

(* the general theorems with a nonempty bad and failing checkpoints *)
Example g_C_no_dangling : no_dangling g_C.
Proof.
  unfold no_dangling.
  apply (toy C04_no_dangling badA true progC progC_nodup progC_nocollide g_C g_C_reachable).
Qed.

Example g_C_mid_can_move : exists t, enabled toyH lex_cmp 100 badA true g_C_mid t = true.
Proof.
  apply (toy C15_deadlock_free badA true progC progC_nodup progC_nocollide).
  - exists (firstn 7 sched_C). reflexivity.
  - vm_compute. reflexivity.
Qed.

(* the blob directory of this run is exact at quiescence although calls failed: nothing was
   leaked.  C07_quiescent_exact does not say so (badA obstructs a path and a call returned
   CErr): by computation *)
Example g_C_exact : map fst (g_cas g_C) = map (fun e => ihash (snd e)) (km (g_idx g_C)).
Proof. vm_compute. reflexivity. Qed.

(* C07 on the fault-free two-put program: every complete run is exact *)
Example prog2_quiescent_exact g : reachable toyH lex_cmp 100 nobad false prog2 [] g ->
  all_finished g = true ->
  forall h, sm_get lex_cmp (g_cas g) h <> None <->
            exists k it, In (k, it) (km (g_idx g)) /\ ihash it = h.
Proof.
  intros R AF.
  apply (toy C07_quiescent_exact_nofaults nobad false prog2 prog2_nodup prog2_nocollide g eq_refl R AF
           (fun _ => eq_refl)).
Qed.

(* the step bound does not depend on the faults: at most 12 + 3 + 12 steps *)
Example progC_step_bound : forall sched,
  (csteps toyH lex_cmp 100 badA true (init_c progC []) sched <= 27)%nat.
Proof.
  intros sched.
  apply (C15_progress toyH lex_cmp lex_refl lex_eq lex_antisym lex_trans 100 badA true progC [] sched).
Qed.

(* 5. ranged reads and iteration *)
(* thread 1 puts k := 3 bytes, overwrites it with 5 bytes, then puts a second key; thread 2 reads
   the range [1, 4) of k; thread 3 iterates over the keys *)
Definition progRI : list (nat * list ccall) :=
  [(1%nat, [KPut [1] [10; 11; 12]; KPut [1] [20; 21; 22; 23; 24]; KPut [2] [30]]);
   (2%nat, [KGetRange [1] 1 4]); (3%nat, [KIter])].

Lemma progRI_nodup : NoDup (map fst progRI).
Proof. cbn. repeat constructor; cbn; intuition discriminate. Qed.

Lemma progRI_nocollide :
  forall a b, In a (allc progRI []) -> In b (allc progRI []) -> toyH a = toyH b -> a = b.
Proof. apply nocollide_list_sound. vm_compute. reflexivity. Qed.

(* the reader looks up the OLD item (3 bytes) and parks at open_blob ... *)
Definition schedRI0 : list nat := repeat 1%nat 9 ++ repeat 2%nat 3.
(* ... the overwrite is applied but the old blob is not yet unlinked: the reader opens the old
   blob and returns bytes [1, min 4 3) of the OLD value *)
Definition schedRI_old : list nat := schedRI0 ++ repeat 1%nat 8 ++ [2%nat].
(* ... the overwrite completes (old blob unlinked): the open fails with NotFound, the retry
   looks the key up again and clamps the range with the size of the CURRENT item (5 bytes):
   bytes [1, 4) of the NEW value, not [1, 3) *)
Definition schedRI_new : list nat := schedRI0 ++ repeat 1%nat 10 ++ repeat 2%nat 3.

Definition g_RI0 := crun toyH lex_cmp 100 nobad false (init_c progRI []) schedRI0.
Definition g_RI_old := crun toyH lex_cmp 100 nobad false (init_c progRI []) schedRI_old.
Definition g_RI_new := crun toyH lex_cmp 100 nobad false (init_c progRI []) schedRI_new.
(* the reader one step before the end of the second schedule: under the shared lock, carrying
   the current item *)
Definition g_RI_new1 := crun toyH lex_cmp 100 nobad false (init_c progRI []) (removelast schedRI_new).

(* the iteration races the put of the second key: thread 3 takes its call, then thread 1 runs
   its third put up to the point where it holds the state lock exclusively *)
Definition schedI0 : list nat := repeat 1%nat 19 ++ [3%nat].
Definition g_I_blocked := crun toyH lex_cmp 100 nobad false (init_c progRI []) (schedI0 ++ repeat 1%nat 6).
(* the iteration runs before the apply: one key *)
Definition g_I_before :=
  crun toyH lex_cmp 100 nobad false (init_c progRI []) (schedI0 ++ repeat 1%nat 5 ++ [3%nat]).
(* the iteration runs after the apply (while the put is still unfinished): two keys *)
Definition g_I_after :=
  crun toyH lex_cmp 100 nobad false (init_c progRI []) (schedI0 ++ repeat 1%nat 7 ++ [3%nat]).

Example range_read_races_longer_overwrite_and_iter_races_put :
  (* the reader parked at open_blob with the old item *)
  tget (g_thr g_RI0) 2%nat =
    Some (mkT [] (GOpen [1] (mkItem (toyH [10; 11; 12]) 3) (MRange 1 4)) []) /\
  (* outcome 1: the slice of the old value, the range clamped to its 3 bytes *)
  tget (g_thr g_RI_old) 2%nat = Some (mkT [] Idle [CBytes (Some [11; 12])]) /\
  km (g_idx g_RI_old) = [([1], mkItem (toyH [20; 21; 22; 23; 24]) 5)] /\
  (* outcome 2: the retry carries the current item and returns the slice of the new value *)
  tget (g_thr g_RI_new1) 2%nat =
    Some (mkT [] (GOpenL [1] (mkItem (toyH [20; 21; 22; 23; 24]) 5) (MRange 1 4)) []) /\
  g_R g_RI_new1 = [2%nat] /\
  tget (g_thr g_RI_new) 2%nat = Some (mkT [] Idle [CBytes (Some [21; 22; 23])]) /\
  g_R g_RI_new = [] /\
  (* the iteration: blocked while the writer holds S exclusively ... *)
  tget (g_thr g_I_blocked) 3%nat = Some (mkT [] IRead []) /\
  g_S g_I_blocked = Some 1%nat /\
  enabled toyH lex_cmp 100 nobad false g_I_blocked 3%nat = false /\
  (* ... and both snapshots occur: without and with the key that is being put *)
  tget (g_thr g_I_before) 3%nat = Some (mkT [] Idle [CKeys [[1]]]) /\
  tget (g_thr g_I_after) 3%nat = Some (mkT [] Idle [CKeys [[1]; [2]]]) /\
  (exists ts, tget (g_thr g_I_after) 1%nat = Some ts /\ finished_t ts = false).
Proof. vm_compute. repeat split. eexists. split; reflexivity. Qed.

(* the general theorems apply to this program: e.g. no reachable state reports a missing blob,
   and at most 3 * 12 + 6 + 2 steps are taken by any schedule *)
Example progRI_never_missing g : reachable toyH lex_cmp 100 nobad false progRI [] g ->
  forall t ts, tget (g_thr g) t = Some ts -> ~ In CMissing (t_res ts).
Proof.
  apply (toy C05_read_never_fails nobad false progRI progRI_nodup progRI_nocollide).
Qed.

Example progRI_step_bound : forall sched,
  (csteps toyH lex_cmp 100 nobad false (init_c progRI []) sched <= 44)%nat.
Proof.
  intros sched.
  apply (C15_progress toyH lex_cmp lex_refl lex_eq lex_antisym lex_trans 100 nobad false progRI [] sched).
Qed.

Print Assumptions g_seq_no_dangling.
Print Assumptions g_mix_no_dangling.
Print Assumptions g_mid_can_move.
Print Assumptions C05_aba_now_returns_content.
Print Assumptions reader_blocks_exclusive_S.
Print Assumptions progA_never_missing.
Print Assumptions prog2_step_bound.
Print Assumptions g_mid_completes.
Print Assumptions g_C_mid_state.
Print Assumptions g_C_final.
Print Assumptions g_C_no_dangling.
Print Assumptions g_C_mid_can_move.
Print Assumptions prog2_quiescent_exact.
Print Assumptions progC_step_bound.
Print Assumptions range_read_races_longer_overwrite_and_iter_races_put.
Print Assumptions progRI_never_missing.
Print Assumptions progRI_step_bound.
