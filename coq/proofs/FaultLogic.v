(* FaultLogic.v -- a small program logic for the world monad M (theories/FS.v) that is valid
   under ANY fault plan (wfault w arbitrary, in particular Some n for every n):
     Hoare P m Q : if the filesystem satisfies P before m, then the result a of m and the
                   filesystem s' it leaves satisfy Q a s';
     Inv P m Q   : m preserves the filesystem predicate P and its result satisfies Q.
   The only primitive that touches the filesystem is do_call; what it does in any world is
   WorldRel.call_run, and its rule hoare_call has two cases: the call took effect
   (apply_call c s = Ok s'), or it returned an error (its own errno, or the injected EIO) and
   the filesystem is unchanged.
   Then: the frame facts used with it (keeps_and, keeps_impl, Absent), triples for the directory
   creating programs (mkdir_p, mkdir_cas2, mkdirs_pre), and Inv for the WAL / checkpoint /
   directory programs of theories/Store.v, for every predicate kept by all calls that name no
   path under cas/. *)
From Cas Require Import History.
From CasProofs Require Import StoreFS WorldRel.
Open Scope N_scope.

(* the two triples *)
Definition Hoare {A} (P : fs -> Prop) (m : M A) (Q : A -> fs -> Prop) : Prop :=
  forall w, P (wfs w) -> Q (fst (m w)) (wfs (snd (m w))).

Lemma hoare_ret : forall {A} (P : fs -> Prop) (a : A) (Q : A -> fs -> Prop),
  (forall s, P s -> Q a s) -> Hoare P (ret a) Q.
Proof. intros A P a Q I w Pw. exact (I _ Pw). Qed.

Lemma hoare_bind : forall {A B} (P : fs -> Prop) (m : M A) (f : A -> M B) R Q,
  Hoare P m R -> (forall a, Hoare (R a) (f a) Q) -> Hoare P (bind m f) Q.
Proof.
  intros A B P m f R Q Hm Hf w Pw. unfold bind. specialize (Hm w Pw).
  destruct (m w) as [a w1]. cbn [fst snd] in Hm. exact (Hf a w1 Hm).
Qed.

Lemma hoare_conseq : forall {A} (P P' : fs -> Prop) (m : M A) (Q Q' : A -> fs -> Prop),
  (forall s, P' s -> P s) -> (forall a s, Q a s -> Q' a s) -> Hoare P m Q -> Hoare P' m Q'.
Proof. intros A P P' m Q Q' IP IQ Hm w Pw. apply IQ, Hm, IP, Pw. Qed.

Lemma hoare_pre : forall {A} (P P' : fs -> Prop) (m : M A) Q,
  (forall s, P' s -> P s) -> Hoare P m Q -> Hoare P' m Q.
Proof. intros A P P' m Q IP Hm. eapply hoare_conseq; [exact IP| |exact Hm]. auto. Qed.

Lemma hoare_post : forall {A} (P : fs -> Prop) (m : M A) (Q Q' : A -> fs -> Prop),
  (forall a s, Q a s -> Q' a s) -> Hoare P m Q -> Hoare P m Q'.
Proof. intros A P m Q Q' IQ Hm. eapply hoare_conseq; [|exact IQ|exact Hm]. auto. Qed.

Lemma hoare_pure : forall {A} (F : Prop) (P : fs -> Prop) (m : M A) Q,
  (F -> Hoare P m Q) -> Hoare (fun s => P s /\ F) m Q.
Proof. intros A F P m Q Hm w [Pw Fw]. exact (Hm Fw w Pw). Qed.

Lemma hoare_call : forall (P : fs -> Prop) c (Q : res errno unit -> fs -> Prop),
  (forall s s', P s -> apply_call c s = Ok s' -> Q (Ok tt) s') ->
  (forall s e, P s -> Q (Err e) s) ->
  Hoare P (do_call c) Q.
Proof.
  intros P c Q Hok Herr w Pw. destruct (do_call_run c w) as [e E|s' E _|s' E _]; cbn [fst snd wfs].
  - exact (Herr _ e Pw).
  - exact (Hok _ _ Pw E).
  - exact (Herr _ EIO Pw).
Qed.

Lemma hoare_get_fs : forall (P : fs -> Prop) (Q : fs -> fs -> Prop),
  (forall s, P s -> Q s s) -> Hoare P get_fs Q.
Proof. intros P Q I w Pw. exact (I _ Pw). Qed.

Lemma hoare_read_file : forall (P : fs -> Prop) p (Q : option bytes -> fs -> Prop),
  (forall s, P s -> Q (match fget s p with Some f => Some (fdata f) | None => None end) s) ->
  Hoare P (read_file p) Q.
Proof. intros P p Q I w Pw. exact (I _ Pw). Qed.

(* the steps of an error-propagating chain: I holds throughout, a step that succeeds gains G,
   the error branch needs only I *)
Lemma hoare_call_frame : forall (I P G : fs -> Prop) c, call_keeps I c ->
  (forall s s', P s -> apply_call c s = Ok s' -> G s') ->
  Hoare (fun s => I s /\ P s) (do_call c)
        (fun r s => I s /\ match r with Ok _ => G s | Err _ => True end).
Proof.
  intros I P G c K HG. apply hoare_call.
  - intros s s' [Is Ps] E. split; [exact (K _ _ Is E)|exact (HG _ _ Ps E)].
  - intros s e [Is _]. now split.
Qed.

Lemma hoare_try : forall {E X B} (I G P : fs -> Prop) (m : M (res E X)) (f : res E X -> M B) Q,
  Hoare P m (fun r s => I s /\ match r with Ok _ => G s | Err _ => True end) ->
  (forall x, Hoare (fun s => I s /\ G s) (f (Ok x)) Q) ->
  (forall e, Hoare I (f (Err e)) Q) ->
  Hoare P (bind m f) Q.
Proof.
  intros E X B I G P m f Q Hm Ho He. eapply hoare_bind; [exact Hm|].
  intros [x|e]; [apply Ho|]. eapply hoare_pre; [|apply He]. now intros s [Is _].
Qed.

Definition Inv (P : fs -> Prop) {A} (m : M A) (Q : A -> Prop) : Prop :=
  Hoare P m (fun a s => P s /\ Q a).

Lemma inv_ret : forall (P : fs -> Prop) {A} (a : A) (Q : A -> Prop), Q a -> Inv P (ret a) Q.
Proof. intros P A a Q Qa. apply hoare_ret. auto. Qed.

Lemma inv_bind : forall (P : fs -> Prop) {A B} (m : M A) (f : A -> M B) (R : A -> Prop) Q,
  Inv P m R -> (forall a, R a -> Inv P (f a) Q) -> Inv P (bind m f) Q.
Proof.
  intros P A B m f R Q Hm Hf. eapply hoare_bind; [exact Hm|].
  intros a. apply hoare_pure. intros Ra. exact (Hf a Ra).
Qed.

Lemma inv_bind_ret : forall (P : fs -> Prop) {A B} (a : A) (f : A -> M B) Q,
  Inv P (f a) Q -> Inv P (bind (ret a) f) Q.
Proof. intros P A B a f Q Hf. exact Hf. Qed.

Lemma inv_weaken : forall (P : fs -> Prop) {A} (m : M A) (Q Q' : A -> Prop),
  Inv P m Q -> (forall a, Q a -> Q' a) -> Inv P m Q'.
Proof. intros P A m Q Q' Hm I. eapply hoare_post; [|exact Hm]. intros a s [X Y]. auto. Qed.

Lemma inv_true : forall (P : fs -> Prop) {A} (m : M A) (Q : A -> Prop),
  Inv P m Q -> Inv P m (fun _ => True).
Proof. intros P A m Q Hm. eapply inv_weaken; [exact Hm|auto]. Qed.

Lemma inv_call : forall (P : fs -> Prop) c, call_keeps P c -> Inv P (do_call c) (fun _ => True).
Proof. intros P c K. apply hoare_call; [|auto]. intros s s' Ps E. split; [exact (K _ _ Ps E)|exact I]. Qed.

Lemma inv_get_fs : forall (P : fs -> Prop), Inv P get_fs (fun _ => True).
Proof. intros P. apply hoare_get_fs. auto. Qed.

Lemma inv_pres : forall (P : fs -> Prop) {A} (m : M A), Pres P m -> Inv P m (fun _ => True).
Proof. intros P A m Pm w Pw. split; [exact (Pm w Pw)|exact I]. Qed.

Lemma inv_prog : forall (P : fs -> Prop) {A} (m : M A),
  IsProg (call_keeps P) m -> Inv P m (fun _ => True).
Proof. intros P A m Pm. apply inv_pres, pres_prog, Pm. Qed.

Lemma hoare_of_pres : forall (P : fs -> Prop) {A} (m : M A), Pres P m -> Hoare P m (fun _ s => P s).
Proof. intros P A m Pm w Pw. exact (Pm w Pw). Qed.

Lemma hoare_pre_elim : forall {A} (F : Prop) (P : fs -> Prop) (m : M A) Q,
  (forall s, P s -> F) -> (F -> Hoare P m Q) -> Hoare P m Q.
Proof. intros A F P m Q HF Hm w Pw. exact (Hm (HF _ Pw) w Pw). Qed.

Create HintDb inv.
#[export] Hint Resolve inv_get_fs : inv.

(* [inv_walk leaf]: structural decomposition of a goal [Inv P m Q]; every intermediate result is
   abstracted to True (give the intermediate predicate by hand with inv_bind where it matters);
   [leaf] proves call_keeps P c; what remains are the pure goals [Q a] at the returns *)
Ltac inv_walk leaf :=
  repeat (cbv beta iota zeta;
          first
            [ lazymatch goal with
              | |- forall _, _ => intro
              | |- Inv _ (ret _) _ => apply inv_ret
              | |- Inv _ (bind (ret _) _) _ => apply inv_bind_ret
              | |- Inv _ (bind _ _) _ =>
                eapply (inv_bind _ _ _ (fun _ => True)); [|intros ? _]
              | |- Inv _ (do_call _) (fun _ => True) => apply inv_call; solve [leaf]
              | |- Inv _ (do_call _) _ =>
                eapply inv_weaken; [apply inv_call; solve [leaf]|intros ? _]
              | |- Inv _ (match ?x with _ => _ end) _ => destruct x
              | |- Inv _ _ (fun _ => True) => eapply inv_true; solve [auto with inv]
              end
            | solve [auto with inv] ]).

(* calls that name no path under cas/ *)
Definition noncas (p : path) : bool := match p with PCas _ => false | _ => true end.
Definition cas_free (c : call) : bool :=
  match c with
  | CMkdir _ => true
  | CCreate q | CCreateExcl q | COpenAppend q | CAppend q _ | CSync q | CUnlink q => noncas q
  | CRename a b => noncas a && noncas b
  end.

Lemma noncas_neq : forall comps q, noncas q = true -> negb (path_eqb (PCas comps) q) = true.
Proof. intros comps [] E; try reflexivity; discriminate. Qed.

Lemma cas_free_avoids : forall comps c, cas_free c = true -> call_avoids (PCas comps) c = true.
Proof.
  intros comps c F. destruct c as [d|q|q|q|q b|q|a b|q]; cbn [cas_free call_avoids] in *;
    try reflexivity; try (now apply noncas_neq).
  apply andb_prop in F. destruct F as [Fa Fb]. now rewrite !noncas_neq.
Qed.

Lemma keeps_and : forall (P Q : fs -> Prop) c,
  call_keeps P c -> call_keeps Q c -> call_keeps (fun s => P s /\ Q s) c.
Proof. intros P Q c KP KQ s s' [Ps Qs] E. split; [exact (KP _ _ Ps E)|exact (KQ _ _ Qs E)]. Qed.

Lemma keeps_impl : forall (F : Prop) (P : fs -> Prop) c,
  call_keeps P c -> call_keeps (fun s => F -> P s) c.
Proof. intros F P c K s s' X E f. exact (K _ _ (X f) E). Qed.

(* no file at any path of the class T *)
Definition Absent (T : path -> Prop) (s : fs) : Prop := forall q, T q -> fget s q = None.

Lemma absent_keeps : forall (T : path -> Prop) c,
  (forall q, T q -> call_avoids q c = true) -> call_keeps (Absent T) c.
Proof. intros T c A s s' Ab E q Tq. exact (avoids_keeps q None c (A q Tq) s s' (Ab q Tq) E). Qed.

Lemma load_free : forall c, load_call c = true -> cas_free c = true.
Proof.
  intros c L. destruct c as [d|q|q|q|q b|q|a b|q]; cbn [load_call] in L; try discriminate;
    try (destruct q; try discriminate; reflexivity).
  destruct a; try discriminate. destruct b; try discriminate. reflexivity.
Qed.

Lemma wal_free : forall c, wal_call c = true -> cas_free c = true.
Proof.
  intros c L. destruct c as [d|q|q|q|q b|q|a b|q]; try discriminate;
    destruct q; try discriminate; reflexivity.
Qed.

(* creating directories: a successful mkdir_p leaves the directory in place *)
Lemma mkdir_p_hoare : forall (P : fs -> Prop) d, call_keeps P (CMkdir d) ->
  Hoare P (mkdir_p d)
        (fun r s => P s /\ match r with Ok _ => has_dir s d = true | Err _ => True end).
Proof.
  intros P d K. unfold mkdir_p.
  eapply hoare_bind with (R := fun a s => a = s /\ P s); [apply hoare_get_fs; auto|].
  intros s0. destruct (has_dir s0 d) eqn:Hd.
  - apply hoare_ret. intros s [-> Ps]. now split.
  - eapply hoare_pre; [intros s [_ Ps]; exact Ps|]. apply hoare_call.
    + intros s s' Ps E. split; [exact (K _ _ Ps E)|]. cbn [apply_call] in E.
      destruct (has_dir s d); [discriminate|].
      assert (E' : s' = mkFs (files s) (dirs s ++ [d]) (nstage s)).
      { destruct (removelast d); [|destruct (has_dir s (b :: l))]; congruence. }
      subst s'. apply has_dir_iff. cbn [dirs]. apply in_or_app. right. now left.
    + intros s e Ps. now split.
Qed.

(* the fan-out directories under any fault plan: whatever happens every mkdir keeps P; if the
   loop reports success, every directory of the list exists (an existing one is skipped) *)
Lemma mkdir_cas2_hoare : forall (P : fs -> Prop) a b, (forall d, call_keeps P (CMkdir d)) ->
  Hoare P (mkdir_cas2 a b)
        (fun r s => P s /\ match r with
                           | Ok _ => has_dir s [s_cas; a] = true /\ has_dir s [s_cas; a; b] = true
                           | Err _ => True end).
Proof.
  intros P a b K. unfold mkdir_cas2.
  eapply hoare_bind; [apply (mkdir_p_hoare P), K|].
  intros [u|e]; [|apply hoare_ret; intros s [Ps _]; now split].
  eapply hoare_post; [|apply (mkdir_p_hoare (fun s => P s /\ has_dir s [s_cas; a] = true))].
  - intros [u'|e] s [[Ps D1] D2]; split; auto.
  - apply keeps_and; [apply K|apply has_dir_keeps].
Qed.

Lemma mkdirs_pre_hoare : forall ds (P : fs -> Prop), (forall d, call_keeps P (CMkdir d)) ->
  Hoare P (mkdirs_pre ds)
        (fun r s => P s /\ match r with
                           | Ok _ => forall i j, In (i, j) ds ->
                               has_dir s [s_cas; hex2 i] = true /\
                               has_dir s [s_cas; hex2 i; hex2 j] = true
                           | Err _ => True end).
Proof.
  induction ds as [|[i j] ds IH]; intros P K; cbn [mkdirs_pre].
  - apply hoare_ret. intros s Ps. split; [exact Ps|]. intros i j [].
  - eapply hoare_bind; [apply (mkdir_cas2_hoare P), K|].
    intros [u|e]; [|apply hoare_ret; intros s [Ps _]; now split].
    eapply hoare_post;
      [|apply (IH (fun s => P s /\ (has_dir s [s_cas; hex2 i] = true /\
                                    has_dir s [s_cas; hex2 i; hex2 j] = true)))].
    + intros [u'|e] s [[Ps D] X]; split; auto.
      intros i' j' [Y|Y]; [inversion Y; subst; exact D|now apply X].
    + intros d. apply keeps_and; [apply K|]. apply keeps_and; apply has_dir_keeps.
Qed.

(* the WAL, checkpoint and directory programs *)
(* m' is m up to the snapshot version and size of the index *)
Definition same_maps (m' m : mem) : Prop :=
  km (idx m') = km (idx m) /\ rc (idx m') = rc (idx m) /\ ub (idx m') = ub (idx m) /\
  tb (idx m') = tb (idx m) /\ mwal m' = mwal m /\ mpre m' = mpre m.

Section InvFree.
  Variable H : bytes -> bytes.
  Variable cfg : config.
  Variable P : fs -> Prop.
  Hypothesis K : forall c, cas_free c = true -> call_keeps P c.

  Local Ltac leaf := apply K; reflexivity.
  Lemma keeps_load_calls : forall c, load_call c = true -> call_keeps P c.
  Proof. intros c L. exact (K c (load_free c L)). Qed.
  Lemma keeps_mkdirs : forall d, call_keeps P (CMkdir d).
  Proof. intros d. now apply K. Qed.

  Lemma inv_bw_flush : forall seg buf, Inv P (bw_flush (PWal seg) buf) (fun _ => True).
  Proof. intros. apply inv_prog, prog_bw_flush. intros b. leaf. Qed.
  Hint Resolve inv_bw_flush : inv.

  Lemma inv_bw_write_all : forall seg buf data,
    Inv P (bw_write_all (PWal seg) buf data) (fun _ => True).
  Proof. intros. apply inv_prog, prog_bw_write_all. intros b. leaf. Qed.
  Hint Resolve inv_bw_write_all : inv.

  Lemma inv_writer_close : forall seg buf, Inv P (writer_close seg buf) (fun r => r <> Err EPanic).
  Proof. intros. unfold writer_close. inv_walk leaf; discriminate. Qed.
  Hint Resolve inv_writer_close : inv.

  Lemma inv_writer_seal : forall seg buf, Inv P (writer_seal seg buf) (fun r => r <> Err EPanic).
  Proof. intros. unfold writer_seal. inv_walk leaf; discriminate. Qed.
  Hint Resolve inv_writer_seal : inv.

  Lemma inv_write_entry : forall seg buf ver payload,
    Inv P (write_entry H seg buf ver payload) (fun rb => fst rb <> Err EPanic).
  Proof. intros. unfold write_entry. inv_walk leaf; discriminate. Qed.
  Hint Resolve inv_write_entry : inv.

  (* the version counter always advances by one -- also when the append fails (the version is
     burned); the unreachable unwrap() is indeed unreachable *)
  Lemma inv_append_op : forall wl payload,
    Inv P (append_op H cfg wl payload)
        (fun r => nextv (snd r) = nextv wl + 1 /\ fst r <> Err EPanic).
  Proof.
    intros wl payload. unfold append_op. cbv zeta.
    (* after the roll-over, if any: a success leaves an active writer *)
    set (R := fun ro : res serr unit * wal =>
                nextv (snd ro) = nextv wl + 1 /\
                match fst ro with Ok _ => writer (snd ro) <> None | Err e => e <> EPanic end).
    eapply inv_bind with (R := R).
    - assert (OPEN : forall w2 w3 : wal, R (Err EWalIo, w2) -> R (Ok tt, w3) ->
                Inv P (do! r <- do_call (COpenAppend (PWal (seg_of cfg (nextv wl)))) ;;
                       match r with Err _ => ret (Err EWalIo, w2) | Ok _ => ret (Ok tt, w3) end) R).
      { intros w2 w3 R2 R3. eapply inv_bind; [apply inv_call; leaf|].
        intros [u|e] _; now apply inv_ret. }
      destruct (writer wl) as [[s b]|].
      + destruct (negb (s =? seg_of cfg (nextv wl))); [|apply inv_ret; split; [reflexivity|discriminate]].
        eapply inv_bind; [apply inv_writer_seal|].
        intros [u|e] He; [apply OPEN; (split; [reflexivity|discriminate])|].
        apply inv_ret. split; [reflexivity|].
        intros ->. now apply He.
      + apply OPEN; (split; [reflexivity|discriminate]).
    - intros [[u|e] w2] [Hn Hw]; cbn [fst snd] in Hn, Hw.
      + destruct (writer w2) as [[s b]|]; [|now destruct Hw].
        eapply inv_bind; [apply inv_write_entry|].
        intros [[u'|e'] b'] Hb; apply inv_ret; (split; [exact Hn|]); [discriminate|].
        intros X. apply Hb. now inversion X.
      + apply inv_ret. split; [exact Hn|]. intros X. apply Hw. now inversion X.
  Qed.
  Hint Resolve inv_append_op : inv.

  Lemma inv_unlink_wals : forall ids, Inv P (unlink_all (map PWal ids)) (fun _ => True).
  Proof. intros ids. exact (inv_pres P _ (pres_unlink_wals P keeps_load_calls ids)). Qed.
  Hint Resolve inv_unlink_wals : inv.

  Lemma inv_prune_below : forall bound, Inv P (prune_below bound) (fun _ => True).
  Proof. intros bound. exact (inv_pres P _ (pres_prune_below P keeps_load_calls bound)). Qed.
  Hint Resolve inv_prune_below : inv.

  Lemma inv_write_index : forall data, Inv P (atomic_write PIndex PIndexTmp data) (fun _ => True).
  Proof. intros data. exact (inv_pres P _ (pres_write_index P keeps_load_calls data)). Qed.
  Hint Resolve inv_write_index : inv.

  (* a checkpoint, successful or not, changes neither the key map, the reference counts, the
     statistics nor the WAL state held in memory *)
  Lemma inv_checkpoint_inner : forall reason m,
    Inv P (checkpoint_inner cfg reason m) (fun rm => fst rm <> Err EPanic /\ same_maps (snd rm) m).
  Proof.
    intros. unfold checkpoint_inner.
    inv_walk leaf; (split; [discriminate|now repeat split]).
  Qed.
  Hint Resolve inv_checkpoint_inner : inv.

  Lemma inv_mkdir_p : forall d, Inv P (mkdir_p d) (fun _ => True).
  Proof. intros d. exact (inv_pres P _ (pres_mkdir_p P keeps_mkdirs d)). Qed.
  Hint Resolve inv_mkdir_p : inv.

  Lemma inv_mkdir_cas2 : forall a b, Inv P (mkdir_cas2 a b) (fun _ => True).
  Proof. intros a b. apply inv_prog, prog_mkdir_cas2; apply keeps_mkdirs. Qed.
  Hint Resolve inv_mkdir_cas2 : inv.

  Lemma inv_drop_staging : forall i, Inv P (drop_staging (PStaging i)) (fun _ => True).
  Proof. intros. apply inv_prog, prog_drop_staging. leaf. Qed.
  Hint Resolve inv_drop_staging : inv.

  (* the staging file gets the next unused number; failure is EStageCreate *)
  Lemma inv_new_staging :
    Inv P new_staging (fun rp => match rp with
                                 | Ok p => exists i, p = PStaging i
                                 | Err e => e = EStageCreate
                                 end).
  Proof.
    unfold new_staging. eapply (inv_bind _ _ _ (fun _ => True)); [apply inv_get_fs|].
    intros s _. inv_walk leaf; try (eexists; reflexivity); try reflexivity.
  Qed.

  (* a dropped transaction: memory untouched, never a panic *)
  Lemma inv_abort : forall m k chunks,
    Inv P (abort m k chunks) (fun rm => fst rm <> Err EPanic /\ snd rm = m).
  Proof.
    intros m k chunks. unfold abort. eapply inv_bind; [apply inv_new_staging|].
    intros [p|e] R.
    - destruct R as [i ->]. inv_walk leaf; (split; [discriminate|reflexivity]).
    - subst e. apply inv_ret. split; [discriminate|reflexivity].
  Qed.
End InvFree.

#[export] Hint Resolve inv_bw_flush inv_bw_write_all inv_writer_close inv_writer_seal inv_write_entry
  inv_append_op inv_unlink_wals inv_prune_below inv_write_index inv_checkpoint_inner
  inv_mkdir_p inv_mkdir_cas2 inv_drop_staging : inv.

Print Assumptions inv_append_op.
Print Assumptions inv_checkpoint_inner.
Print Assumptions inv_abort.
