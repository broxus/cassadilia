(* FaultHist.v -- C14 at the level of whole histories, for one process lifetime (one open
   handle): under ANY fault plan the data API never panics, and every output is the output of
   the ordered-map specification for a map obtained by treating each failed operation as done
   or as not done.

   This is PARTIAL with respect to property C14: nothing is said about what a later reopen
   (or a crash followed by a reopen) observes.  That clause is false for the model -- known
   finding F4, refuted by computation in FaultWitness.v: the record of an operation whose WAL
   append / fdatasync failed becomes durable later.  Theorems whose name ends in _partial
   carry this restriction.  The first open of an empty directory under any fault plan
   (open_fresh_fault) lets the statements start from nothing (C14_from_fresh_any_fault_partial). *)
From Cas Require Import History.
From CasProofs Require Import BaseProofs SMapProofs IndexProofs StoreFS StoreInv StoreWrite
  StoreRead StoreHist WorldRel FaultLogic Faults PreCreate.
Open Scope N_scope.

Local Opaque all256.

Section FaultHist.
  Variable H : bytes -> bytes.
  Hypothesis H_len : forall b, length (H b) = 32%nat.
  Hypothesis H_byte : forall b, Forall (fun x => x < 256) (H b).
  Variable cfg : config.
  Hypothesis n_pos : 0 < c_n cfg.

  Local Notation cmp := (key_cmp (c_kt cfg)).
  Local Notation KX L :=
    (L cmp (key_cmp_refl _) (key_cmp_eq _) (key_cmp_antisym _) (key_cmp_trans _)) (only parsing).
  Local Notation km_of := (km_of H).
  Local Notation NoCollide := (NoCollide H).
  Local Notation LiveF := (LiveF H cfg).
  Local Notation spec_out := (spec_out H cfg).
  Local Notation api_op := (api_op cfg).

  (* the weakened refinement.  [mutating]: the operations that issue I/O and can therefore fail *)
  Definition mutating (o : op) : bool :=
    match o with
    | OpPut _ _ | OpAbort _ _ | OpRemove _ | OpRemoveRange _ _ | OpCheckpoint => true
    | _ => false
    end.

  (* outs is a possible output sequence of ops from the abstract map sg: each call either
     behaves exactly as specified, or (only a mutating call) reports an error other than a
     panic, and then the map is the old or the new one *)
  Fixpoint FaultRefines (sg : smap bytes) (ops : list op) (outs : list out) : Prop :=
    match ops, outs with
    | [], [] => True
    | o :: r, x :: xs =>
      (x = spec_out sg o /\ FaultRefines (spec_step cmp sg o) r xs) \/
      (mutating o = true /\ (exists e, x = OutErr e /\ e <> EPanic) /\
       (FaultRefines sg r xs \/ FaultRefines (spec_step cmp sg o) r xs))
    | _, _ => False
    end.

  (* the abstract maps reachable by treating every mutating call as done or not done *)
  Fixpoint possible_maps (sg : smap bytes) (ops : list op) : list (smap bytes) :=
    match ops with
    | [] => [sg]
    | o :: r => possible_maps (spec_step cmp sg o) r ++
                (if mutating o then possible_maps sg r else [])
    end.

  (* one call of a possible run: from sg the call o answers x and leaves the map sg1 *)
  Definition StepTo (sg : smap bytes) (o : op) (x : out) (sg1 : smap bytes) : Prop :=
    (x = spec_out sg o /\ sg1 = spec_step cmp sg o) \/
    (mutating o = true /\ (exists e, x = OutErr e /\ e <> EPanic) /\
     (sg1 = sg \/ sg1 = spec_step cmp sg o)).

  Lemma FaultRefines_cons : forall sg o r x xs,
    FaultRefines sg (o :: r) (x :: xs) <-> exists sg1, StepTo sg o x sg1 /\ FaultRefines sg1 r xs.
  Proof.
    intros sg o r x xs. cbn [FaultRefines]. split.
    - intros [[E FR]|(Mu & Ee & [FR|FR])]; eexists; (split; [|exact FR]); [left|right|right]; auto.
    - intros (sg1 & [[E ->]|(Mu & Ee & [->| ->])] & FR); [left|right|right]; auto.
  Qed.

  Lemma possible_step : forall sg o x sg1 r y, StepTo sg o x sg1 ->
    In y (possible_maps sg1 r) -> In y (possible_maps sg (o :: r)).
  Proof.
    intros sg o x sg1 r y St Iy. cbn [possible_maps]. apply in_or_app.
    destruct St as [[_ ->]|(Mu & _ & [->| ->])]; [now left| |now left]. rewrite Mu. now right.
  Qed.

  Lemma spec_out_no_panic : forall sg o, spec_out sg o <> OutErr EPanic.
  Proof.
    intros sg o. destruct o; cbn [StoreHist.spec_out]; try discriminate.
    destruct (sm_get cmp sg k) as [c|]; [|discriminate].
    destruct ((b <? a) && (a <? len c)); discriminate.
  Qed.

  Lemma StepTo_no_panic : forall sg o x sg1, StepTo sg o x sg1 -> x <> OutErr EPanic.
  Proof.
    intros sg o x sg1 [[-> _]|(_ & (e & -> & Ne) & _)]; [apply spec_out_no_panic|congruence].
  Qed.

  Lemma StepTo_maps : forall sg o x sg1, StepTo sg o x sg1 -> sg1 = sg \/ sg1 = spec_step cmp sg o.
  Proof. intros sg o x sg1 [[_ E]|(_ & _ & E)]; auto. Qed.

  Lemma StepTo_contents : forall sg o x sg1, StepTo sg o x sg1 ->
    incl (map snd sg1) (op_contents o ++ map snd sg).
  Proof.
    intros sg o x sg1 St. destruct (StepTo_maps _ _ _ _ St) as [->| ->]; [apply incl_appr, incl_refl|].
    intros y Iy. apply in_or_app. exact (spec_step_contents cfg sg o y Iy).
  Qed.

  (* one call: a mutating call, from the operation's triple (Faults.v) *)
  Lemma step_mutating : forall {R} (g : R -> out) (v : R) (prog : M (res serr R * mem)) m sg os o w,
    mutating o = true -> g v = spec_out sg o -> LiveF m (wfs w) sg ->
    (MemF H cfg m sg ->
     Hoare (FsF H (mpre m) (map snd sg)) prog (Reports H cfg sg (spec_step cmp sg o) v)) ->
    let '((x, hd'), w') :=
      (do! r <- prog ;; ret (lift g (fst r), Some (mkHandle cfg (snd r) os))) w in
    exists m' sg1, hd' = Some (mkHandle cfg m' os) /\ StepTo sg o x sg1 /\ LiveF m' (wfs w') sg1.
  Proof.
    intros R g v prog m sg os o w Mu Ev L Hp. unfold bind.
    pose proof (hoare_live H cfg m (wfs w) sg w prog _ L eq_refl Hp) as [(Np & D & S) V].
    destruct (prog w) as [[r m'] w']. cbn [ret fst snd] in *. exists m'.
    destruct r as [v'|e]; cbn [lift].
    - exists (spec_step cmp sg o). split; [reflexivity|]. split; [|apply S; exists v'; reflexivity].
      left. split; [|reflexivity]. now rewrite (V v' eq_refl).
    - assert (St : forall sg1, sg1 = sg \/ sg1 = spec_step cmp sg o -> StepTo sg o (OutErr e) sg1).
      { intros sg1 E1. right. split; [exact Mu|]. split; [|exact E1]. exists e. split; [reflexivity|congruence]. }
      destruct D as [D|D]; eexists; (split; [reflexivity|]); (split; [|exact D]); apply St; auto.
  Qed.

  Lemma reports_unit : forall sg sg' (rm : res serr unit * mem) s,
    Outcome H cfg sg sg' (fst rm) (snd rm) s -> Reports H cfg sg sg' tt rm s.
  Proof. intros sg sg' rm s O. split; [exact O|]. now intros []. Qed.

  Lemma step_fault : forall m sg os o w,
    LiveF m (wfs w) sg -> api_op o -> NoCollide (op_contents o ++ map snd sg) ->
    let '((x, hd'), w') := step H (Some (mkHandle cfg m os)) o w in
    exists m' sg1, hd' = Some (mkHandle cfg m' os) /\ StepTo sg o x sg1 /\ LiveF m' (wfs w') sg1.
  Proof.
    intros m sg os o w L A NC.
    assert (RD : forall x : out, x = spec_out sg o -> spec_step cmp sg o = sg ->
              exists m' sg1, Some (mkHandle cfg m os) = Some (mkHandle cfg m' os) /\
                             StepTo sg o x sg1 /\ LiveF m' (wfs w) sg1).
    { intros x Ex Es. exists m, sg. split; [reflexivity|]. split; [left; now split|exact L]. }
    pose proof (LiveF_view H cfg m (wfs w) sg L) as V.
    destruct o; cbn [StoreHist.api_op] in A; try contradiction;
      cbn [step h_cfg h_mem h_ostats op_contents].
    - (* put *)
      apply (step_mutating (fun _ => OutUnit) tt _ m); [reflexivity|reflexivity|exact L|intros Mm].
      eapply hoare_post; [intros rm s; apply reports_unit|].
      exact (put_hoare H H_len H_byte cfg m sg k chunks Mm NC).
    - (* abort *)
      apply (step_mutating (fun _ => OutUnit) tt _ m); [reflexivity|reflexivity|exact L|intros Mm].
      eapply hoare_post; [|exact (abort_hoare H cfg m sg k chunks Mm)].
      intros rm s [O _]. now apply reports_unit.
    - (* remove *)
      eapply (step_mutating OutBool _ _ m); [reflexivity|reflexivity|exact L|intros Mm].
      exact (remove_hoare H H_len H_byte cfg m sg k Mm).
    - (* remove_range *)
      assert (NP : (nonempty sg && range_panics cmp lo hi) = false)
        by (rewrite A; apply andb_false_r).
      eapply (step_mutating OutNum _ _ m); [reflexivity|reflexivity|exact L|intros Mm].
      cbn [spec_step]. rewrite NP.
      exact (remove_range_hoare H H_len H_byte cfg m sg lo hi Mm NP).
    - (* checkpoint *)
      apply (step_mutating (fun _ => OutUnit) tt _ m); [reflexivity|reflexivity|exact L|intros Mm].
      eapply hoare_post; [intros rm s; apply reports_unit|].
      exact (checkpoint_hoare H cfg m sg Mm).
    - (* get *)
      unfold bind, get_fs, ret. rewrite (get_view H cfg m (wfs w) sg k V). now apply RD.
    - (* get_size *)
      unfold ret. rewrite (get_size_view H cfg m (wfs w) sg k V). now apply RD.
    - (* get_range *)
      unfold bind, get_fs, ret. rewrite (get_range_view H H_len H_byte cfg n_pos m (wfs w) sg k a b V).
      apply RD; [|reflexivity]. cbn [StoreHist.spec_out lift].
      destruct (sm_get cmp sg k) as [c|]; [|reflexivity].
      destruct ((b <? a) && (a <? len c)); reflexivity.
    - (* get via reader *)
      unfold bind, get_fs, ret. rewrite (get_view H cfg m (wfs w) sg k V). now apply RD.
    - (* iter *)
      unfold ret. rewrite (lf_km _ _ _ _ _ L). now apply RD.
    - (* range *)
      unfold ret. rewrite (range_iter_view H cfg m (wfs w) sg lo hi V) by (rewrite A; apply andb_false_r).
      now apply RD.
  Qed.

  (* whole histories on one open handle *)
  Theorem run_fault : forall ops m sg os w,
    LiveF m (wfs w) sg -> Forall api_op ops ->
    NoCollide (hist_contents ops ++ map snd sg) ->
    let '((outs, hd'), w') := run_ops H (Some (mkHandle cfg m os)) ops w in
    FaultRefines sg ops outs /\
    exists m' sgf, hd' = Some (mkHandle cfg m' os) /\
                   In sgf (possible_maps sg ops) /\ LiveF m' (wfs w') sgf.
  Proof.
    induction ops as [|o ops IH]; intros m sg os w L A NC.
    - cbn [run_ops ret]. split; [exact I|]. exists m, sg. split; [reflexivity|].
      split; [now left|exact L].
    - inversion A as [|? ? Ao Aops]; subst.
      change (hist_contents (o :: ops)) with (op_contents o ++ hist_contents ops) in NC.
      cbn [run_ops]. unfold bind at 1.
      pose proof (step_fault m sg os o w L Ao (nocollide_head H _ _ _ NC)) as S.
      destruct (step H (Some (mkHandle cfg m os)) o w) as [[x hd1] w1].
      destruct S as (m1 & sg1 & -> & St & L1). cbn [snd fst]. unfold bind at 1.
      pose proof (IH m1 sg1 os w1 L1 Aops
                    (nocollide_rest H _ _ _ _ NC
                       (fun y Iy => in_app_or _ _ _ (StepTo_contents _ _ _ _ St y Iy)))) as R.
      destruct (run_ops H (Some (mkHandle cfg m1 os)) ops w1) as [[outs hd2] w2].
      cbn [ret fst snd]. destruct R as (FR & m2 & sgf & -> & Ip & L2). split.
      + apply FaultRefines_cons. exists sg1. split; [exact St|exact FR].
      + exists m2, sgf. split; [reflexivity|]. split; [exact (possible_step _ _ _ _ _ _ St Ip)|exact L2].
  Qed.

  (* what FaultRefines gives *)
  Lemma FaultRefines_length : forall ops sg outs, FaultRefines sg ops outs -> length outs = length ops.
  Proof.
    induction ops as [|o ops IH]; intros sg [|x outs] FR; try contradiction FR; [reflexivity|].
    apply FaultRefines_cons in FR. destruct FR as (sg1 & _ & FR). cbn [length]. f_equal. eapply IH, FR.
  Qed.

  Lemma FaultRefines_no_panic : forall ops sg outs,
    FaultRefines sg ops outs -> ~ In (OutErr EPanic) outs.
  Proof.
    induction ops as [|o ops IH]; intros sg [|x outs] FR; try contradiction FR; [intros []|].
    apply FaultRefines_cons in FR. destruct FR as (sg1 & St & FR).
    intros [Ix|Ix]; [exact (StepTo_no_panic _ _ _ _ St Ix)|exact (IH _ _ FR Ix)].
  Qed.

  (* every output is that of the specification on a possible map, or (mutating calls only) a
     reported error; in particular every read returns what SOME possible map holds *)
  Lemma FaultRefines_outputs : forall ops sg outs, FaultRefines sg ops outs ->
    forall i o x, nth_error ops i = Some o -> nth_error outs i = Some x ->
    (exists sgi, In sgi (possible_maps sg (firstn i ops)) /\ x = spec_out sgi o) \/
    (mutating o = true /\ exists e, x = OutErr e /\ e <> EPanic).
  Proof.
    induction ops as [|o0 ops IH]; intros sg [|x0 outs] FR; try contradiction FR; intros i o x Eo Ex.
    - destruct i; discriminate.
    - apply FaultRefines_cons in FR. destruct FR as (sg1 & St & FR).
      destruct i as [|i]; cbn [nth_error firstn] in *.
      + inversion Eo; inversion Ex; subst.
        destruct St as [[E _]|(Mu & Ee & _)]; [left|now right].
        exists sg. split; [now left|exact E].
      + destruct (IH _ _ FR i o x Eo Ex) as [(sgi & Ii & Es)|R]; [left|now right].
        exists sgi. split; [exact (possible_step _ _ _ _ _ _ St Ii)|exact Es].
  Qed.

  Corollary FaultRefines_reads : forall ops sg outs, FaultRefines sg ops outs ->
    forall i o x, nth_error ops i = Some o -> nth_error outs i = Some x -> mutating o = false ->
    exists sgi, In sgi (possible_maps sg (firstn i ops)) /\ x = spec_out sgi o.
  Proof.
    intros ops sg outs FR i o x Eo Ex M.
    destruct (FaultRefines_outputs ops sg outs FR i o x Eo Ex) as [R|[M' _]]; [exact R|congruence].
  Qed.

  (* a possible map differs from the fault-free one only on the keys of mutating calls: a key
     that no put / remove names and that no remove_range covers keeps its content *)
  Definition op_touches (o : op) (k : bytes) : Prop :=
    match o with
    | OpPut k' _ | OpRemove k' => k' = k
    | OpRemoveRange lo hi => in_range cmp lo hi k = true
    | _ => False
    end.

  Lemma spec_step_untouched : forall sg o k, sorted cmp sg -> ~ op_touches o k ->
    sm_get cmp (spec_step cmp sg o) k = sm_get cmp sg k.
  Proof.
    intros sg o k S N. destruct o; cbn [spec_step op_touches] in *; try reflexivity.
    - apply (KX get_ins_other); [|exact S]. intros E. apply N. now symmetry.
    - apply (KX get_del_other); [|exact S]. intros E. apply N. now symmetry.
    - destruct (nonempty sg && range_panics cmp lo hi); [reflexivity|].
      rewrite (KX get_filter _ _ _ S). cbn [fst].
      destruct (in_range cmp lo hi k); [contradiction N; reflexivity|].
      destruct (sm_get cmp sg k); reflexivity.
  Qed.

  Lemma spec_step_sorted : forall sg o, sorted cmp sg -> sorted cmp (spec_step cmp sg o).
  Proof.
    intros sg o S. destruct o; cbn [spec_step]; try exact S.
    - now apply (KX sorted_ins).
    - now apply (KX sorted_del).
    - destruct (nonempty sg && range_panics cmp lo hi); [exact S|]. now apply (KX sorted_filter).
  Qed.

  Theorem possible_maps_untouched : forall ops sg sgf k, sorted cmp sg ->
    In sgf (possible_maps sg ops) -> (forall o, In o ops -> ~ op_touches o k) ->
    sm_get cmp sgf k = sm_get cmp sg k.
  Proof.
    induction ops as [|o ops IH]; intros sg sgf k S Ip N; cbn [possible_maps] in Ip.
    - destruct Ip as [<-|[]]. reflexivity.
    - assert (No : ~ op_touches o k) by (apply N; now left).
      assert (Nr : forall o', In o' ops -> ~ op_touches o' k) by (intros o' I'; apply N; now right).
      apply in_app_or in Ip. destruct Ip as [Ip|Ip].
      + rewrite (IH _ _ k (spec_step_sorted sg o S) Ip Nr). now apply spec_step_untouched.
      + destruct (mutating o); [|contradiction]. exact (IH _ _ k S Ip Nr).
  Qed.

  (* from an open handle in a consistent state, in ANY world (any fault plan, any position of
     the fault, in fact any number of failing calls): no output is a panic, every output is the
     specified one for a possible map or a reported error, reads are always answered from a
     possible map, and the handle ends in a consistent state for a possible map.
     PARTIAL: one process lifetime only; the reopen clause of C14 is false (F4). *)
  Theorem C14_fault_contained_handle_partial : forall ops m sg os w,
    LiveF m (wfs w) sg -> Forall api_op ops ->
    NoCollide (hist_contents ops ++ map snd sg) ->
    let '((outs, hd'), w') := run_ops H (Some (mkHandle cfg m os)) ops w in
    ~ In (OutErr EPanic) outs /\
    length outs = length ops /\
    (forall i o x, nth_error ops i = Some o -> nth_error outs i = Some x ->
       (exists sgi, In sgi (possible_maps sg (firstn i ops)) /\ x = spec_out sgi o) \/
       (mutating o = true /\ exists e, x = OutErr e /\ e <> EPanic)) /\
    (forall i o x, nth_error ops i = Some o -> nth_error outs i = Some x -> mutating o = false ->
       exists sgi, In sgi (possible_maps sg (firstn i ops)) /\ x = spec_out sgi o) /\
    exists m' sgf, hd' = Some (mkHandle cfg m' os) /\
                   In sgf (possible_maps sg ops) /\ LiveF m' (wfs w') sgf.
  (* with every hypothesis of the section *)
  Proof using H H_len H_byte cfg n_pos.
    intros ops m sg os w L A NC. pose proof (run_fault ops m sg os w L A NC) as R.
    destruct (run_ops H (Some (mkHandle cfg m os)) ops w) as [[outs hd'] w'].
    destruct R as [FR E]. split; [exact (FaultRefines_no_panic _ _ _ FR)|].
    split; [exact (FaultRefines_length _ _ _ FR)|].
    split; [exact (FaultRefines_outputs _ _ _ FR)|].
    split; [exact (FaultRefines_reads _ _ _ FR)|exact E].
  Qed.

  Definition with_fault (w : world) (fault : option nat) : world :=
    mkWorld (wfs w) (wtrace w) (wcount w) fault.

  (* from a fresh directory: open, then any history of API calls under any fault plan whose
     fault falls after the open (n counts from the beginning of the process; faults during the
     open make the open itself fail, there is no handle then) *)
  Theorem C14_fault_contained_memory_partial :
    exists m os w0,
      open_with_recover H cfg (init_world empty_fs None) = (Ok (m, os), w0) /\
      forall fault ops, Forall api_op ops -> NoCollide (hist_contents ops) ->
        let '((outs, hd'), w') :=
          run_ops H (Some (mkHandle cfg m os)) ops (with_fault w0 fault) in
        ~ In (OutErr EPanic) outs /\
        length outs = length ops /\
        (forall i o x, nth_error ops i = Some o -> nth_error outs i = Some x ->
           (exists sgi, In sgi (possible_maps [] (firstn i ops)) /\ x = spec_out sgi o) \/
           (mutating o = true /\ exists e, x = OutErr e /\ e <> EPanic)) /\
        (forall i o x, nth_error ops i = Some o -> nth_error outs i = Some x ->
           mutating o = false ->
           exists sgi, In sgi (possible_maps [] (firstn i ops)) /\ x = spec_out sgi o) /\
        exists m' sgf, hd' = Some (mkHandle cfg m' os) /\
                       In sgf (possible_maps [] ops) /\ LiveF m' (wfs w') sgf.
  Proof.
    destruct (open_fresh_any H cfg n_pos) as (m & os & w0 & E & _ & _ & L0 & _).
    exists m, os, w0. split; [exact E|]. intros fault ops A NC.
    apply (C14_fault_contained_handle_partial ops m [] os (with_fault w0 fault)).
    - cbn [with_fault wfs]. apply Live0_LiveF. now apply (LiveP_Live0 H cfg).
    - exact A.
    - now rewrite app_nil_r.
  Qed.

  (* the fault plan installed from the very beginning *)
  Definition DirsUp (s : fs) : Prop :=
    has_dir s [s_staging] = true /\ has_dir s [s_cas] = true.

  Lemma dirsup_keeps : forall c, call_keeps DirsUp c.
  Proof.
    intros c s s' [D1 D2] E. split; [exact (has_dir_keeps _ c _ _ D1 E)|exact (has_dir_keeps _ c _ _ D2 E)].
  Qed.

  Lemma pre_create_all_hoare : forall (P : fs -> Prop), (forall d, call_keeps P (CMkdir d)) ->
    Hoare P pre_create_all
          (fun r s => P s /\ match r with Ok _ => PreDirs s | Err _ => True end).
  Proof.
    intros P K. unfold pre_create_all. eapply hoare_post; [|apply (mkdirs_pre_hoare _ P K)].
    intros [u|e] s [Ps X]; split; auto. intros i j I J. apply X, in_pre_list. now split.
  Qed.

  (* first-time initialisation under ANY fault plan: the open either fails with a reported
     error (never a panic) or yields a consistent empty handle.  Either choice of
     pre_create_cas_dirs: with c_pre cfg = true a fault may hit any of the mkdir calls of the
     fan-out tree; the open then fails with ECasDir before the settings file is written *)
  Theorem open_fresh_fault :
    Hoare (fun s => files s = []) (open_with_recover H cfg)
          (fun r s => match r with
                      | Ok (m, os) => LiveF m s []
                      | Err e => e <> EPanic
                      end).
  Proof.
    unfold open_with_recover.
    set (Emp := Absent (fun q => q <> PLock)).
    set (NoMeta := Absent (fun q => q = PIndex \/ exists i, q = PWal i)).
    assert (KEmp : forall c, (c = CCreate PLock \/ exists d, c = CMkdir d) -> call_keeps Emp c).
    { intros c Hc. apply absent_keeps. intros q Nq.
      destruct Hc as [->|[d ->]]; cbn [call_avoids]; [|reflexivity]. now rewrite path_eqb_neq. }
    (* 1. staging/ *)
    eapply hoare_bind.
    { eapply hoare_pre; [|apply (mkdir_p_hoare Emp), KEmp; right; now eexists].
      intros s Fs q _. unfold fget. now rewrite Fs. }
    intros [u1|e]; [|apply hoare_ret; intros; discriminate].
    (* 2. cas/ *)
    eapply hoare_bind.
    { apply (mkdir_p_hoare (fun s => Emp s /\ has_dir s [s_staging] = true) [s_cas]).
      apply keeps_and; [apply KEmp; right; now eexists|apply has_dir_keeps]. }
    intros [u2|e]; [|apply hoare_ret; intros; discriminate].
    (* 3. the lock file *)
    eapply hoare_bind with (R := fun _ s => Emp s /\ DirsUp s).
    { apply hoare_call.
      - intros s s' [[Es D1] D2] E. split; [exact (KEmp _ (or_introl eq_refl) _ _ Es E)|].
        exact (dirsup_keeps _ _ _ (conj D1 D2) E).
      - intros s e [[Es D1] D2]. split; [exact Es|now split]. }
    intros [u3|e]; [|apply hoare_ret; intros; discriminate].
    (* 4. no settings file yet *)
    eapply hoare_bind with (R := fun sf s => (NoMeta s /\ DirsUp s) /\ sf = None).
    { apply hoare_read_file. intros s [Es D].
      rewrite (Es PSettings) by discriminate. split; [|reflexivity]. split; [|exact D].
      intros q [->|[i ->]]; apply Es; discriminate. }
    intros sf. apply hoare_pure. intros ->.
    set (P5 := fun s => NoMeta s /\ DirsUp s).
    assert (K5 : forall c, call_avoids PIndex c = true -> (forall i, call_avoids (PWal i) c = true) ->
                           call_keeps P5 c).
    { intros c A1 A2. apply keeps_and; [|apply dirsup_keeps].
      apply absent_keeps. intros q [->|[i ->]]; [exact A1|exact (A2 i)]. }
    set (PD := fun s => c_pre cfg = true -> PreDirs s).
    assert (KD : forall c, call_keeps PD c).
    { intros c. apply keeps_impl. apply PreDirs_keeps. }
    (* 5. the fan-out directories (if asked for), then the settings file is written *)
    eapply hoare_bind with
      (R := fun rs s => match rs with
                        | Ok pre => (P5 s /\ PD s) /\ pre = c_pre cfg
                        | Err e => e <> EPanic end).
    { eapply hoare_bind with
        (R := fun r s => P5 s /\ match r with Ok _ => PD s | Err _ => True end).
      { destruct (c_pre cfg) eqn:Pre.
        - eapply hoare_post; [|apply (pre_create_all_hoare P5)].
          + intros [u|e] s [Ps X]; split; auto. intros _. exact X.
          + intros d. apply K5; reflexivity.
        - apply hoare_ret. intros s Ps. split; [exact Ps|]. intros X. discriminate. }
      intros [u|e]; [|apply hoare_ret; intros; discriminate].
      eapply hoare_bind with (R := fun _ s => P5 s /\ PD s).
      { eapply hoare_pre;
          [|apply (hoare_of_pres (fun s => P5 s /\ PD s)), pres_prog, prog_atomic_write; intros;
            (apply keeps_and; [apply K5; reflexivity|apply KD])].
        intros s X. exact X. }
      intros [u'|e]; apply hoare_ret; [intros s Ps; split; [exact Ps|reflexivity]|intros; discriminate]. }
    intros [pre|e]; [|apply hoare_ret; intros s Ne; exact Ne].
    apply hoare_pure. intros ->.
    (* 6. Index::load on a directory without index file and segments *)
    eapply hoare_bind with
      (R := fun rm s => (DirsUp s /\ PD s) /\
              match rm with
              | Ok m => m = mkMem empty_istate (mkWal (0 + 1) None) (c_pre cfg)
              | Err e => e <> EPanic
              end).
    { unfold index_load.
      eapply hoare_bind with (R := fun a s => a = s /\ (P5 s /\ PD s)); [apply hoare_get_fs; auto|].
      intros s0. apply (hoare_pre_elim (P5 s0 /\ PD s0)); [intros s [-> Ps]; exact Ps|].
      intros [[Nm _] _]. pose proof (Nm PIndex (or_introl eq_refl)) as N1.
      assert (N2 : forall i, fget s0 (PWal i) = None) by (intros i; apply Nm; right; now exists i).
      rewrite N1. cbv zeta. cbn [lpv empty_istate].
      rewrite (wal_ids_nil _ N2). cbn [sort_ids fold_right replay_segments].
      change (0 + 1 - 1) with 0. rewrite N.div_0_l by lia. rewrite (N2 0).
      change (0 <? 0) with false. cbv iota.
      eapply hoare_pre; [intros s [_ [[_ D] X]]; exact (conj D X)|].
      assert (KDD : forall c, call_keeps (fun s => DirsUp s /\ PD s) c).
      { intros c. apply keeps_and; [apply dirsup_keeps|apply KD]. }
      eapply (inv_bind _ _ _ (fun _ => True)).
      - eapply (inv_bind _ _ _ (fun _ => True)); [apply inv_call, KDD|].
        intros [u|e] _; [apply inv_call, KDD|now apply inv_ret].
      - intros [u|e] _; apply inv_ret; [reflexivity|discriminate]. }
    intros [m|e]; [|apply hoare_ret; intros s [_ Ne]; exact Ne].
    apply hoare_pure. intros ->.
    (* 7. the handle *)
    eapply hoare_bind with (R := fun _ s => DirsUp s /\ PD s); [apply hoare_get_fs; auto|].
    intros s0. apply hoare_ret. intros s [[D1 D2] X]. constructor.
    - exact I.
    - reflexivity.
    - apply C12_empty.
    - intros a b [].
    - intros k c [].
    - split; [exact D1|]. split; [exact D2|]. cbn [mpre]. intros Pm h Lh Bh.
      apply (PreDirs_WfDirs s (X Pm)). now split.
    - exact (N.le_refl 1).
  Qed.

  Lemma run_closed : forall ops w, Forall api_op ops ->
    run_ops H None ops w = ((map (fun _ => OutClosed) ops, None), w).
  Proof.
    induction ops as [|o ops IH]; intros w A; [reflexivity|].
    inversion A as [|? ? Ao Aops]; subst. cbn [run_ops map]. unfold bind at 1.
    assert (E : step H None o w = ((OutClosed, None), w)).
    { destruct o; cbn [StoreHist.api_op] in Ao; try contradiction; reflexivity. }
    rewrite E. cbn [snd fst]. unfold bind. rewrite (IH w Aops). reflexivity.
  Qed.

  (* the whole process, from an empty directory, under any fault plan: either the open itself
     fails (reported, no panic; there is no handle) or the history is contained as above.
     PARTIAL: one process lifetime, no reopen (F4). *)
  Theorem C14_from_fresh_any_fault_partial : forall fault ops,
    Forall api_op ops -> NoCollide (hist_contents ops) ->
    let '((outs, hd'), w') := run_hist H empty_fs fault (OpOpen cfg false :: ops) in
    (exists e, e <> EPanic /\ outs = OutErr e :: map (fun _ => OutClosed) ops /\ hd' = None) \/
    (exists os outs1, outs = OutOpened os :: outs1 /\
       FaultRefines [] ops outs1 /\ ~ In (OutErr EPanic) outs1 /\
       exists m' sgf, hd' = Some (mkHandle cfg m' os) /\
                      In sgf (possible_maps [] ops) /\ LiveF m' (wfs w') sgf).
  Proof.
    intros fault ops A NC. unfold run_hist. cbn [run_ops step]. unfold bind at 1. unfold bind at 1.
    pose proof (open_fresh_fault (init_world empty_fs fault) eq_refl) as O.
    destruct (open_with_recover H cfg (init_world empty_fs fault)) as [[[m os]|e] w1];
      cbn [fst snd ret] in *.
    - unfold bind at 1.
      pose proof (run_fault ops m [] os w1 O A) as R. rewrite app_nil_r in R. specialize (R NC).
      destruct (run_ops H (Some (mkHandle cfg m os)) ops w1) as [[outs1 hd2] w2].
      cbn [fst snd ret]. destruct R as [FR E]. right. exists os, outs1. split; [reflexivity|].
      split; [exact FR|]. split; [exact (FaultRefines_no_panic _ _ _ FR)|exact E].
    - unfold bind at 1. rewrite (run_closed ops w1 A). cbn [fst snd ret]. left.
      exists e. split; [exact O|]. split; reflexivity.
  Qed.
End FaultHist.

(* No hang: every program of theories/Store.v and run_ops are total Gallina functions
   (structural recursion on the list of hashes / paths / operations, no fuel), so every
   operation terminates under every fault plan by construction; there is nothing to prove. *)

Print Assumptions run_fault.
Print Assumptions C14_fault_contained_handle_partial.
Print Assumptions C14_fault_contained_memory_partial.
Print Assumptions possible_maps_untouched.
Print Assumptions open_fresh_fault.
Print Assumptions C14_from_fresh_any_fault_partial.
