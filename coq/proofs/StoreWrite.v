(* StoreWrite.v -- the write path of the store model (theories/Store.v) in fault-free worlds:
   every write operation keeps [Live0], [Clean] and [CasNamed] and records only [cas_safe]
   calls.

   In order: the path classes and [cas_safe] (what C06 says of a recorded call); the steps
   of checkpoint_inner and delete_blobs as [Step]s; [km_of] through SMapProofs'
   map_vals lemmas, [NoCollide]; [Live0_ext] (what Live0 reads of memory and filesystem),
   Clean_ext, CasNamed_ext; [log_and_apply_ok], on which every logging operation rests, with
   [CleanU] for the moment between a put's rename and its log record; [Grow] (only directories
   were made) with mkdir_p and mkdir_cas2; [Post], the result of a write operation as the
   history proofs use it; put (put_stage_ok, put_next, put_spec), remove and remove_range
   (removal_ok), checkpoint, abort; the trace reading of Post (trace_no_cas_write,
   cas_safe_meaning, put_spec_explicit). *)
From Cas Require Import History.
From CasProofs Require Import BaseProofs SMapProofs IndexProofs StoreFS StoreRun StoreInv.
From Coq Require Import ZifyBool ZifyNat ZifyN.
Open Scope N_scope.

Definition is_wal (q : path) : Prop := match q with PWal _ => True | _ => False end.
Definition is_meta (q : path) : Prop :=
  match q with PIndex | PIndexTmp | PWal _ => True | _ => False end.
Definition is_cas (q : path) : Prop := match q with PCas _ => True | _ => False end.
Definition is_staging (q : path) : Prop := match q with PStaging _ => True | _ => False end.

Definition not_cas (q : path) : Prop := match q with PCas _ => False | _ => True end.

(* C06: a recorded call never creates, opens, appends to or syncs a file under cas/; a CAS
   path only ever appears as the target of a rename from staging/ or in an unlink *)
Definition cas_safe_call (c : call) : Prop :=
  match c with
  | CMkdir _ => True
  | CCreate p | CCreateExcl p | COpenAppend p | CAppend p _ | CSync p => not_cas p
  | CRename p q => is_staging p \/ (not_cas p /\ not_cas q)
  | CUnlink _ => True
  end.
Definition cas_safe (e : tev) : Prop := match e with TCall c | TFault c => cas_safe_call c end.

Lemma len_sentinel : len sentinel = 44.
Proof. reflexivity. Qed.

Section StoreWrite.
  Variable H : bytes -> bytes.
  Hypothesis H_len : forall b, length (H b) = 32%nat.
  Hypothesis H_byte : forall b, Forall (fun x => x < 256) (H b).
  Variable cfg : config.
  Hypothesis n_pos : 0 < c_n cfg.
  Let cmp := key_cmp (c_kt cfg).

  Local Notation KX L :=
    (L cmp (key_cmp_refl _) (key_cmp_eq _) (key_cmp_antisym _) (key_cmp_trans _)) (only parsing).

  (* what a checkpoint may touch: the index file, its temporary, and WAL segments strictly
     below the segment of the last written version *)
  Definition ck_touch (m : mem) (q : path) : Prop :=
    match q with
    | PIndex | PIndexTmp => True
    | PWal i => i < seg_of cfg (nextv (mwal m) - 1)
    | _ => False
    end.

  Lemma ck_touch_meta : forall m q, ck_touch m q -> is_meta q.
  Proof. intros m [] X; exact I || exact X. Qed.

  Lemma ck_step : forall reason m w w1 w', Ran (ck_write_calls reason m) w w1 ->
    Ran (ck_prune_calls cfg reason m (wfs w1)) w1 w' -> Step (ck_touch m) (ev_on is_meta) w w'.
  Proof.
    intros reason m w w1 w' R1 R2.
    apply step_weaken with (T := ck_touch m) (P := ev_on (ck_touch m));
      [auto|intros e; apply ev_on_weaken, ck_touch_meta|].
    apply (ran_step _ _ _ _ (ran_app _ _ _ _ _ R1 R2)), ck_calls_in; [exact I|exact I|auto].
  Qed.

  Definition unlink_cas_ev (e : tev) : Prop := exists h, e = TCall (CUnlink (cas_path h)).

  Lemma delete_step : forall hs w w', Ran (delete_calls hs (wfs w)) w w' ->
    Step (blob_paths hs) unlink_cas_ev w w'.
  Proof.
    intros hs w w' R. apply (ran_step_ev _ _ _ _ _ R (delete_calls_in _ _)), Forall_forall.
    intros c Ic. apply delete_calls_incl, in_map_iff in Ic. destruct Ic as (h & <- & _). now exists h.
  Qed.

  Local Notation item_of := (item_of H).
  Local Notation km_of := (km_of H).
  Local Notation NoCollide := (NoCollide H).
  Local Notation Live0 := (Live0 H cfg).
  Local Notation Clean := (Clean H).
  Local Notation CasNamed := (CasNamed H).
  Local Notation wal_ok := (wal_ok cfg).

  (* [km_of] is [map_vals (fun _ => item_of)] by conversion: SMapProofs' lemmas apply as they are *)
  Lemma km_of_get : forall sg k, sm_get cmp (km_of sg) k = option_map item_of (sm_get cmp sg k).
  Proof. intros sg k. exact (KX get_map_vals (fun _ => item_of) sg k). Qed.

  Lemma km_of_ins : forall sg k c,
    km_of (sm_ins cmp sg k c) = sm_ins cmp (km_of sg) k (item_of c).
  Proof. intros sg k c. symmetry. exact (sm_ins_map_vals cmp (fun _ => item_of) sg k c). Qed.

  Lemma km_of_del : forall sg k, km_of (sm_del cmp sg k) = sm_del cmp (km_of sg) k.
  Proof. intros sg k. symmetry. exact (sm_del_map_vals cmp (fun _ => item_of) sg k). Qed.

  Lemma km_of_filter : forall (f : bytes -> bool) sg,
    km_of (filter (fun e => f (fst e)) sg) = filter (fun e => f (fst e)) (km_of sg).
  Proof. intros f sg. symmetry. exact (filter_map_vals (fun _ => item_of) f sg). Qed.

  Lemma In_km_of : forall sg k i,
    In (k, i) (km_of sg) <-> exists c, In (k, c) sg /\ i = item_of c.
  Proof. intros sg k i. exact (In_map_vals (fun _ => item_of) sg k i). Qed.

  Lemma km_of_keys : forall sg, map fst (km_of sg) = map fst sg.
  Proof. intros sg. exact (keys_map_vals (fun _ => item_of) sg). Qed.

  Lemma sorted_km_of : forall sg, sorted cmp sg -> sorted cmp (km_of sg).
  Proof. intros sg. exact (sorted_map_vals cmp (fun _ => item_of) sg). Qed.

  Lemma cas_path_inj : forall a b, cas_path (H a) = cas_path (H b) -> H a = H b.
  Proof.
    intros a b E. unfold cas_path in E.
    assert (E' : hexpath (H a) = hexpath (H b)) by congruence.
    apply hexpath_inj; [apply H_len|apply H_byte|apply H_len|apply H_byte|exact E'].
  Qed.

  Lemma NoCollide_incl : forall l l', (forall x, In x l -> In x l') -> NoCollide l' -> NoCollide l.
  Proof. intros l l' I N a b Ia Ib. apply N; auto. Qed.

  (* for the induction along a history o :: r started with the map sg: a = the contents of o,
     b = those of r, c = those of sg, c' = those of the map after o *)
  Lemma nocollide_head : forall a b c : list bytes, NoCollide ((a ++ b) ++ c) -> NoCollide (a ++ c).
  Proof using.
    intros a b c. apply NoCollide_incl. intros x Ix. apply in_or_app.
    destruct (in_app_or _ _ _ Ix); [left; apply in_or_app; now left|now right].
  Qed.

  Lemma nocollide_rest : forall a b c c' : list bytes, NoCollide ((a ++ b) ++ c) ->
    (forall x, In x c' -> In x a \/ In x c) -> NoCollide (b ++ c').
  Proof using.
    intros a b c c' NC Sub. eapply NoCollide_incl; [|exact NC]. intros x Ix. apply in_or_app.
    destruct (in_app_or _ _ _ Ix) as [Ib|Ic]; [left; apply in_or_app; now right|].
    destruct (Sub x Ic); [left; apply in_or_app; now left|now right].
  Qed.

  Lemma IdxInv_ext : forall i i', km i' = km i -> rc i' = rc i -> ub i' = ub i -> tb i' = tb i ->
    IdxInv cmp i -> IdxInv cmp i'.
  Proof. intros i i' K R U T. unfold IdxInv. now rewrite K, R, U, T. Qed.

  Lemma count_pos_content : forall sg h, 0 < count_refs (km_of sg) h ->
    exists k c, In (k, c) sg /\ H c = h.
  Proof.
    intros sg h P. apply count_pos_ex in P. destruct P as (k & i & I1 & E).
    apply In_km_of in I1. destruct I1 as (c & I1 & ->). now exists k, c.
  Qed.

  Lemma content_count_pos : forall sg k c, In (k, c) sg -> 0 < count_refs (km_of sg) (H c).
  Proof.
    intros sg k c I1. apply (count_pos_in (km_of sg) k (item_of c)).
    apply In_km_of. now exists c.
  Qed.

  Lemma unref_not_live : forall sg sg' h k c,
    0 < count_refs (km_of sg) h -> count_refs (km_of sg') h = 0 -> In (k, c) sg' ->
    cas_path (H c) <> cas_path h.
  Proof.
    intros sg sg' h k c Po Z Ic E. apply count_pos_content in Po. destruct Po as (k0 & c0 & _ & <-).
    apply cas_path_inj in E. pose proof (content_count_pos sg' k c Ic) as P. rewrite E, Z in P.
    exact (N.lt_irrefl 0 P).
  Qed.

  (* Live0 depends on the memory through km, rc, ub, tb, the WAL state and mpre, and on the
     filesystem through the blobs of the map, the free staging names, the directories and the
     presence of the writer's segment *)
  Lemma Live0_ext : forall m m' s s' sg,
    Live0 m s sg ->
    km (idx m') = km (idx m) -> rc (idx m') = rc (idx m) -> ub (idx m') = ub (idx m) ->
    tb (idx m') = tb (idx m) -> mwal m' = mwal m -> mpre m' = mpre m ->
    (forall k c, In (k, c) sg -> exists f, fget s' (cas_path (H c)) = Some f /\ fdata f = c) ->
    (forall i, nstage s' <= i -> fget s' (PStaging i) = None) ->
    (forall d, has_dir s d = true -> has_dir s' d = true) ->
    (let t := seg_of cfg (nextv (mwal m) - 1) in fget s (PWal t) <> None -> fget s' (PWal t) <> None) ->
    Live0 m' s' sg.
  Proof.
    intros m m' s s' sg [L1 L2 L3 L4 L5 L6 L7 L8] K R U T Wl Pr C St D Ws. constructor; try assumption.
    - now rewrite K.
    - eapply IdxInv_ext; eassumption.
    - destruct L7 as (D1 & D2 & D3). split; [auto|]. split; [auto|]. rewrite Pr.
      intros P h Lh Bh. specialize (D3 P h Lh Bh). unfold parent_ok in *.
      destruct (parent_dir (cas_path h)); auto.
    - destruct L8 as [N1 N2]. unfold StoreInv.wal_ok. rewrite Wl. split; [exact N1|].
      destruct (writer (mwal m)) as [[sgm buf]|]; [|exact I].
      destruct N2 as (B & G & N2 & N3). split; [exact B|]. split; [|now split].
      subst sgm. now apply Ws.
  Qed.

  Lemma Live0_transfer : forall m s s' sg,
    Live0 m s sg ->
    (forall k c, In (k, c) sg -> exists f, fget s' (cas_path (H c)) = Some f /\ fdata f = c) ->
    (forall i, nstage s' <= i -> fget s' (PStaging i) = None) ->
    (forall d, has_dir s d = true -> has_dir s' d = true) ->
    (forall i, fget s (PWal i) <> None -> fget s' (PWal i) <> None) ->
    Live0 m s' sg.
  Proof. intros m s s' sg L C St D Ws. apply (Live0_ext m m s s' sg L); auto. Qed.

  Lemma Clean_ext : forall s s' sg, (forall q, ~ is_meta q -> fget s' q = fget s q) ->
    Clean s sg -> Clean s' sg.
  Proof.
    intros s s' sg Same [C1 C2]. split.
    - intros comps f. rewrite Same by (intros X; exact X). apply C1.
    - intros i. rewrite Same by (intros X; exact X). apply C2.
  Qed.

  Lemma CasNamed_ext : forall s s', (forall q, ~ is_meta q -> fget s' q = fget s q) ->
    CasNamed s -> CasNamed s'.
  Proof. intros s s' Same CN comps f. rewrite Same by (intros X; exact X). apply CN. Qed.

  Definition lap_touch (q : path) : Prop := is_meta q \/ is_cas q.
  Definition lap_ev (e : tev) : Prop := ev_on is_meta e \/ unlink_cas_ev e.

  (* every blob is referenced by the old or by the new map; no staging file *)
  Definition CleanU (s : fs) (sg sg' : smap bytes) : Prop :=
    (forall comps f, fget s (PCas comps) = Some f ->
       exists k c, (In (k, c) sg \/ In (k, c) sg') /\ comps = hexpath (H c))
    /\ (forall i, fget s (PStaging i) = None).

  Lemma log_and_apply_ok : forall m s sg sg' o w,
    Live0 m s sg -> wfs w = s -> wfault w = None ->
    op_respects_sizes (idx m) o ->
    sorted cmp sg' -> km_of sg' = km_expected cmp (idx m) o -> NoCollide (map snd sg') ->
    (forall k c, In (k, c) sg' -> exists f, fget s (cas_path (H c)) = Some f /\ fdata f = c) ->
    exists m' w', log_and_apply H cfg m o w = ((Ok tt, m'), w') /\
      Step lap_touch lap_ev w w' /\
      Live0 m' (wfs w') sg' /\
      (FsWf s -> CleanU s sg sg' -> Clean (wfs w') sg') /\
      (FsWf s -> CasNamed s -> CasNamed (wfs w')).
  Proof using H_len H_byte n_pos.
    intros m s sg sg' o w [Ssg Hkm Hidx Hnc Hcas Hst Hdirs Hwal] Ws F Hop Ssg' Kexp Nc' Hcas'.
    subst s. destruct Hwal as [Nv Hwr].
    destruct (KX C12_apply (idx m) o Hidx Hop) as (i' & un & Eap & Inv' & Ki' & _ & _ & Hun).
    destruct (log_and_apply_run H cfg m o i' un w F) as (w1 & w2 & w3 & w' & E & R1 & R2 & R3 & R4);
      [|exact Eap|].
    { destruct (writer (mwal m)) as [[sgm buf]|]; [|exact I]. tauto. }
    destruct (lap_res_same cfg m i') as (K3 & Rc3 & U3 & T3 & W3 & P3).
    exists (lap_res cfg m i'), w'. split; [exact E|].
    set (m1 := lap_mem cfg m i') in *. set (sgn := seg_of cfg (nextv (mwal m))) in *.
    pose proof (ran_step is_wal _ _ _ R1 (append_op_calls_in _ _ _ _ _ (fun _ => I))) as S1.
    pose proof (wal_write_present _ _ _ _ _ R1) as G1. fold sgn in G1.
    pose proof (delete_step _ _ _ R2) as S2.
    assert (S3 : Step (ck_touch m1) (ev_on is_meta) w2 w').
    { destruct (lap_rolled cfg (mwal m)); [exact (ck_step _ _ _ _ _ R3 R4)|].
      apply ran_nil_inv in R3, R4. subst w3 w'. apply step_refl, (step_fault S2). }
    assert (Rz : forall h, In h un -> count_refs (km_of sg') h = 0).
    { intros h Ih. apply Hun in Ih. now rewrite Kexp, <- Ki'. }
    assert (FQ : forall q, is_meta q \/ blob_paths un q \/ fget (wfs w') q = fget (wfs w) q).
    { intros q. destruct (step_get S1 q) as [X|X1]; [left; destruct q; try contradiction; exact I|].
      destruct (step_get S2 q) as [X|X2]; [right; now left|].
      destruct (step_get S3 q) as [X|X3]; [left; eapply ck_touch_meta; exact X|].
      right; right. congruence. }
    assert (Gone : FsWf (wfs w) -> forall h, In h un -> fget (wfs w') (cas_path h) = None).
    { intros W h Ih. rewrite (step_off S3) by (intros X; exact X).
      exact (delete_calls_gone _ _ _ (step_wf S1 W) (ran_okc _ _ _ R2) h Ih). }
    assert (Stg : forall i, fget (wfs w') (PStaging i) = fget (wfs w) (PStaging i)).
    { intros i. destruct (FQ (PStaging i)) as [X|[(h & _ & X)|X]];
        [contradiction|discriminate|exact X]. }
    split.
    { eapply step_trans; [|eapply step_trans].
      - eapply step_weaken; [| |exact S1].
        + intros q X. left. destruct q; try contradiction; exact I.
        + intros e X. left. eapply ev_on_weaken; [|exact X].
          intros q Y. destruct q; try contradiction; exact I.
      - eapply step_weaken; [| |exact S2].
        + intros q (h & _ & ->). right. exact I.
        + intros e X. now right.
      - eapply step_weaken; [| |exact S3].
        + intros q X. left. eapply ck_touch_meta; exact X.
        + intros e X. now left. }
    split.
    { constructor.
      - exact Ssg'.
      - rewrite K3, Ki'. symmetry. exact Kexp.
      - eapply IdxInv_ext; [exact K3|exact Rc3|exact U3|exact T3|exact Inv'].
      - exact Nc'.
      - intros k c Ic. destruct (Hcas' k c Ic) as (f & Gf & Df). exists f. split; [|exact Df].
        destruct (FQ (cas_path (H c))) as [X|[(h & Ih & X)|X]]; [contradiction| |now rewrite X].
        exfalso. apply (unref_not_live sg sg' h k c); [|now apply Rz|exact Ic|exact X].
        apply Hun in Ih. now rewrite <- Hkm.
      - intros i Li. rewrite Stg. apply Hst.
        now rewrite <- (step_nstage S1), <- (step_nstage S2), <- (step_nstage S3).
      - destruct Hdirs as (D1 & D2 & D3). unfold dirs_ok, has_dir, parent_ok, has_dir in *.
        rewrite (step_dirs S3), (step_dirs S2), (step_dirs S1), P3. auto.
      - unfold StoreInv.wal_ok. rewrite W3. unfold m1. cbn [lap_mem mwal nextv writer].
        rewrite N.add_sub. split; [clear - Nv; lia|].
        split; [reflexivity|]. split; [|split; [clear - Nv; lia|reflexivity]].
        rewrite (step_off S3), (step_off S2); [exact G1|intros (h & _ & X); discriminate|].
        unfold ck_touch, m1. cbn [lap_mem mwal nextv].
        rewrite N.add_sub. fold sgn. apply N.lt_irrefl. }
    split.
    { intros W [C1 C2]. split.
      - intros comps f Gf.
        destruct (FQ (PCas comps)) as [X|[(h & Ih & X)|X]]; [contradiction| |].
        + rewrite X, (Gone W h Ih) in Gf. discriminate.
        + rewrite X in Gf. destruct (C1 comps f Gf) as (k & c & [Ic|Ic] & ->); [|now exists k, c].
          destruct (N.eq_dec (count_refs (km i') (H c)) 0) as [Z|Z].
          * exfalso. assert (Ih : In (H c) un).
            { apply Hun. split; [|exact Z]. rewrite Hkm. eapply content_count_pos; exact Ic. }
            pose proof (Gone W _ Ih) as Gn. unfold cas_path in Gn. rewrite Gn in X.
            rewrite <- X in Gf. discriminate.
          * rewrite Ki', <- Kexp in Z.
            destruct (count_pos_content sg' (H c)) as (k2 & c2 & I2 & E2'); [now apply N.neq_0_lt_0|].
            exists k2, c2. split; [exact I2|now rewrite E2'].
      - intros i. rewrite Stg. apply C2. }
    { intros W CN comps f Gf.
      destruct (FQ (PCas comps)) as [X|[(h & Ih & X)|X]]; [contradiction| |].
      - rewrite X, (Gone W h Ih) in Gf. discriminate.
      - rewrite X in Gf. now apply CN. }
  Qed.

  Definition mkdir_ev (e : tev) : Prop := exists d, e = TCall (CMkdir d).

  (* files and staging counter unchanged, directories only grow *)
  Record Grow (w w' : world) : Prop := mkGrow {
    gr_ext : Ext mkdir_ev w w';
    gr_files : files (wfs w') = files (wfs w);
    gr_nstage : nstage (wfs w') = nstage (wfs w);
    gr_dirs : forall d, has_dir (wfs w) d = true -> has_dir (wfs w') d = true
  }.

  Lemma grow_refl : forall w, wfault w = None -> Grow w w.
  Proof. intros w F. constructor; auto. now apply ext_refl. Qed.

  Lemma grow_trans : forall w1 w2 w3, Grow w1 w2 -> Grow w2 w3 -> Grow w1 w3.
  Proof.
    intros w1 w2 w3 [E1 F1 N1 D1] [E2 F2 N2 D2]. constructor.
    - eapply ext_trans; eassumption.
    - congruence.
    - congruence.
    - auto.
  Qed.

  Lemma grow_fget : forall w w' q, Grow w w' -> fget (wfs w') q = fget (wfs w) q.
  Proof. intros w w' q G. unfold fget. now rewrite (gr_files _ _ G). Qed.

  Lemma ran_grow : forall cs w w', Ran cs w w' -> Forall is_mkdir cs -> Grow w w'.
  Proof.
    intros cs w w' R M. destruct (okc_mkdirs _ _ _ M (ran_okc _ _ _ R)) as (Fi & Ns & Ds).
    constructor; [|exact Fi|exact Ns|intros d X; apply Ds; now left].
    apply (ran_ext _ _ _ _ R). eapply Forall_impl; [|exact M].
    intros [d| | | | | | |] X; try contradiction. now exists d.
  Qed.

  Lemma mkdir_p_ok : forall d w, wfault w = None ->
    (removelast d = [] \/ has_dir (wfs w) (removelast d) = true) ->
    exists w', mkdir_p d w = (Ok tt, w') /\ Grow w w' /\ has_dir (wfs w') d = true.
  Proof.
    intros d w F Par. destruct (mkdir_p_does d w F Par) as (w' & E & R).
    exists w'. split; [exact E|]. split; [exact (ran_grow _ _ _ R (mkdir_calls_mkdir _ _))|].
    exact (proj1 (mkdir_calls_eff _ _ _ (ran_okc _ _ _ R))).
  Qed.

  Lemma mkdir_cas2_ok2 : forall a b w, wfault w = None -> has_dir (wfs w) [s_cas] = true ->
    exists w', mkdir_cas2 a b w = (Ok tt, w') /\ Grow w w' /\
               has_dir (wfs w') [s_cas; a] = true /\ has_dir (wfs w') [s_cas; a; b] = true.
  Proof.
    intros a b w F Hc. unfold mkdir_cas2.
    destruct (mkdir_p_ok [s_cas; a] w F (or_intror Hc)) as (w1 & E1 & G1 & D1).
    rewrite (bind_eq _ _ _ _ _ E1).
    destruct (mkdir_p_ok [s_cas; a; b] w1 (proj1 (gr_ext _ _ G1)) (or_intror D1))
      as (w2 & E2 & G2 & D2).
    exists w2. split; [exact E2|]. split; [exact (grow_trans _ _ _ G1 G2)|].
    split; [exact (gr_dirs _ _ G2 _ D1)|exact D2].
  Qed.

  Lemma lap_ev_safe : forall e, lap_ev e -> cas_safe e.
  Proof.
    intros e [X|(h & ->)]; [|exact I].
    destruct e as [c|c]; [|contradiction]. destruct c; cbn in *; try exact I;
      try (destruct p; try contradiction; exact I).
    destruct X as [X Y]. right. destruct p; try contradiction; destruct q; try contradiction;
      split; exact I.
  Qed.

  (* the result of a write operation, for the caller *)
  Definition Post (s : fs) (sg : smap bytes) (w w' : world) (m' : mem) (sg' : smap bytes) : Prop :=
    Ext cas_safe w w' /\ Live0 m' (wfs w') sg' /\
    (FsWf s -> FsWf (wfs w')) /\
    (FsWf s -> Clean s sg -> Clean (wfs w') sg') /\
    (FsWf s -> CasNamed s -> CasNamed (wfs w')).

  Lemma mkdir_ev_safe : forall e, mkdir_ev e -> cas_safe e.
  Proof. intros e (d & ->). exact I. Qed.

  Lemma put_stage_calls_safe : forall m chunks s,
    Forall (fun c => cas_safe (TCall c)) (put_stage_calls H cfg m chunks s).
  Proof.
    intros m chunks s. unfold put_stage_calls. cbv zeta. constructor; [exact I|].
    apply Forall_app. split; [destruct (concat chunks); repeat constructor|].
    apply Forall_app. split; [destruct (c_sync cfg); repeat constructor|].
    apply Forall_app. split; [|repeat constructor; now left].
    destruct (mpre m); [constructor|]. apply Forall_app.
    split; unfold mkdir_calls; destruct (has_dir _ _); repeat constructor.
  Qed.

  Lemma put_stage_ok : forall m s sg k chunks w,
    Live0 m s sg -> wfs w = s -> wfault w = None ->
    NoCollide (concat chunks :: map snd sg) ->
    let c := concat chunks in
    let sg' := sm_ins cmp sg k c in
    exists w5,
      put H cfg m k chunks w = log_and_apply H cfg m (RPut k (H c) (len c)) w5 /\
      Ext cas_safe w w5 /\
      Live0 m (wfs w5) sg /\
      (forall k' c', In (k', c') sg' ->
         exists f, fget (wfs w5) (cas_path (H c')) = Some f /\ fdata f = c') /\
      (FsWf s -> FsWf (wfs w5)) /\
      (FsWf s -> Clean s sg -> CleanU (wfs w5) sg sg') /\
      (FsWf s -> CasNamed s -> CasNamed (wfs w5)) /\
      (forall r, not_cas r -> ~ is_staging r -> fget (wfs w5) r = fget s r).
  Proof using H_len H_byte n_pos.
    intros m s sg k chunks w L Ws F NC c sg'. subst s sg'.
    pose proof L as [Ssg Hkm Hidx Hnc Hcas Hst Hdirs Hwal]. destruct Hdirs as (D1 & D2 & D3).
    set (p := PStaging (nstage (wfs w))). set (q := cas_path (H c)).
    destruct (hexpath_shape (H c) (H_len c) (H_byte c)) as (xa & xb & xc & Hp & _).
    destruct (put_stage_does H cfg m k chunks xa xb xc w F D1) as (w5 & E & R).
    { apply Hst, N.le_refl. }
    { destruct (mpre m); [exact (D3 eq_refl (H c) (H_len c) (H_byte c))|exact D2]. }
    { exact Hp. }
    exists w5. split; [exact E|].
    destruct (put_stage_calls_eff H cfg m chunks _ _ (ran_okc _ _ _ R)) as (Fq & Fo & Fp & Nst5 & Dirs5).
    fold c p q in Fq, Fo, Fp.
    assert (Cas5 : forall c', (c' = c \/ exists k', In (k', c') sg) ->
              exists f, fget (wfs w5) (cas_path (H c')) = Some f /\ fdata f = c').
    { intros c' Hc'. destruct (path_eq_dec (cas_path (H c')) q) as [Eq|Nq].
      - assert (c' = c).
        { apply cas_path_inj in Eq. destruct Hc' as [->|(k' & Ik)]; [reflexivity|].
          apply NC; [right; apply in_map_iff; now exists (k', c')|now left|exact Eq]. }
        subst c'. rewrite Eq. exact Fq.
      - destruct Hc' as [->|(k' & Ik)]; [now contradiction Nq|].
        rewrite Fo; [now apply (Hcas k')|discriminate|exact Nq]. }
    split; [exact (ran_ext _ _ _ _ R (put_stage_calls_safe _ _ _))|].
    split.
    { eapply Live0_transfer; [exact L| | |exact Dirs5|].
      - intros k' c' Ik. apply Cas5. right. now exists k'.
      - intros i Li. rewrite Nst5 in Li. rewrite Fo; [apply Hst; clear - Li; lia| |discriminate].
        intros X. injection X as ->. clear - Li. lia.
      - intros i Gi. rewrite Fo; [exact Gi|discriminate|discriminate]. }
    split.
    { intros k' c' Ik. apply Cas5. apply (In_sm_ins _) in Ik. destruct Ik as [Ik|Ik].
      - inversion Ik. now left.
      - right. now exists k'. }
    split; [intros W; apply Fp, W|].
    split.
    { intros W [C1 C2]. split.
      - intros comps f Gf. destruct (path_eq_dec (PCas comps) q) as [Eq|Nq].
        + exists k, c. split.
          * right. apply (KX In_ins_iff _ _ _ _ _ Ssg). now left.
          * unfold q, cas_path in Eq. congruence.
        + rewrite Fo in Gf; [|discriminate|exact Nq].
          destruct (C1 comps f Gf) as (k' & c' & Ik & Ec'). exists k', c'. split; [now left|exact Ec'].
      - intros i. destruct (N.eq_dec i (nstage (wfs w))) as [->|Ni]; [now apply Fp|].
        rewrite Fo; [apply C2| |discriminate]. intros X. inversion X. contradiction. }
    split.
    { intros W CN comps f Gf. destruct (path_eq_dec (PCas comps) q) as [Eq|Nq].
      - destruct Fq as (f3 & Gq & Df3). rewrite Eq, Gq in Gf. inversion Gf; subst f. rewrite Df3.
        unfold q, cas_path in Eq. congruence.
      - rewrite Fo in Gf; [|discriminate|exact Nq]. now apply CN. }
    intros r Nc Ns. apply Fo; [intros ->; apply Ns; exact I|intros ->; exact Nc].
  Qed.

  Lemma Post_refl : forall m s sg w, Live0 m s sg -> wfs w = s -> wfault w = None ->
    Post s sg w w m sg.
  Proof.
    intros m s sg w L <- F. split; [now apply ext_refl|]. split; [exact L|]. split; [auto|split; auto].
  Qed.

  Lemma ins_contents : forall (sg : smap bytes) k c, incl (map snd (sm_ins cmp sg k c)) (c :: map snd sg).
  Proof.
    intros sg k c x Ix. apply in_map_iff in Ix. destruct Ix as ([k' c'] & <- & Ik).
    apply (In_sm_ins _) in Ik. destruct Ik as [Ik|Ik].
    - inversion Ik. now left.
    - right. apply in_map_iff. now exists (k', c').
  Qed.

  (* what log_and_apply asks of a put: the sizes agree; the map with the new entry is sorted, is
     the one the index will hold, and is free of collisions *)
  Lemma put_next : forall m sg k c, sorted cmp sg -> km (idx m) = km_of sg ->
    NoCollide (c :: map snd sg) ->
    let sg' := sm_ins cmp sg k c in
    op_respects_sizes (idx m) (RPut k (H c) (len c)) /\ sorted cmp sg' /\
    km_of sg' = km_expected cmp (idx m) (RPut k (H c) (len c)) /\ NoCollide (map snd sg').
  Proof using.
    intros m sg k c Ssg Hkm NC sg'. split; [|split; [|split]].
    - intros k' i Ik Eh. rewrite Hkm in Ik. apply In_km_of in Ik. destruct Ik as (c' & Ic & ->).
      cbn [StoreInv.item_of ihash isize] in *.
      assert (c' = c); [|now subst].
      apply NC; [right; apply in_map_iff; now exists (k', c')|now left|exact Eh].
    - apply (KX sorted_ins), Ssg.
    - unfold sg'. rewrite km_of_ins. cbn [km_expected]. now rewrite Hkm.
    - exact (NoCollide_incl _ _ (ins_contents sg k c) NC).
  Qed.

  (* C01/C07/C06/C18 for put *)
  Theorem put_spec : forall m s sg k chunks w,
    Live0 m s sg -> wfs w = s -> wfault w = None ->
    NoCollide (concat chunks :: map snd sg) ->
    exists m' w', put H cfg m k chunks w = ((Ok tt, m'), w') /\ wfault w' = None /\
                  Post s sg w w' m' (sm_ins cmp sg k (concat chunks)).
  Proof.
    intros m s sg k chunks w L Ws F NC.
    destruct (put_stage_ok m s sg k chunks w L Ws F NC) as (w5 & E & X5 & L5 & C5 & W5 & U5 & N5 & _).
    destruct (put_next m sg k (concat chunks) (lv_sorted _ _ _ _ _ L) (lv_km _ _ _ _ _ L) NC)
      as (Hop & Ss' & Ke & Nc').
    cbv zeta in *. set (c := concat chunks) in *. set (sg' := sm_ins cmp sg k c) in *.
    destruct (log_and_apply_ok m (wfs w5) sg sg' (RPut k (H c) (len c)) w5 L5 eq_refl (proj1 X5)
                Hop Ss' Ke Nc' C5) as (m' & w' & E' & S' & L' & U' & N').
    exists m', w'. rewrite E. split; [exact E'|]. split; [exact (step_fault S')|].
    split; [|split; [exact L'|]].
    - eapply ext_trans; [exact X5|]. eapply ext_weaken; [|exact (step_ext _ _ _ _ S')].
      apply lap_ev_safe.
    - split; [|split].
      + intros W. apply (step_wf S'), W5, W.
      + intros W C. apply U'; [now apply W5|now apply U5].
      + intros W C. apply N'; [now apply W5|now apply N5].
  Qed.

  Lemma removal_ok : forall m s sg sg' ks w,
    Live0 m s sg -> wfs w = s -> wfault w = None ->
    sorted cmp sg' -> (forall e, In e sg' -> In e sg) ->
    km_of sg' = fold_left (fun mm k => sm_del cmp mm k) ks (km_of sg) ->
    exists m' w', log_and_apply H cfg m (RRemove ks) w = ((Ok tt, m'), w') /\
                  Post s sg w w' m' sg'.
  Proof.
    intros m s sg sg' ks w L Ws F Ssg' Sub Kd.
    pose proof L as [Ssg Hkm _ Hnc Hcas _ _ _].
    destruct (log_and_apply_ok m s sg sg' (RRemove ks) w L Ws F)
      as (m' & w' & E' & S' & L' & U' & N'); try assumption.
    - exact I.
    - cbn [km_expected]. now rewrite Hkm.
    - eapply NoCollide_incl; [|exact Hnc]. intros x Ix. apply in_map_iff in Ix.
      destruct Ix as (e & <- & Ie). apply in_map, Sub, Ie.
    - intros k c Ik. apply (Hcas k), Sub, Ik.
    - exists m', w'. split; [exact E'|]. split; [|split; [exact L'|]].
      + eapply ext_weaken; [|exact (step_ext _ _ _ _ S')]. apply lap_ev_safe.
      + subst s. split; [|split].
        * apply (step_wf S').
        * intros W [C1 C2]. apply U'; [exact W|]. split; [|exact C2].
          intros comps f Gf. destruct (C1 comps f Gf) as (k & c & Ik & Ec). exists k, c. tauto.
        * exact N'.
  Qed.

  Theorem remove_spec : forall m s sg k w,
    Live0 m s sg -> wfs w = s -> wfault w = None ->
    exists m' w',
      remove H cfg m k w
      = ((Ok (match sm_get cmp sg k with Some _ => true | None => false end), m'), w') /\
      wfault w' = None /\ Post s sg w w' m' (sm_del cmp sg k) /\
      (sm_get cmp sg k = None -> m' = m /\ w' = w).
  Proof.
    intros m s sg k w L Ws F. pose proof L as [Ssg Hkm _ _ _ _ _ _].
    unfold remove. fold cmp. rewrite Hkm, km_of_get.
    destruct (sm_get cmp sg k) as [c0|] eqn:G; cbn [option_map].
    - destruct (removal_ok m s sg (sm_del cmp sg k) [k] w L Ws F) as (m' & w' & E' & P').
      + apply (KX sorted_del), Ssg.
      + intros e. apply (In_sm_del _).
      + cbn [fold_left]. apply km_of_del.
      + exists m', w'. rewrite (bind_eq _ _ _ _ _ E'). split; [reflexivity|].
        split; [exact (proj1 (proj1 P'))|]. split; [exact P'|discriminate].
    - exists m, w. split; [reflexivity|]. split; [exact F|].
      rewrite (sm_del_absent _ _ _ G). split; [now apply Post_refl|auto].
  Qed.

  Lemma fold_del_filter : forall {V} (f : bytes -> bool) (M : smap V), sorted cmp M ->
    fold_left (fun mm k => sm_del cmp mm k) (map fst (filter (fun e => f (fst e)) M)) M
    = filter (fun e => negb (f (fst e))) M.
  Proof. intros V f M. exact (KX SMapProofs.fold_del_filter f M). Qed.

  Lemma km_of_del_range : forall (f : bytes -> bool) sg, sorted cmp sg ->
    km_of (filter (fun e => negb (f (fst e))) sg)
    = fold_left (fun mm k => sm_del cmp mm k) (map fst (filter (fun e => f (fst e)) sg)) (km_of sg).
  Proof.
    intros f sg Ssg. rewrite (km_of_filter (fun k => negb (f k))), <- (km_of_keys (filter _ sg)).
    rewrite (km_of_filter f). symmetry. apply (fold_del_filter f), sorted_km_of, Ssg.
  Qed.

  Lemma filter_none_all : forall {A} (f : A -> bool) l,
    filter f l = [] -> filter (fun e => negb (f e)) l = l.
  Proof.
    intros A f. induction l as [|a l IH]; cbn [filter]; [reflexivity|].
    destruct (f a); [discriminate|]. intros E. cbn [negb]. now rewrite IH.
  Qed.

  Lemma nonempty_km_of : forall sg, nonempty (km_of sg) = nonempty sg.
  Proof. intros [|[k c] sg]; reflexivity. Qed.

  Theorem remove_range_spec : forall m s sg lo hi w,
    Live0 m s sg -> wfs w = s -> wfault w = None ->
    (nonempty (km (idx m)) && range_panics cmp lo hi) = false ->
    let inr := fun e : bytes * bytes => in_range cmp lo hi (fst e) in
    exists m' w',
      remove_range H cfg m lo hi w = ((Ok (N.of_nat (length (filter inr sg))), m'), w') /\
      wfault w' = None /\
      Post s sg w w' m' (filter (fun e => negb (inr e)) sg).
  Proof.
    intros m s sg lo hi w L Ws F NP inr. pose proof L as [Ssg Hkm _ _ _ _ _ _].
    unfold remove_range. fold cmp. rewrite NP. unfold keys_in_range. fold cmp. rewrite Hkm.
    rewrite <- (km_of_filter (in_range cmp lo hi)), km_of_keys. fold inr.
    destruct (map fst (filter inr sg)) as [|k0 ks0] eqn:Eks.
    - exists m, w. apply map_eq_nil in Eks. rewrite Eks. split; [reflexivity|]. split; [exact F|].
      rewrite (filter_none_all inr sg Eks). now apply Post_refl.
    - rewrite <- Eks.
      destruct (removal_ok m s sg (filter (fun e => negb (inr e)) sg) (map fst (filter inr sg)) w
                  L Ws F) as (m' & w' & E' & P').
      + apply (KX sorted_filter), Ssg.
      + intros e Ie. apply filter_In in Ie. tauto.
      + apply (km_of_del_range (in_range cmp lo hi)), Ssg.
      + exists m', w'. rewrite (bind_eq _ _ _ _ _ E'). rewrite map_length.
        split; [reflexivity|]. split; [exact (proj1 (proj1 P'))|exact P'].
  Qed.

  Theorem checkpoint_spec : forall m s sg w,
    Live0 m s sg -> wfs w = s -> wfault w = None ->
    exists m' w', checkpoint cfg m w = ((Ok tt, m'), w') /\ wfault w' = None /\
                  Post s sg w w' m' sg.
  Proof using H_len H_byte n_pos.
    intros m s sg w L Ws F. subst s. unfold checkpoint.
    destruct (checkpoint_inner_run cfg RExplicit m w F) as (w1 & w' & E & R1 & R2).
    destruct (ck_mem_same RExplicit m) as (K & R & U & T & Wl & P).
    pose proof (ck_step _ _ _ _ _ R1 R2) as S.
    exists (ck_mem RExplicit m), w'. split; [exact E|]. split; [exact (step_fault S)|].
    assert (Same : forall q, ~ is_meta q -> fget (wfs w') q = fget (wfs w) q).
    { intros q N. apply (step_off S). intros X. apply N. eapply ck_touch_meta; exact X. }
    split; [|split; [|split; [|split]]].
    - eapply ext_weaken; [|exact (step_ext _ _ _ _ S)]. intros e X. apply lap_ev_safe. now left.
    - apply (Live0_ext m _ (wfs w) _ sg L K R U T Wl P).
      + intros k c Ik. rewrite Same by (intros X; exact X). now apply (lv_cas _ _ _ _ _ L k).
      + intros i Li. rewrite Same by (intros X; exact X). apply (lv_stage_fresh _ _ _ _ _ L).
        now rewrite <- (step_nstage S).
      + intros d. unfold has_dir. now rewrite (step_dirs S).
      + intros t. rewrite (step_off S); [auto|]. cbn [ck_touch]. apply N.lt_irrefl.
    - exact (step_wf S).
    - intros _. now apply Clean_ext.
    - intros _. now apply CasNamed_ext.
  Qed.

  (* the calls of a transaction on its own staging file *)
  Definition own_staging_ev (i : N) (e : tev) : Prop :=
    e = TCall (CCreateExcl (PStaging i)) \/ (exists b, e = TCall (CAppend (PStaging i) b)) \/
    e = TCall (CUnlink (PStaging i)).

  Theorem abort_spec : forall m s sg k chunks w,
    Live0 m s sg -> wfs w = s -> wfault w = None ->
    exists w', abort m k chunks w = ((Ok tt, m), w') /\ wfault w' = None /\
               files (wfs w') = files s /\ dirs (wfs w') = dirs s /\
               nstage (wfs w') = nstage s + 1 /\
               exists tr, wtrace w' = tr ++ wtrace w /\ Forall (own_staging_ev (nstage s)) tr.
  Proof using H_len H_byte n_pos.
    intros m s sg k chunks w L Ws F. subst s.
    destruct L as [_ _ _ _ _ Hst [D1 _] _].
    set (p := PStaging (nstage (wfs w))).
    assert (Gp : lookup (files (wfs w)) p = None) by (apply (Hst (nstage (wfs w))), N.le_refl).
    destruct (abort_does m k chunks w F D1 Gp) as (w' & E & R).
    exists w'. split; [exact E|]. split; [exact (ran_fault _ _ _ R)|].
    (* the staging file is the last entry of the file list until it is unlinked *)
    assert (X : files (wfs w') = files (wfs w) /\ dirs (wfs w') = dirs (wfs w) /\
                nstage (wfs w') = nstage (wfs w) + 1).
    { pose proof (ran_okc _ _ _ R) as A. unfold abort_calls in A. cbv zeta in A. fold p in A.
      cbn [app Okc] in A. destruct A as (s1 & E1 & A). apply okc_app_inv in A.
      destruct A as (s2 & A2 & s3 & E3 & ->).
      apply apply_call_eff in E1. destruct E1 as (_ & ->). rewrite (set_path_absent _ _ _ Gp) in A2.
      assert (X2 : exists g, s2 = mkFs (files (wfs w) ++ [(p, g)]) (dirs (wfs w)) (nstage (wfs w) + 1)).
      { destruct (bw_sim 0 chunks); cbn [Okc] in A2; [|subst s2; eexists; reflexivity].
        destruct A2 as (s2' & E2 & ->). apply apply_call_eff in E2. destruct E2 as (f & _ & ->).
        eexists. unfold upd, with_files. cbn [files dirs nstage].
        now rewrite (set_path_last _ _ _ _ Gp). }
      destruct X2 as (g & ->). apply apply_call_eff in E3. destruct E3 as (_ & ->).
      unfold del, with_files. cbn [files dirs nstage]. now rewrite (remove_path_last _ _ _ Gp). }
    destruct X as (X1 & X2 & X3). do 3 (split; [assumption|]).
    exists (rev (map TCall (abort_calls chunks (wfs w)))). split; [exact (ran_trace _ _ _ R)|].
    apply Forall_rev, Forall_map. unfold abort_calls. cbv zeta. fold p.
    constructor; [now left|]. apply Forall_app. split; [|constructor; [right; now right|constructor]].
    destruct (bw_sim 0 chunks); constructor; [right; left; now eexists|constructor].
  Qed.

  Lemma own_staging_safe : forall i e, own_staging_ev i e -> cas_safe e.
  Proof. intros i e [->|[(b & ->)| ->]]; exact I. Qed.

  Corollary abort_post : forall m s sg k chunks w,
    Live0 m s sg -> wfs w = s -> wfault w = None ->
    exists w', abort m k chunks w = ((Ok tt, m), w') /\ wfault w' = None /\ Post s sg w w' m sg.
  Proof.
    intros m s sg k chunks w L Ws F.
    destruct (abort_spec m s sg k chunks w L Ws F) as (w' & E & F' & Fi & Di & Ns & tr & Tr & A).
    exists w'. split; [exact E|]. split; [exact F'|].
    assert (G : forall q, fget (wfs w') q = fget s q) by (intros q; unfold fget; now rewrite Fi).
    split; [|split; [|split; [|split]]].
    - split; [exact F'|]. exists tr. split; [exact Tr|].
      eapply Forall_impl; [|exact A]. apply own_staging_safe.
    - eapply Live0_transfer; [exact L| | | |].
      + intros k' c' Ik. rewrite G. destruct L as [_ _ _ _ Hcas _ _ _]. now apply (Hcas k').
      + intros i Li. rewrite G. destruct L as [_ _ _ _ _ Hst _ _]. apply Hst. rewrite Ns in Li.
        clear - Li. lia.
      + intros d. unfold has_dir. now rewrite Di.
      + intros i. now rewrite G.
    - unfold FsWf. now rewrite Fi.
    - intros _ [C1 C2]. split.
      + intros comps f. rewrite G. apply C1.
      + intros i. rewrite G. apply C2.
    - intros _ CN comps f. rewrite G. apply CN.
  Qed.

  (* for put / remove / remove_range / checkpoint / abort the conjunct [Ext cas_safe w w'] of
     [Post] says: every call recorded in the new part of the trace that names a path under cas/
     is a rename from staging/ into cas/ or an unlink *)
  Theorem trace_no_cas_write : forall s sg w w' m' sg',
    Post s sg w w' m' sg' ->
    exists tr, wtrace w' = tr ++ wtrace w /\ Forall cas_safe tr.
  Proof. intros s sg w w' m' sg' [[_ X] _]. exact X. Qed.

  Lemma cas_safe_meaning : forall c, cas_safe (TCall c) ->
    match c with
    | CCreate (PCas _) | CCreateExcl (PCas _) | COpenAppend (PCas _) | CAppend (PCas _) _
    | CSync (PCas _) | CRename (PCas _) _ => False
    | CRename p (PCas _) => exists i, p = PStaging i
    | _ => True
    end.
  Proof.
    intros c X. destruct c; cbn in X; try exact I; try (destruct p; try exact I; contradiction).
    destruct p; destruct q; try exact I; try (destruct X as [X|[X Y]]; contradiction);
      try (eexists; reflexivity).
  Qed.

  Corollary put_spec_explicit : forall m s sg k chunks w,
    Live0 m s sg -> wfs w = s -> wfault w = None ->
    NoCollide (concat chunks :: map snd sg) ->
    exists m' w', put H cfg m k chunks w = ((Ok tt, m'), w') /\ wfault w' = None /\
      Live0 m' (wfs w') (sm_ins cmp sg k (concat chunks)) /\
      (FsWf s -> FsWf (wfs w')) /\
      (FsWf s -> Clean s sg -> Clean (wfs w') (sm_ins cmp sg k (concat chunks))) /\
      (FsWf s -> CasNamed s -> CasNamed (wfs w')) /\
      exists tr, wtrace w' = tr ++ wtrace w /\ Forall cas_safe tr.
  Proof.
    intros m s sg k chunks w L Ws F NC.
    destruct (put_spec m s sg k chunks w L Ws F NC) as (m' & w' & E & F' & P).
    destruct P as ([_ X] & L' & W & C & N). exists m', w'.
    exact (conj E (conj F' (conj L' (conj W (conj C (conj N X)))))).
  Qed.
End StoreWrite.

Print Assumptions log_and_apply_ok.
Print Assumptions put_spec.
Print Assumptions put_spec_explicit.
Print Assumptions remove_spec.
Print Assumptions remove_range_spec.
Print Assumptions checkpoint_spec.
Print Assumptions abort_spec.
Print Assumptions abort_post.
Print Assumptions trace_no_cas_write.
