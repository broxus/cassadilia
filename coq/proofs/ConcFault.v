(* ConcFault.v -- the fault paths of the concurrent model theories/Conc.v (obstructed blob paths
   [bad], failing checkpoints [ckbad]) and finding F6.

   F6 (fixed in the code): when delete_blobs failed after a put had been applied, the error
   path reverted the put's intent a SECOND time (apply_put_op had already released it).  The
   second release decremented the by_hash count of ANOTHER in-flight put of the same content,
   which lost its protection: a following remove of the first key deleted the blob that the
   other put was about to index -- a dangling reference.

   General theorems (arbitrary bad / ckbad, every schedule):
     C04_no_dangling_with_faults            every indexed key has its blob, of the recorded size
     C04_failed_delete_keeps_other_intents  the by_hash ledger is EXACT in every reachable state:
                                            count of h = number of threads whose put of h is
                                            registered and not yet released ([inflight])
     C04_registered_stays_protected         a step of thread t (in particular a failing unlink or
                                            a reverted intent) never unprotects the hash of an
                                            intent registered by another thread
     ConcInv_bad_mono, late_faults_inv, C04_no_dangling_late_faults
                                            the obstructions may APPEAR during the run (bad only
                                            grows): the invariant, hence C04, still holds
   By computation (toyH, lex_cmp), the F6 schedule:
     F6_fixed_run      with the model as it is (= the fixed code) thread 2's put returns CErr,
                       its remove succeeds, and thread 1's key k3 is visible with its blob present
     F6_fixed_inv      the invariant / no dangling reference for that run, from the theorems
     F6_prefix_refuted ("prefix": pre-fix) with [cstep_f6] (= cstep, except that the failing unlink
                       of a put releases the put's hash once more: the behaviour before the fix)
                       the same schedule ends with k3 visible and its blob ABSENT *)
From Cas Require Import SMap Index Conc.
From CasProofs Require Import SMapProofs IndexProofs ConcInv ConcProofs ConcExamples.
From Coq Require Import List NArith Lia Bool Arith.
Import ListNotations.
Open Scope N_scope.

(* number of threads of g whose put of hash h is registered (PILock step done) and not yet
   released (by the step leaving WApplied, or by the step leaving PDropI) *)
Definition inflight (H : bytes -> bytes) (g : cstate) (h : bytes) : N := intents H (g_thr g) h.

Section ConcFault.
  Variable H : bytes -> bytes.
  Variable cmp : bytes -> bytes -> comparison.
  Hypothesis cmp_refl : forall a, cmp a a = Eq.
  Hypothesis cmp_eq : forall a b, cmp a b = Eq -> a = b.
  Hypothesis cmp_antisym : forall a b, cmp b a = CompOpp (cmp a b).
  Hypothesis cmp_trans : forall a b c, cmp a b = Lt -> cmp b c = Lt -> cmp a c = Lt.
  Variable nops : N.
  Variable bad : bytes -> bool.
  Variable ckbad : bool.
  Variable thr0 : list (nat * list ccall).
  Hypothesis thr0_nodup : NoDup (map fst thr0).
  Variable cas0 : smap bytes.
  Hypothesis cas0_sorted : sorted lex_cmp cas0.
  Hypothesis cas0_named : forall h c, In (h, c) cas0 -> H c = h.
  Hypothesis NoCollideC :
    forall a b, In a (allc thr0 cas0) -> In b (allc thr0 cas0) -> H a = H b -> a = b.
  Collection Setting :=
    cmp_refl cmp_eq cmp_antisym cmp_trans thr0_nodup cas0_sorted cas0_named NoCollideC.

  Local Notation Reach := (reachable H cmp nops bad ckbad thr0 cas0).
  Local Notation step := (cstep H cmp nops bad ckbad).

  Local Notation at_setting L :=
    (L H cmp cmp_refl cmp_eq cmp_antisym cmp_trans nops bad ckbad thr0 thr0_nodup cas0 cas0_sorted
       cas0_named NoCollideC) (only parsing).

  (* faults do not excuse dangling references *)
  Theorem C04_no_dangling_with_faults g : Reach g ->
    forall k it, sm_get cmp (km (g_idx g)) k = Some it ->
    exists c, sm_get lex_cmp (g_cas g) (ihash it) = Some c /\ H c = ihash it /\ len c = isize it.
  Proof using Setting.
    apply C04_no_dangling; assumption.
  Qed.

  (* the by_hash ledger is exact: no error path releases an intent twice (F6) or forgets
     to release it (the reverted intent of a failed rename) *)
  Theorem C04_failed_delete_keeps_other_intents g : Reach g ->
    sorted lex_cmp (g_byhash g) /\
    forall h, sm_get lex_cmp (g_byhash g) h =
              if inflight H g h =? 0 then None else Some (inflight H g h).
  Proof using Setting.
    intros R. exact (ci_intents _ _ _ _ _ _ (at_setting reachable_inv g R)).
  Qed.

  (* every registered thread is counted *)
  Lemma inflight_pos g t ts h : tget (g_thr g) t = Some ts -> reg H (t_pc ts) h = true ->
    0 < inflight H g h.
  Proof using. apply intents_pos. Qed.

  (* hence: whatever a step of thread t does (a failing unlink, a reverted intent, ...), the
     hash of an intent registered by ANOTHER thread stays protected *)
  Theorem C04_registered_stays_protected g t g' u tsu h : Reach g -> step g t = Some g' ->
    u <> t -> tget (g_thr g) u = Some tsu -> reg H (t_pc tsu) h = true ->
    sm_get lex_cmp (g_byhash g') h <> None.
  Proof using Setting.
    intros R St N G Rg.
    assert (R' : Reach g') by (eapply reachable_step; eassumption).
    apply (registered_protected H cmp bad thr0 cas0 g' u tsu h (at_setting reachable_inv g' R')); [|exact Rg].
    rewrite (cstep_other St N). exact G.
  Qed.

  (* obstructions that appear during the run *)
  Lemma ConcInv_bad_mono bad' g : (forall x, bad x = true -> bad' x = true) ->
    ConcInv H cmp bad thr0 cas0 g -> ConcInv H cmp bad' thr0 cas0 g.
  Proof using.
    intros M I. destruct I as [A1 A2 A3 A4 A5 A6 A7 A8 A9 A10 A11 A12].
    constructor; try assumption.
    - intros t ts G. destruct (A11 t ts G) as [P C]. split; [|exact C].
      destruct (t_pc ts); cbn [pc_ok] in *; auto.
    - intros h c G. destruct (A12 h c G) as [X|[X|[X|[X|((x & Bx) & X)]]]].
      + left; exact X.
      + right; left; exact X.
      + right; right; left; exact X.
      + right; right; right; left; exact X.
      + right; right; right; right. split; [exists x; apply M, Bx|exact X].
  Qed.

  Theorem late_faults_inv bad' ckbad' g sched : (forall x, bad x = true -> bad' x = true) ->
    Reach g -> ConcInv H cmp bad' thr0 cas0 (crun H cmp nops bad' ckbad' g sched).
  Proof using Setting.
    intros M R. apply crun_inv; try assumption. apply ConcInv_bad_mono; [exact M|apply (at_setting reachable_inv), R].
  Qed.

  Corollary C04_no_dangling_late_faults bad' ckbad' g sched :
    (forall x, bad x = true -> bad' x = true) -> Reach g ->
    let g' := crun H cmp nops bad' ckbad' g sched in
    forall k it, sm_get cmp (km (g_idx g')) k = Some it ->
    exists c, sm_get lex_cmp (g_cas g') (ihash it) = Some c /\ H c = ihash it /\ len c = isize it.
  Proof using Setting.
    intros M R g' k it G.
    exact (inv_no_dangling H cmp cmp_refl cmp_eq cmp_antisym cmp_trans bad' thr0 cas0 g' k it
             (late_faults_inv bad' ckbad' g sched M R) G).
  Qed.

  (* the behaviour before the fix of F6, as a post-processing of cstep: when the unlink
     of a put fails, the error path releases the put's hash once more *)
  Definition cstep_f6 (g : cstate) (t : nat) : option cstate :=
    match cstep H cmp nops bad ckbad g t with
    | None => None
    | Some g' =>
      match tget (g_thr g) t with
      | Some ts =>
        match t_pc ts with
        | WUnlink (WPut _ h _) (x :: _) _ =>
          if bad x then
            Some (mkC (g_idx g') (g_bykey g') (release_hash (g_byhash g') h) (g_cas g') (g_nextv g')
                      (g_I g') (g_S g') (g_R g') (g_thr g'))
          else Some g'
        | _ => Some g'
        end
      | None => Some g'
      end
    end.

  Fixpoint crun_f6 (g : cstate) (sched : list nat) : cstate :=
    match sched with
    | [] => g
    | t :: r => match cstep_f6 g t with Some g' => crun_f6 g' r | None => crun_f6 g r end
    end.

  (* cstep_f6 differs from cstep only at that one exit *)
  Lemma cstep_f6_same g t :
    (forall ts k h sz x rest rolled, tget (g_thr g) t = Some ts ->
       t_pc ts = WUnlink (WPut k h sz) (x :: rest) rolled -> bad x = false) ->
    cstep_f6 g t = cstep H cmp nops bad ckbad g t.
  Proof using.
    intros A. unfold cstep_f6. destruct (cstep H cmp nops bad ckbad g t) as [g'|]; [|reflexivity].
    destruct (tget (g_thr g) t) as [ts|] eqn:Ht; [|reflexivity].
    destruct (t_pc ts) eqn:Hpc; try reflexivity.
    destruct w as [k h sz|]; [|reflexivity]. destruct todo as [|x rest]; [reflexivity|].
    rewrite (A ts k h sz x rest rolled eq_refl Hpc). reflexivity.
  Qed.
End ConcFault.

Print Assumptions C04_no_dangling_with_faults.
Print Assumptions C04_failed_delete_keeps_other_intents.
Print Assumptions C04_registered_stays_protected.
Print Assumptions late_faults_inv.
Print Assumptions C04_no_dangling_late_faults.
Print Assumptions cstep_f6_same.

(* the F6 schedule on the toy instance *)

Definition k1 : bytes := [1].
Definition k3 : bytes := [3].
Definition cX : bytes := [10].
Definition cY : bytes := [20; 21].

(* thread 0: the setup put; thread 1: put k3 Y; thread 2: put k1 Y, then remove k1 *)
Definition progF : list (nat * list ccall) :=
  [(0%nat, [KPut k1 cX]); (1%nat, [KPut k3 cY]); (2%nat, [KPut k1 cY; KRemove k1])].

Lemma progF_nodup : NoDup (map fst progF).
Proof. cbn. repeat constructor; cbn; intuition discriminate. Qed.

Lemma progF_nocollide :
  forall a b, In a (allc progF []) -> In b (allc progF []) -> toyH a = toyH b -> a = b.
Proof. apply nocollide_list_sound. vm_compute. reflexivity. Qed.

(* the path of the blob of X becomes obstructed AFTER the setup (bad is a parameter of the
   step function, so a run may continue under a larger bad: late_faults_inv) *)
Definition badX : bytes -> bool := fun h => beqb h (toyH cX).

Definition sched_setup : list nat := repeat 0%nat 9.       (* put k1 X, complete *)
Definition sched_F6 : list nat :=
  repeat 1%nat 4           (* thread 1: put k3 Y up to and including its rename; parked at put.lock_I *)
  ++ repeat 2%nat 9        (* thread 2: put k1 Y; its 9th step is the unlink of H X, which fails *)
  ++ repeat 2%nat 10       (* thread 2: remove k1, complete: 8 steps, 9 with the error path before the fix,
                              which goes on to unlink the blob of Y; a finished thread stutters *)
  ++ repeat 1%nat 5.       (* thread 1 resumes: lock_I, lock_S, append+apply, release, return *)

Definition g_F0 := crun toyH lex_cmp 100 nobad false (init_c progF []) sched_setup.
Definition g_F6 := crun toyH lex_cmp 100 badX false g_F0 sched_F6.
(* the same schedule with the pre-fix error path *)
Definition g_F6_old := crun_f6 toyH lex_cmp 100 badX false g_F0 sched_F6.

Example F6_setup :
  km (g_idx g_F0) = [(k1, mkItem (toyH cX) 1)] /\ g_cas g_F0 = [(toyH cX, cX)] /\
  g_byhash g_F0 = [] /\ g_I g_F0 = None.
Proof. vm_compute. repeat split. Qed.

(* thread 1 parked after its rename, thread 2 about to unlink the blob of X *)
Example F6_before_failure :
  let g := crun toyH lex_cmp 100 badX false g_F0 (firstn 12 sched_F6) in
  tget (g_thr g) 1%nat = Some (mkT [] (WLockI (WPut k3 (toyH cY) 2)) []) /\
  tget (g_thr g) 2%nat =
    Some (mkT [KRemove k1] (WUnlink (WPut k1 (toyH cY) 2) [toyH cX] false) []) /\
  g_byhash g = [(toyH cY, 1)] /\ g_I g = Some 2%nat.
Proof. vm_compute. repeat split. Qed.

(* the model (the fixed code): the failed delete returns CErr and leaves the intent of thread 1 alone;
   at the end k3 is visible and its blob is present (the blob of X is leaked: C07 does not hold
   after a failed deletion, C04 does) *)
Example F6_fixed_run :
  all_finished g_F6 = true /\
  tget (g_thr g_F6) 2%nat = Some (mkT [] Idle [CErr; CBool true]) /\
  tget (g_thr g_F6) 1%nat = Some (mkT [] Idle [CUnit]) /\
  km (g_idx g_F6) = [(k3, mkItem (toyH cY) 2)] /\
  sm_get lex_cmp (g_cas g_F6) (toyH cY) = Some cY /\
  sm_get lex_cmp (g_cas g_F6) (toyH cX) = Some cX /\
  g_byhash g_F6 = [] /\ g_I g_F6 = None /\ g_S g_F6 = None.
Proof. vm_compute. repeat split. Qed.

(* right after the failed unlink the ledger still counts thread 1 *)
Example F6_fixed_ledger :
  let g := crun toyH lex_cmp 100 badX false g_F0 (firstn 13 sched_F6) in
  tget (g_thr g) 2%nat = Some (mkT [KRemove k1] Idle [CErr]) /\
  g_byhash g = [(toyH cY, 1)] /\ inflight toyH g (toyH cY) = 1 /\ g_I g = None.
Proof. vm_compute. repeat split. Qed.

Lemma g_F0_reachable : reachable toyH lex_cmp 100 nobad false progF [] g_F0.
Proof. exists sched_setup. reflexivity. Qed.

(* the general theorems apply to this run (the obstruction appears after the setup) *)
Example F6_fixed_inv : ConcInv toyH lex_cmp badX progF [] g_F6.
Proof.
  apply (toy late_faults_inv nobad false progF progF_nodup progF_nocollide badX false g_F0 sched_F6).
  - intros x E. discriminate E.
  - exact g_F0_reachable.
Qed.

Example F6_fixed_no_dangling : no_dangling g_F6.
Proof.
  unfold no_dangling.
  apply (toy C04_no_dangling_late_faults nobad false progF progF_nodup progF_nocollide
           badX false g_F0 sched_F6).
  - intros x E. discriminate E.
  - exact g_F0_reachable.
Qed.

(* the error path before the fix: the second release drops the count of H Y to zero, the remove of k1
   deletes the blob of Y, and thread 1 then indexes k3 -> H Y: a dangling reference *)
Example F6_prefix_refuted :
  all_finished g_F6_old = true /\
  tget (g_thr g_F6_old) 2%nat = Some (mkT [] Idle [CErr; CBool true]) /\
  sm_get lex_cmp (km (g_idx g_F6_old)) k3 = Some (mkItem (toyH cY) 2) /\
  sm_get lex_cmp (g_cas g_F6_old) (toyH cY) = None.
Proof. vm_compute. repeat split. Qed.

Example F6_prefix_ledger_wrong :
  let g := crun_f6 toyH lex_cmp 100 badX false g_F0 (firstn 13 sched_F6) in
  g_byhash g = [] /\ inflight toyH g (toyH cY) = 1.
Proof. vm_compute. repeat split. Qed.

Example F6_prefix_dangling : ~ no_dangling g_F6_old.
Proof.
  intros ND. destruct (ND k3 (mkItem (toyH cY) 2)) as (c & G & _); [vm_compute; reflexivity|].
  vm_compute in G. discriminate G.
Qed.

Print Assumptions F6_fixed_run.
Print Assumptions F6_fixed_ledger.
Print Assumptions F6_fixed_inv.
Print Assumptions F6_fixed_no_dangling.
Print Assumptions F6_prefix_refuted.
Print Assumptions F6_prefix_ledger_wrong.
Print Assumptions F6_prefix_dangling.
