(* StoreHist.v -- C01: a whole history of API calls on one open handle refines a plain ordered
   map (fault-free); C07 / C06 along the history; first-time initialisation (open_fresh);
   a closed, computed example. *)
From Cas Require Import History.
From CasProofs Require Import BaseProofs SMapProofs IndexProofs RangeProofs
  StoreFS StoreRun StoreInv StoreWrite StoreRead.
From Coq Require Import ZifyBool ZifyNat ZifyN.
Open Scope N_scope.

Section StoreHist.
  Variable H : bytes -> bytes.
  Hypothesis H_len : forall b, length (H b) = 32%nat.
  Hypothesis H_byte : forall b, Forall (fun x => x < 256) (H b).
  Variable cfg : config.
  Hypothesis n_pos : 0 < c_n cfg.
  Let cmp := key_cmp (c_kt cfg).

  Local Notation item_of := (item_of H).
  Local Notation km_of := (km_of H).
  Local Notation NoCollide := (NoCollide H).
  Local Notation Live0 := (Live0 H cfg).
  Local Notation Clean := (Clean H).
  Local Notation CasNamed := (CasNamed H).
  Local Notation Post := (Post H cfg).

  Definition spec_out (sg : smap bytes) (o : op) : out :=
    match o with
    | OpPut _ _ | OpAbort _ _ | OpCheckpoint => OutUnit
    | OpRemove k => OutBool (match sm_get cmp sg k with Some _ => true | None => false end)
    | OpRemoveRange lo hi =>
      OutNum (N.of_nat (length (filter (fun e => in_range cmp lo hi (fst e)) sg)))
    | OpGet k | OpGetReader k => OutBytes (sm_get cmp sg k)
    | OpGetSize k => OutSize (option_map len (sm_get cmp sg k))
    | OpGetRange k a b =>
      match sm_get cmp sg k with
      | None => OutBytes None
      | Some c => if (b <? a) && (a <? len c) then OutErr EInvalidRange
                  else OutBytes (Some (slice c a b))
      end
    | OpIter => OutEntries (km_of sg)
    | OpRange lo hi => OutEntries (km_of (filter (fun e => in_range cmp lo hi (fst e)) sg))
    | _ => OutClosed
    end.

  Fixpoint spec_outs (sg : smap bytes) (ops : list op) : list out :=
    match ops with
    | [] => []
    | o :: r => spec_out sg o :: spec_outs (spec_step cmp sg o) r
    end.

  (* the calls covered: the data API on an open handle; range bounds that make
     BTreeMap::range panic are excluded *)
  Definition api_op (o : op) : Prop :=
    match o with
    | OpPut _ _ | OpAbort _ _ | OpRemove _ | OpCheckpoint | OpGet _ | OpGetReader _
    | OpGetSize _ | OpGetRange _ _ _ | OpIter => True
    | OpRemoveRange lo hi | OpRange lo hi => range_panics cmp lo hi = false
    | _ => False
    end.

  Definition op_contents (o : op) : list bytes :=
    match o with OpPut _ chunks => [concat chunks] | _ => [] end.
  Definition hist_contents (ops : list op) : list bytes := flat_map op_contents ops.

  Lemma spec_step_contents : forall sg o x, In x (map snd (spec_step cmp sg o)) ->
    In x (op_contents o) \/ In x (map snd sg).
  Proof.
    intros sg o x Ix. apply in_map_iff in Ix. destruct Ix as ([k c] & <- & Ik). cbn [snd].
    destruct o; cbn [spec_step op_contents] in *;
      try (right; apply in_map_iff; now exists (k, c)).
    - apply (In_sm_ins _) in Ik. destruct Ik as [Ik|Ik].
      + inversion Ik. left. now left.
      + right. apply in_map_iff. now exists (k, c).
    - apply (In_sm_del _) in Ik. right. apply in_map_iff. now exists (k, c).
    - right. apply in_map_iff. exists (k, c). split; [reflexivity|].
      destruct (nonempty sg && range_panics cmp lo hi); [exact Ik|].
      apply filter_In in Ik. tauto.
  Qed.

  Lemma Post_trans : forall s sg w w1 m1 sg1 w2 m2 sg2,
    Post s sg w w1 m1 sg1 -> Post (wfs w1) sg1 w1 w2 m2 sg2 -> Post s sg w w2 m2 sg2.
  Proof.
    intros s sg w w1 m1 sg1 w2 m2 sg2 (X1 & L1 & W1 & C1 & N1) (X2 & L2 & W2 & C2 & N2).
    split; [eapply ext_trans; eassumption|]. split; [exact L2|]. split; [auto|]. split; auto.
  Qed.

  Lemma run_ops_step : forall hd o r w x hd1 w1 outs hd2 w2,
    step H hd o w = ((x, hd1), w1) -> run_ops H hd1 r w1 = ((outs, hd2), w2) ->
    run_ops H hd (o :: r) w = ((x :: outs, hd2), w2).
  Proof.
    intros hd o r w x hd1 w1 outs hd2 w2 E1 E2. cbn [run_ops].
    rewrite (bind_eq _ _ _ _ _ E1). cbn [snd]. now rewrite (bind_eq _ _ _ _ _ E2).
  Qed.

  Lemma step_open : forall hd w m os w1, open_with_recover H cfg w = (Ok (m, os), w1) ->
    step H hd (OpOpen cfg false) w = ((OutOpened os, Some (mkHandle cfg m os)), w1).
  Proof. intros hd w m os w1 E. cbn [step]. now rewrite (bind_eq _ _ _ _ _ E). Qed.

  Lemma step_ok : forall m s sg os o w,
    Live0 m s sg -> wfs w = s -> wfault w = None -> api_op o ->
    NoCollide (op_contents o ++ map snd sg) ->
    exists m' w',
      step H (Some (mkHandle cfg m os)) o w = ((spec_out sg o, Some (mkHandle cfg m' os)), w') /\
      wfault w' = None /\ Post s sg w w' m' (spec_step cmp sg o).
  Proof.
    intros m s sg os o w L Ws F A NC.
    assert (RD : forall (x : out),
              exists m' w', (x, Some (mkHandle cfg m os), w) = (x, Some (mkHandle cfg m' os), w') /\
                            wfault w' = None /\ Post s sg w w' m' sg).
    { intros x. exists m, w. split; [reflexivity|]. split; [exact F|].
      now apply (Post_refl H cfg). }
    destruct o; cbn [api_op] in A; try contradiction;
      cbn [step h_cfg h_mem h_ostats spec_out spec_step op_contents] in *.
    - (* put *)
      destruct (put_spec H H_len H_byte cfg n_pos m s sg k chunks w L Ws F NC)
        as (m' & w' & E & F' & P).
      exists m', w'. rewrite (bind_eq _ _ _ _ _ E). split; [reflexivity|]. now split.
    - (* abort *)
      destruct (abort_post H H_len H_byte cfg n_pos m s sg k chunks w L Ws F) as (w' & E & F' & P).
      exists m, w'. rewrite (bind_eq _ _ _ _ _ E). split; [reflexivity|]. now split.
    - (* remove *)
      destruct (remove_spec H H_len H_byte cfg n_pos m s sg k w L Ws F)
        as (m' & w' & E & F' & P & _).
      exists m', w'. rewrite (bind_eq _ _ _ _ _ E). split; [reflexivity|]. now split.
    - (* remove_range *)
      assert (NP : (nonempty (km (idx m)) && range_panics cmp lo hi) = false)
        by (rewrite A; apply andb_false_r).
      destruct (remove_range_spec H H_len H_byte cfg n_pos m s sg lo hi w L Ws F NP)
        as (m' & w' & E & F' & P).
      exists m', w'. rewrite (bind_eq _ _ _ _ _ E). fold cmp. rewrite A, andb_false_r.
      split; [reflexivity|]. now split.
    - (* checkpoint *)
      destruct (checkpoint_spec H H_len H_byte cfg n_pos m s sg w L Ws F) as (m' & w' & E & F' & P).
      exists m', w'. rewrite (bind_eq _ _ _ _ _ E). split; [reflexivity|]. now split.
    - (* get *)
      unfold bind, get_fs, ret. rewrite Ws, (get_spec H cfg m s sg k L). apply RD.
    - (* get_size *)
      unfold ret. rewrite (get_size_spec H cfg m s sg k L). apply RD.
    - (* get_range *)
      unfold bind, get_fs, ret. rewrite Ws, (get_range_spec H H_len H_byte cfg n_pos m s sg k a b L). fold cmp.
      destruct (sm_get cmp sg k) as [c|]; [|apply RD].
      destruct ((b <? a) && (a <? len c)); apply RD.
    - (* get via reader *)
      unfold bind, get_fs, ret. rewrite Ws, (get_spec H cfg m s sg k L). apply RD.
    - (* iter *)
      unfold ret. rewrite (lv_km _ _ _ _ _ L). apply RD.
    - (* range *)
      assert (NP : (nonempty (km (idx m)) && range_panics cmp lo hi) = false)
        by (rewrite A; apply andb_false_r).
      unfold ret. rewrite (range_iter_spec H cfg m s sg lo hi L NP). apply RD.
  Qed.

  Theorem C01_full : forall ops m s sg os w,
    Live0 m s sg -> wfs w = s -> wfault w = None -> Forall api_op ops ->
    NoCollide (hist_contents ops ++ map snd sg) ->
    exists m' w',
      run_ops H (Some (mkHandle cfg m os)) ops w
      = ((spec_outs sg ops, Some (mkHandle cfg m' os)), w') /\
      wfault w' = None /\ Post s sg w w' m' (fold_left (spec_step cmp) ops sg).
  Proof.
    induction ops as [|o ops IH]; intros m s sg os w L Ws F A NC.
    - exists m, w. split; [reflexivity|]. split; [exact F|]. now apply (Post_refl H cfg).
    - inversion A as [|? ? Ao Aops]; subst.
      destruct (step_ok m (wfs w) sg os o w L eq_refl F Ao (nocollide_head H _ _ _ NC))
        as (m1 & w1 & E1 & F1 & P1).
      destruct (IH m1 (wfs w1) (spec_step cmp sg o) os w1 (proj1 (proj2 P1)) eq_refl F1 Aops)
        as (m2 & w2 & E2 & F2 & P2).
      { exact (nocollide_rest H _ _ _ _ NC (spec_step_contents sg o)). }
      exists m2, w2. split; [exact (run_ops_step _ _ _ _ _ _ _ _ _ _ E1 E2)|].
      split; [exact F2|]. eapply Post_trans; eassumption.
  Qed.

  (* C01: the outputs of a history are those of the ordered map, and the invariant holds at
     the end (so the history can be continued) *)
  Theorem C01_refines_ordered_map : forall ops m s sg os w,
    Live0 m s sg -> wfs w = s -> wfault w = None -> Forall api_op ops ->
    NoCollide (hist_contents ops ++ map snd sg) ->
    exists outs hd' w',
      run_ops H (Some (mkHandle cfg m os)) ops w = ((outs, Some hd'), w') /\
      outs = spec_outs sg ops /\
      Live0 (h_mem hd') (wfs w') (fold_left (spec_step cmp) ops sg) /\ h_cfg hd' = cfg /\
      wfault w' = None.
  Proof.
    intros ops m s sg os w L Ws F A NC.
    destruct (C01_full ops m s sg os w L Ws F A NC) as (m' & w' & E & F' & P).
    exists (spec_outs sg ops), (mkHandle cfg m' os), w'. split; [exact E|].
    split; [reflexivity|]. split; [exact (proj1 (proj2 P))|]. split; [reflexivity|exact F'].
  Qed.

  (* C07: exact reclamation along the whole history (on filesystems without duplicate
     entries, see FsWf) *)
  Theorem C07_exact_seq : forall ops m s sg os w,
    Live0 m s sg -> wfs w = s -> wfault w = None -> Forall api_op ops ->
    NoCollide (hist_contents ops ++ map snd sg) -> FsWf s -> Clean s sg ->
    exists r w', run_ops H (Some (mkHandle cfg m os)) ops w = (r, w') /\
                 FsWf (wfs w') /\ Clean (wfs w') (fold_left (spec_step cmp) ops sg).
  Proof.
    intros ops m s sg os w L Ws F A NC W C.
    destruct (C01_full ops m s sg os w L Ws F A NC) as (m' & w' & E & F' & _ & _ & W' & C' & _).
    eexists _, w'. split; [exact E|]. split; auto.
  Qed.

  (* C06: blobs keep the content their name promises, and the trace never writes under cas/ *)
  Theorem C06_cas_immutable_seq : forall ops m s sg os w,
    Live0 m s sg -> wfs w = s -> wfault w = None -> Forall api_op ops ->
    NoCollide (hist_contents ops ++ map snd sg) ->
    exists r w', run_ops H (Some (mkHandle cfg m os)) ops w = (r, w') /\
                 (FsWf s -> CasNamed s -> CasNamed (wfs w')) /\
                 exists tr, wtrace w' = tr ++ wtrace w /\ Forall cas_safe tr.
  Proof.
    intros ops m s sg os w L Ws F A NC.
    destruct (C01_full ops m s sg os w L Ws F A NC) as (m' & w' & E & F' & X & _ & _ & _ & N').
    eexists _, w'. split; [exact E|]. split; [exact N'|exact (proj2 X)].
  Qed.

  Definition is_rootfile (q : path) : Prop :=
    match q with PStaging _ | PCas _ => False | _ => True end.

  Lemma wal_ids_nil : forall s, (forall i, fget s (PWal i) = None) -> wal_ids s = [].
  Proof.
    intros [fl ds ns]. unfold wal_ids, fget. cbn [files].
    induction fl as [|[q f] fl IH]; intros N; [reflexivity|].
    cbn [fold_right fst].
    destruct q; try (apply IH; intros j; specialize (N j); cbn [lookup path_eqb] in N; exact N).
    specialize (N id). cbn [lookup] in N. rewrite path_eqb_refl in N. discriminate.
  Qed.

  (* Index::load without snapshot and segments: the first segment is created *)
  Lemma index_load_fresh_does : forall pre w, wfault w = None ->
    (forall i, fget (wfs w) (PWal i) = None) -> fget (wfs w) PIndex = None ->
    Does (index_load H cfg pre) w (Ok (mkMem empty_istate (mkWal (0 + 1) None) pre))
         [CCreate (PWal 0); CSync (PWal 0)].
  Proof.
    intros pre w F GW GI.
    pose proof (next_seg_does 0 w F) as T. unfold next_seg_calls in T. rewrite (GW 0) in T.
    unfold index_load. apply then_get_fs_bind. rewrite GI. cbv zeta.
    cbn [lpv empty_istate]. rewrite (wal_ids_nil _ GW). cbn [sort_ids fold_right replay_segments].
    change (0 + 1 - 1) with 0. rewrite N.div_0_l by lia. rewrite (GW 0).
    eapply does_bind_pure; [exact T|reflexivity].
  Qed.

  Lemma live_fresh : forall s, has_dir s [s_staging] = true -> has_dir s [s_cas] = true ->
    (forall q, ~ is_rootfile q -> fget s q = None) ->
    Live0 (mkMem empty_istate (mkWal 1 None) false) s [] /\ Clean s [] /\ CasNamed s.
  Proof using.
    intros s Ds Dc G.
    assert (Gc : forall comps, fget s (PCas comps) = None) by (intros; apply G; intros X; exact X).
    assert (Gs : forall i, fget s (PStaging i) = None) by (intros; apply G; intros X; exact X).
    split; [|split].
    - constructor.
      + exact I.
      + reflexivity.
      + apply C12_empty.
      + intros a b [].
      + intros k c [].
      + intros i _. apply Gs.
      + split; [exact Ds|]. split; [exact Dc|discriminate].
      + split; [apply N.le_refl|exact I].
    - split; [|exact Gs]. intros comps f Gf. now rewrite Gc in Gf.
    - intros comps f Gf. now rewrite Gc in Gf.
  Qed.

  (* the calls of the first open of an empty directory (fan-out not pre-created): both
     directories, the lock file, the settings, the first segment *)
  Definition fresh_calls : list call :=
    [CMkdir [s_staging]; CMkdir [s_cas]; CCreate PLock]
    ++ aw_calls PSettings PSettingsTmp (enc_settings CURRENT_DB_VERSION false (c_n cfg))
    ++ [CCreate (PWal 0); CSync (PWal 0)].

  Lemma open_fresh_run : c_pre cfg = false ->
    exists os w', open_with_recover H cfg (init_world empty_fs None)
                  = (Ok (mkMem empty_istate (mkWal 1 None) false, os), w') /\
      Ran fresh_calls (init_world empty_fs None) w' /\
      Live0 (mkMem empty_istate (mkWal 1 None) false) (wfs w') [] /\ Clean (wfs w') [] /\
      CasNamed (wfs w') /\ FsWf (wfs w').
  Proof.
    intros Pre. set (w0 := init_world empty_fs None).
    set (data := enc_settings CURRENT_DB_VERSION false (c_n cfg)).
    set (m0 := mkMem empty_istate (mkWal (0 + 1) None) false).
    destruct (open_front_then H cfg w0 eq_refl) as (w3 & E3 & R3).
    change (open_front_calls (wfs w0)) with ([CMkdir [s_staging]; CMkdir [s_cas]] ++ [CCreate PLock]) in R3.
    apply ran_app_inv in R3. destruct R3 as (w2 & R2 & R3).
    assert (M2 : Forall is_mkdir [CMkdir [s_staging]; CMkdir [s_cas]]) by repeat constructor.
    destruct (okc_mkdirs _ _ _ M2 (ran_okc _ _ _ R2)) as (Fi2 & _ & Ds2).
    assert (G2 : forall q, fget (wfs w2) q = None) by (intros q; unfold fget; now rewrite Fi2).
    (* the settings and the first segment; what is left is the optional orphan scan *)
    assert (D : Then (open_tail H cfg) w3
                  (do! s <- get_fs ;;
                   ret (Ok (m0, if c_scan cfg then Some (scan_orphans H m0 s (c_verify cfg)) else None)))
                  (aw_calls PSettings PSettingsTmp data ++ [CCreate (PWal 0); CSync (PWal 0)] ++ [])).
    { assert (G3 : forall q, q <> PLock -> fget (wfs w3) q = None).
      { intros q Nq. destruct (ran_okc _ _ _ R3) as (s3 & E & ->). apply apply_call_eff in E.
        rewrite E, fget_upd_other by exact Nq. apply G2. }
      unfold open_tail, settings_gate. eapply then_bind.
      { apply then_read_file_bind. rewrite G3 by discriminate. rewrite Pre.
        eapply then_bind_nil; [exact (does_ret _ _ (ran_fault _ _ _ R3))|].
        eapply does_bind_pure; [apply atomic_write_does; [exact (ran_fault _ _ _ R3)| |]; reflexivity|reflexivity]. }
      intros w4 R4.
      pose proof (okc_frame _ _ _ _ (aw_calls_in (fun q => q = PSettings \/ q = PSettingsTmp) _ _ data
                                       (or_introl eq_refl) (or_intror eq_refl)) (ran_okc _ _ _ R4)) as F4.
      assert (G4 : forall q, q <> PLock -> q <> PSettings -> q <> PSettingsTmp -> fget (wfs w4) q = None).
      { intros q N1 N2 N3. destruct (fr_get _ _ _ F4 q) as [[X|X]|X]; [contradiction|contradiction|].
        rewrite X. now apply G3. }
      unfold open_load. eapply then_bind.
      - apply (index_load_fresh_does false w4 (ran_fault _ _ _ R4)); intros; apply G4; discriminate.
      - intros w6 R6. apply then_done. exact (ran_fault _ _ _ R6). }
    destruct D as (w' & E & R). eexists _, w'. split; [rewrite E3; exact E|].
    split; [exact (ran_app _ _ _ _ _ R2 (ran_app _ _ _ _ _ R3 R))|].
    (* the final filesystem: the two directories, and files directly under the root only *)
    assert (S : Step is_rootfile (ev_on is_rootfile) w2 w').
    { apply (ran_step _ _ _ _ (ran_app _ _ _ _ _ R3 R)). constructor; [exact I|]. apply Forall_app.
      split; [apply aw_calls_in; exact I|repeat constructor]. }
    assert (Dirs : forall d, has_dir (wfs w') d = true <-> has_dir (wfs w2) d = true).
    { intros d. unfold has_dir. now rewrite (step_dirs S). }
    destruct (live_fresh (wfs w')) as (L & C & N).
    - apply Dirs, Ds2. right. now left.
    - apply Dirs, Ds2. right. right. now left.
    - intros q Nq. rewrite (step_off S) by exact Nq. apply G2.
    - split; [exact L|]. split; [exact C|]. split; [exact N|].
      apply (step_wf S). unfold FsWf. rewrite Fi2. constructor.
  Qed.

  Theorem open_fresh : c_pre cfg = false ->
    exists m os w', open_with_recover H cfg (init_world empty_fs None) = (Ok (m, os), w') /\
      wfault w' = None /\ Live0 m (wfs w') [] /\ Clean (wfs w') [] /\ CasNamed (wfs w') /\
      FsWf (wfs w').
  Proof.
    intros Pre. destruct (open_fresh_run Pre) as (os & w' & E & R & X).
    eexists _, os, w'. split; [exact E|]. split; [exact (ran_fault _ _ _ R)|exact X].
  Qed.

  (* C01 from a fresh directory: open, then any history of API calls *)
  Theorem C01_from_fresh : forall ops, c_pre cfg = false -> Forall api_op ops ->
    NoCollide (hist_contents ops) ->
    exists os hd' w',
      run_ops H None (OpOpen cfg false :: ops) (init_world empty_fs None)
      = ((OutOpened os :: spec_outs [] ops, Some hd'), w') /\
      h_cfg hd' = cfg /\ wfault w' = None /\
      Live0 (h_mem hd') (wfs w') (fold_left (spec_step cmp) ops []) /\
      Clean (wfs w') (fold_left (spec_step cmp) ops []) /\ CasNamed (wfs w').
  Proof.
    intros ops Pre A NC.
    destruct (open_fresh Pre) as (m & os & w1 & E1 & F1 & L1 & C1 & N1 & W1).
    destruct (C01_full ops m (wfs w1) [] os w1 L1 eq_refl F1 A) as (m' & w' & E & F' & P).
    { now rewrite app_nil_r. }
    exists os, (mkHandle cfg m' os), w'.
    split; [exact (run_ops_step _ _ _ _ _ _ _ _ _ _ (step_open None _ _ _ _ E1) E)|].
    split; [reflexivity|]. split; [exact F'|].
    destruct P as (_ & L' & _ & C' & N'). split; [exact L'|]. split; auto.
  Qed.
End StoreHist.

Print Assumptions C01_refines_ordered_map.
Print Assumptions C07_exact_seq.
Print Assumptions C06_cas_immutable_seq.
Print Assumptions open_fresh.
Print Assumptions C01_from_fresh.

(* a toy hash: 32 copies of the length (mod 256): well-formed, and collision-free on contents
   of different lengths below 256 *)
Definition toyH (b : bytes) : bytes := repeat (N.of_nat (length b) mod 256) 32.
Definition toy_cfg : config := mkConfig KBytes 2 true false false false false.

Lemma toyH_len : forall b, length (toyH b) = 32%nat.
Proof. intros b. apply repeat_length. Qed.

Lemma toyH_byte : forall b, Forall (fun x => x < 256) (toyH b).
Proof.
  intros b. apply Forall_forall. intros x Ix. apply repeat_spec in Ix. subst x.
  apply N.mod_lt. discriminate.
Qed.

Definition toy_k1 : bytes := [1]. Definition toy_k2 : bytes := [2].
Definition toy_c1 : bytes := [10; 11; 12]. Definition toy_c2 : bytes := [13; 14].
Definition toy_ops : list op :=
  [OpPut toy_k1 [toy_c1]; OpPut toy_k2 [toy_c1; toy_c2]; OpGet toy_k1; OpRemove toy_k1;
   OpGet toy_k1; OpGet toy_k2; OpIter; OpCheckpoint; OpGetRange toy_k2 1 3;
   OpRemoveRange Unb Unb; OpIter].

(* the model, run from an empty directory, produces exactly the specified outputs *)
Example toy_run_matches_spec :
  fst (fst (run_hist toyH empty_fs None (OpOpen toy_cfg false :: toy_ops)))
  = OutOpened None :: spec_outs toyH toy_cfg [] toy_ops.
Proof. vm_compute. reflexivity. Qed.

Example toy_run_outputs :
  fst (fst (run_hist toyH empty_fs None (OpOpen toy_cfg false :: toy_ops)))
  = [OutOpened None; OutUnit; OutUnit; OutBytes (Some toy_c1); OutBool true; OutBytes None;
     OutBytes (Some (toy_c1 ++ toy_c2));
     OutEntries [(toy_k2, mkItem (toyH (toy_c1 ++ toy_c2)) 5)];
     OutUnit; OutBytes (Some [11; 12]); OutNum 1; OutEntries []].
Proof. vm_compute. reflexivity. Qed.

(* after the history: nothing is left under cas/ or staging/ *)
Example toy_run_clean :
  let w := snd (run_hist toyH empty_fs None (OpOpen toy_cfg false :: toy_ops)) in
  filter (fun pf => match fst pf with PCas _ | PStaging _ => true | _ => false end) (files (wfs w)) = [].
Proof. vm_compute. reflexivity. Qed.

(* the hypotheses of the theorems are satisfiable: the general theorem applies to the toy
   instance (and agrees with the computation above) *)
Lemma toy_nocollide : NoCollide toyH (hist_contents toy_ops).
Proof.
  intros a b Ia Ib E. cbn in Ia, Ib.
  destruct Ia as [<-|[<-|[]]]; destruct Ib as [<-|[<-|[]]]; try reflexivity;
    vm_compute in E; discriminate.
Qed.

Example toy_theorem_instance :
  exists os hd' w',
    run_ops toyH None (OpOpen toy_cfg false :: toy_ops) (init_world empty_fs None)
    = ((OutOpened os :: spec_outs toyH toy_cfg [] toy_ops, Some hd'), w') /\
    Clean toyH (wfs w') [] /\ CasNamed toyH (wfs w').
Proof.
  destruct (C01_from_fresh toyH toyH_len toyH_byte toy_cfg eq_refl toy_ops eq_refl)
    as (os & hd' & w' & E & _ & _ & _ & C & N).
  - repeat constructor.
  - exact toy_nocollide.
  - exists os, hd', w'. split; [exact E|]. split; [exact C|exact N].
Qed.

Print Assumptions toy_run_matches_spec.
Print Assumptions toy_theorem_instance.
