(* PreCreateHist.v -- the history theorems C01 / C02 from an empty directory for BOTH values of
   pre_create_cas_dirs (c_pre cfg), with the conclusions of StoreHist.C01_from_fresh,
   RestartHist.C02_restart_transparent and RestartHist.C02_observations_equal, which are the
   case c_pre cfg = false.  The first open is that of PreCreate.v (first_open_InvP,
   C01_from_fresh_any); everything after it is independent of the flag
   (RestartHist.restart_transparent_from works from any [Inv]). *)
From Cas Require Import History.
From CasProofs Require Import StoreInv StoreHist DiskInv Recover RestartHist PreCreate.
Open Scope N_scope.

Local Opaque all256.

Section PreCreateHist.
  Variable H : bytes -> bytes.
  Hypothesis H_len : forall b, length (H b) = 32%nat.
  Hypothesis H_byte : forall b, Forall (fun x => x < 256) (H b).
  Variable cfg : config.
  Hypothesis n_pos : 0 < c_n cfg.
  Let cmp := key_cmp (c_kt cfg).

  Local Notation NoCollide := (NoCollide H).
  Local Notation Live0 := (Live0 H cfg).
  Local Notation Inv := (Inv H cfg).
  Local Notation Clean := (Clean H).
  Local Notation CasNamed := (CasNamed H).
  Local Notation spec_outs := (spec_outs H cfg).
  Local Notation api_op := (api_op cfg).
  Local Notation hist_r := (hist_r cfg).
  Local Notation hist_fits := (hist_fits cfg).

  (* C01 from a fresh directory, either choice of pre_create_cas_dirs *)
  Theorem C01_from_fresh_gen : forall ops, Forall api_op ops ->
    NoCollide (hist_contents ops) ->
    exists os hd' w',
      run_ops H None (OpOpen cfg false :: ops) (init_world empty_fs None)
      = ((OutOpened os :: spec_outs [] ops, Some hd'), w') /\
      h_cfg hd' = cfg /\ wfault w' = None /\
      Live0 (h_mem hd') (wfs w') (fold_left (spec_step cmp) ops []) /\
      Clean (wfs w') (fold_left (spec_step cmp) ops []) /\ CasNamed (wfs w').
  Proof.
    intros ops A NC.
    destruct (C01_from_fresh_any H H_len H_byte cfg n_pos ops A NC)
      as (os & hd' & w' & E & Hc & F & _ & L & C & N & _).
    exists os, hd', w'. split; [exact E|]. split; [exact Hc|]. split; [exact F|].
    split; [exact (LiveP_Live0 H cfg _ _ _ L)|]. split; [exact C|exact N].
  Qed.

  (* the first open of an empty directory establishes Inv, either choice (the conclusion of
     Recover.open_fresh_disk) *)
  Theorem open_fresh_disk_gen : c_n cfg < 2 ^ 64 ->
    exists m os w', open_with_recover H cfg (init_world empty_fs None) = (Ok (m, os), w') /\
      wfault w' = None /\ Inv m (wfs w') [] /\ Clean (wfs w') [] /\ CasNamed (wfs w') /\
      nextv (mwal m) = 1.
  Proof.
    intros Nfit.
    destruct (first_open_InvP H H_len H_byte cfg n_pos Nfit) as (m & os & w' & E & F & _ & IV & R).
    exists m, os, w'. split; [exact E|]. split; [exact F|].
    split; [exact (InvP_Inv H cfg _ _ _ IV)|exact R].
  Qed.

  (* C02, either choice *)
  Theorem C02_restart_transparent_gen : forall ops,
    c_n cfg < 2 ^ 64 -> hist_r ops ->
    NoCollide (hist_contents ops) -> hist_fits [] ops -> N.of_nat (length ops) < 2 ^ 32 - 1 ->
    exists os0 outs hd' w',
      run_ops H None (OpOpen cfg false :: ops) (init_world empty_fs None)
      = ((OutOpened os0 :: outs, Some hd'), w') /\
      wfault w' = None /\
      strip_restarts ops outs = spec_outs [] (erase_restarts ops) /\
      opens_ok ops outs /\ h_cfg hd' = cfg /\
      Inv (h_mem hd') (wfs w') (fold_left (spec_step cmp) (erase_restarts ops) []).
  Proof.
    intros ops Nfit Hr NC Fit Ln.
    destruct (open_fresh_disk_gen Nfit) as (m & os & w1 & E1 & F1 & IV1 & _ & _ & Nv1).
    exact (restart_transparent_from H H_len H_byte cfg n_pos ops _ m os w1 E1 F1 IV1 Nv1 Hr NC Fit
             Ln).
  Qed.

  Theorem C02_observations_equal_gen : forall ops,
    c_n cfg < 2 ^ 64 -> hist_r ops ->
    NoCollide (hist_contents ops) -> hist_fits [] ops -> N.of_nat (length ops) < 2 ^ 32 - 1 ->
    exists r1 hd1 w1 r2 hd2 w2,
      run_ops H None (OpOpen cfg false :: ops) (init_world empty_fs None) = ((r1, Some hd1), w1) /\
      run_ops H None (OpOpen cfg false :: erase_restarts ops) (init_world empty_fs None)
      = ((r2, Some hd2), w2) /\
      km (idx (h_mem hd1)) = km (idx (h_mem hd2)) /\ rc (idx (h_mem hd1)) = rc (idx (h_mem hd2)) /\
      ub (idx (h_mem hd1)) = ub (idx (h_mem hd2)) /\ tb (idx (h_mem hd1)) = tb (idx (h_mem hd2)).
  Proof.
    intros ops Nfit Hr NC Fit Ln.
    destruct (C02_restart_transparent_gen ops Nfit Hr NC Fit Ln)
      as (os0 & outs & hd1 & w1 & E1 & _ & _ & _ & _ & (L1 & _ & _)).
    destruct (C01_from_fresh_gen (erase_restarts ops) (erase_api cfg ops Hr))
      as (os2 & hd2 & w2 & E2 & _ & _ & L2 & _).
    { now rewrite (erase_contents cfg). }
    eexists _, hd1, w1, _, hd2, w2. split; [exact E1|]. split; [exact E2|].
    exact (Live0_same_index H cfg _ _ _ _ _ L1 L2).
  Qed.
End PreCreateHist.

Print Assumptions C01_from_fresh_gen.
Print Assumptions open_fresh_disk_gen.
Print Assumptions C02_restart_transparent_gen.
Print Assumptions C02_observations_equal_gen.
