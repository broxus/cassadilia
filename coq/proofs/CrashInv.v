(* CrashInv.v -- crash atomicity: runs that stay inside a predicate, and the memory-less on-disk
   invariant [Rest].

   The process-kill model: a crash stops the process between two effective filesystem calls.
   In a fault-free world every recorded event is [TCall c] of a call that succeeded, so the
   filesystem after the first n calls of a run is the replay of the first n recorded calls.

   In order:
   Walks: replay_calls, [Along] (every intermediate filesystem of a run satisfies P), [Runs]
       (the replay of the whole new trace is the final filesystem: replay_trace) and their
       conjunction [Walk]; composition, weakening, the single call; runs given as lists of
       effective calls (StoreRun.v): [Thru P cs s] (P at s and after each call) gives a walk.
   Programs: [WalkM P m], m walks inside P from every P-state; holds of every program of the
       class WorldRel.IsProg whose calls keep P ([call_keeps]; walkm_prog).
   Calls and the data view: the exact effect of every call on the data view [fdat] of a
       filesystem; which paths a call can touch (apply_call_at); calls on one file.
   The invariant: RestP (parameters explicit), RestF (first-time initialisation pending),
       Rest (memory-less), the weak handle invariant Inv' (see the remark at [DiskOk']),
       rest_of_inv; RestB = Rest with a bound on the next version (for whole histories).
   What the invariant does not look at: [Sees R P] (P looks at a filesystem only through the
       data of the paths in R) with R = [looked sg]; every member of the family sees only
       that, so it is kept by the harmless calls (scratch files, directories, syncs, staging
       writes, unreferenced blobs) and transported along agreeing views; dropped stale
       segments (V_drop). *)
From Cas Require Import History.
From CasProofs Require Import BaseProofs StoreFS WorldRel StoreRun StoreInv StoreWrite DiskInv.
Open Scope N_scope.

(* Walks *)

(* every intermediate filesystem of the run from w to w' satisfies P *)
Definition Along (P : fs -> Prop) (w w' : world) : Prop :=
  wfault w' = None /\ exists tr, wtrace w' = tr ++ wtrace w /\
  forall n, (n <= length tr)%nat -> P (replay_calls (firstn n (rev tr)) (wfs w)).

(* the recorded trace is faithful: replaying all of it gives the final filesystem *)
Definition Runs (w w' : world) : Prop :=
  wfault w' = None /\ exists tr, wtrace w' = tr ++ wtrace w /\
  replay_calls (rev tr) (wfs w) = wfs w'.

Definition Walk (P : fs -> Prop) (w w' : world) : Prop :=
  wfault w' = None /\ exists tr, wtrace w' = tr ++ wtrace w /\
  replay_calls (rev tr) (wfs w) = wfs w' /\
  forall n, (n <= length tr)%nat -> P (replay_calls (firstn n (rev tr)) (wfs w)).

Lemma walk_along : forall P w w', Walk P w w' -> Along P w w'.
Proof. intros P w w' (F & tr & E & _ & A). split; [exact F|]. now exists tr. Qed.

Lemma walk_runs : forall P w w', Walk P w w' -> Runs w w'.
Proof. intros P w w' (F & tr & E & R & _). split; [exact F|]. now exists tr. Qed.

Lemma walk_fault : forall P w w', Walk P w w' -> wfault w' = None.
Proof. intros P w w' (F & _). exact F. Qed.

(* a walk replays: the calls recorded between w and w', replayed from w, give the filesystem
   of w' *)
Lemma replay_trace : forall P w w' tr, Walk P w w' -> wtrace w' = tr ++ wtrace w ->
  replay_calls (rev tr) (wfs w) = wfs w'.
Proof.
  intros P w w' tr (_ & tr' & E & R & _) E'. rewrite E in E'. apply app_inv_tail in E'.
  now subst tr'.
Qed.

Lemma walk_end : forall P w w', Walk P w w' -> P (wfs w').
Proof.
  intros P w w' (_ & tr & _ & R & A). rewrite <- R.
  specialize (A (length tr) (Nat.le_refl _)). rewrite <- rev_length, firstn_all in A. exact A.
Qed.

Lemma walk_refl : forall (P : fs -> Prop) w, wfault w = None -> P (wfs w) -> Walk P w w.
Proof.
  intros P w F X. split; [exact F|]. exists []. split; [reflexivity|]. split; [reflexivity|].
  intros n _. cbn [rev]. now rewrite firstn_nil.
Qed.

(* the prefixes of t1 ++ t2: those of t1, then t1 followed by those of t2 *)
Lemma replay_firstn_app : forall (P : fs -> Prop) t1 t2 s,
  (forall n, (n <= length t1)%nat -> P (replay_calls (firstn n t1) s)) ->
  (forall n, (n <= length t2)%nat -> P (replay_calls (firstn n t2) (replay_calls t1 s))) ->
  forall n, (n <= length t1 + length t2)%nat -> P (replay_calls (firstn n (t1 ++ t2)) s).
Proof.
  intros P t1 t2 s A1 A2 n Ln. rewrite firstn_app, replay_app.
  destruct (Nat.le_gt_cases n (length t1)) as [L|L].
  - replace (n - length t1)%nat with 0%nat by lia. cbn [firstn replay_calls]. now apply A1.
  - rewrite (firstn_all2 t1) by lia. apply A2. lia.
Qed.

Lemma walk_trans : forall P w1 w2 w3, Walk P w1 w2 -> Walk P w2 w3 -> Walk P w1 w3.
Proof.
  intros P w1 w2 w3 (F1 & t1 & E1 & R1 & A1) (F2 & t2 & E2 & R2 & A2). split; [exact F2|].
  exists (t2 ++ t1). split; [rewrite E2, E1; apply app_assoc|].
  rewrite rev_app_distr. split; [now rewrite replay_app, R1|]. intros n Ln.
  apply replay_firstn_app; rewrite ?rev_length; [exact A1|now rewrite R1|].
  rewrite app_length in Ln. lia.
Qed.

Lemma walk_weaken : forall (P Q : fs -> Prop) w w', (forall x, P x -> Q x) ->
  Walk P w w' -> Walk Q w w'.
Proof.
  intros P Q w w' I (F & tr & E & R & A). split; [exact F|]. exists tr.
  split; [exact E|]. split; [exact R|]. intros n Ln. apply I, A, Ln.
Qed.

Lemma along_weaken : forall (P Q : fs -> Prop) w w', (forall x, P x -> Q x) ->
  Along P w w' -> Along Q w w'.
Proof.
  intros P Q w w' I (F & tr & E & A). split; [exact F|]. exists tr.
  split; [exact E|]. intros n Ln. apply I, A, Ln.
Qed.

Lemma along_refl : forall (P : fs -> Prop) w, wfault w = None -> P (wfs w) -> Along P w w.
Proof. intros. now apply (walk_along P), walk_refl. Qed.

(* the filesystem left by a run killed after n of its calls *)
Lemma along_crash_fs : forall (P : fs -> Prop) w w' tr n, Along P w w' ->
  wtrace w' = tr ++ wtrace w -> P (crash_fs n (rev tr) (wfs w)).
Proof.
  intros P w w' tr n (_ & tr' & E & A) E'. rewrite E in E'. apply app_inv_tail in E'. subst tr'.
  unfold crash_fs. destruct (Nat.le_gt_cases n (length tr)) as [L|L]; [now apply A|].
  rewrite firstn_all2 by (rewrite rev_length; lia).
  rewrite <- (firstn_all (rev tr)), rev_length. apply A. lia.
Qed.

(* composition of Along needs the faithful trace of the first part *)
Lemma along_trans : forall P w1 w2 w3, Runs w1 w2 -> Along P w1 w2 -> Along P w2 w3 ->
  Along P w1 w3.
Proof.
  intros P w1 w2 w3 (F1 & t1 & E1 & R1) (_ & t1' & E1' & A1) (F2 & t2 & E2 & A2).
  rewrite E1 in E1'. apply app_inv_tail in E1'. subst t1'. split; [exact F2|].
  exists (t2 ++ t1). split; [rewrite E2, E1; apply app_assoc|].
  rewrite rev_app_distr. intros n Ln.
  apply replay_firstn_app; rewrite ?rev_length; [exact A1|now rewrite R1|].
  rewrite app_length in Ln. lia.
Qed.

(* one call: P before and P after *)
Lemma walk_call : forall (P : fs -> Prop) c w r w', wfault w = None ->
  do_call c w = (r, w') -> P (wfs w) -> P (wfs w') -> Walk P w w'.
Proof.
  intros P c w r w' F E X X'. unfold do_call in E.
  destruct (apply_call c (wfs w)) as [s'|e] eqn:Ea.
  - rewrite F in E. inversion E; subst r w'. cbn [wfs] in X'.
    split; [reflexivity|]. exists [TCall c]. split; [reflexivity|].
    cbn [rev app replay_calls wfs]. rewrite Ea. split; [reflexivity|].
    intros [|[|n]] Ln; cbn [firstn replay_calls length] in *; [exact X| |lia].
    rewrite Ea. exact X'.
  - inversion E; subst r w'. now apply walk_refl.
Qed.

(* the call c keeps the filesystem predicate P (the notion of WorldRel.v) *)
Definition call_keeps (P : fs -> Prop) (c : call) : Prop :=
  forall s s', P s -> apply_call c s = Ok s' -> P s'.

(* runs given as lists of effective calls (StoreRun.v): P holds at s and after each call of cs *)
Fixpoint Thru (P : fs -> Prop) (cs : list call) (s : fs) : Prop :=
  P s /\ match cs with
         | [] => True
         | c :: r => forall s1, apply_call c s = Ok s1 -> Thru P r s1
         end.

Lemma thru_start : forall (P : fs -> Prop) cs s, Thru P cs s -> P s.
Proof. intros P [|c r] s [X _]; exact X. Qed.

Lemma ran_walk : forall (P : fs -> Prop) cs w w', Ran cs w w' -> Thru P cs (wfs w) -> Walk P w w'.
Proof.
  intros P cs w w' R. induction R as [w F|c cs w s1 w' F E R IH]; intros [X T].
  - now apply walk_refl.
  - specialize (T s1 E). eapply walk_trans; [|exact (IH T)].
    eapply walk_call; [exact F|exact (do_call_ok _ _ _ F E)|exact X|exact (thru_start _ _ _ T)].
Qed.

Lemma thru_keeps : forall (P : fs -> Prop) cs s, P s -> Forall (call_keeps P) cs -> Thru P cs s.
Proof.
  intros P. induction cs as [|c r IH]; intros s X K; (split; [exact X|]); [exact I|].
  intros s1 E. inversion K as [|? ? Kc Kr]; subst. apply IH; [exact (Kc _ _ X E)|exact Kr].
Qed.

Lemma thru_app : forall (P : fs -> Prop) a b s, Thru P a s ->
  (forall s1, Okc a s s1 -> P s1 -> Thru P b s1) -> Thru P (a ++ b) s.
Proof.
  intros P. induction a as [|c a IH]; intros b s T K; cbn [app].
  - apply K; [reflexivity|exact (thru_start _ _ _ T)].
  - destruct T as [X T]. split; [exact X|]. intros s1 E. apply IH; [exact (T s1 E)|].
    intros s2 A. apply K. now exists s1.
Qed.

(* Programs *)

Definition WalkM (P : fs -> Prop) {A} (m : M A) : Prop :=
  forall w, wfault w = None -> P (wfs w) -> Walk P w (snd (m w)).

Lemma walkm_ret : forall P {A} (a : A), WalkM P (ret a).
Proof. intros P A a w F X. now apply walk_refl. Qed.

Lemma walkm_do_call : forall P c, call_keeps P c -> WalkM P (do_call c).
Proof.
  intros P c K w F X. destruct (do_call c w) as [r w'] eqn:E. cbn [snd].
  eapply walk_call; [exact F|exact E|exact X|].
  unfold do_call in E. destruct (apply_call c (wfs w)) as [s'|e] eqn:Ea.
  - rewrite F in E. inversion E; subst. cbn [wfs]. exact (K _ _ X Ea).
  - inversion E; subst. exact X.
Qed.

Lemma walkm_read_file : forall P p, WalkM P (read_file p).
Proof. intros P p w F X. now apply walk_refl. Qed.

Lemma walkm_prog : forall (P : fs -> Prop) {A} (m : M A), IsProg (call_keeps P) m -> WalkM P m.
Proof.
  intros P A m Pm. induction Pm as [A a|A B m f _ Hm _ Hf|c K| |p].
  - apply walkm_ret.
  - intros w F X. unfold bind. specialize (Hm w F X). destruct (m w) as [a w1]. cbn [snd] in Hm.
    eapply walk_trans; [exact Hm|].
    apply Hf; [exact (walk_fault _ _ _ Hm)|exact (walk_end _ _ _ Hm)].
  - now apply walkm_do_call.
  - intros w F X. now apply walk_refl.
  - apply walkm_read_file.
Qed.

(* a predicate that holds of every filesystem is walked by every program *)
Lemma walkm_any : forall (C : call -> Prop) (P : fs -> Prop) {A} (m : M A),
  (forall s, P s) -> IsProg C m -> WalkM P m.
Proof.
  intros C P A m T Pm. apply walkm_prog, (prog_weaken C); [|exact Pm]. intros c _ s s' _ _. apply T.
Qed.

(* Calls and the data view *)

Lemma fdat_files : forall s s', files s' = files s -> forall q, fdat s' q = fdat s q.
Proof. intros s s' E q. unfold fdat, fget. now rewrite E. Qed.

Lemma fdat_ren : forall s p q f r, FsWf s ->
  fdat (ren s p q f) r = vset (vset (fdat s) p None) q (Some (fdata f)) r.
Proof.
  intros s p q f r W. unfold vset at 1. destruct (path_eqb_spec r q) as [->|N].
  - unfold fdat. now rewrite fget_ren, path_eqb_refl.
  - unfold fdat at 1. rewrite fget_ren, path_eqb_neq by exact N.
    change (option_map fdata (fget (del s p) r)) with (fdat (del s p) r). now apply fdat_del.
Qed.

(* directories and staging counter unchanged: the two equations that [Eff] and [Frame] share *)
Definition same_meta (x x' : fs) : Prop := dirs x' = dirs x /\ nstage x' = nstage x.

(* one call: well-formedness, directories, staging counter and the data view at once (the
   view part alone is DiskInv.apply_call_fdat, through the function DiskInv.call_view) *)
Lemma apply_call_view : forall c x x', FsWf x -> apply_call c x = Ok x' ->
  FsWf x' /\ (forall d, In d (dirs x) -> In d (dirs x')) /\
  match c with
  | CMkdir _ => nstage x' = nstage x /\ forall q, fdat x' q = fdat x q
  | CCreate p => same_meta x x' /\ forall q, fdat x' q = vset (fdat x) p (Some []) q
  | CCreateExcl p =>
    dirs x' = dirs x /\ fdat x p = None /\
    nstage x' = (match p with PStaging _ => nstage x + 1 | _ => nstage x end) /\
    forall q, fdat x' q = vset (fdat x) p (Some []) q
  | COpenAppend p =>
    same_meta x x' /\
    forall q, fdat x' q = match fdat x p with
                          | Some _ => fdat x q
                          | None => vset (fdat x) p (Some []) q
                          end
  | CAppend p b =>
    same_meta x x' /\ exists d, fdat x p = Some d /\
                                forall q, fdat x' q = vset (fdat x) p (Some (d ++ b)) q
  | CSync p => same_meta x x' /\ forall q, fdat x' q = fdat x q
  | CRename p q =>
    same_meta x x' /\ exists d, fdat x p = Some d /\
      forall r, fdat x' r = vset (vset (fdat x) p None) q (Some d) r
  | CUnlink p => same_meta x x' /\ fdat x p <> None /\
                 forall q, fdat x' q = vset (fdat x) p None q
  end.
Proof.
  intros c x x' W E. split; [eapply apply_call_wf; eassumption|].
  destruct c; cbn [apply_call] in E.
  - destruct (has_dir x d); [discriminate|].
    assert (X : x' = mkFs (files x) (dirs x ++ [d]) (nstage x)).
    { destruct (removelast d); [|destruct (has_dir x _)]; inversion E; reflexivity. }
    subst x'. cbn [dirs nstage]. split; [intros d' I'; apply in_or_app; now left|].
    split; [reflexivity|]. intros q. now apply fdat_files.
  - destruct (parent_ok x p); inversion E; subst x'. split; [auto|]. split; [now split|].
    intros q. apply (fdat_upd x p (mkFile [] 0) q).
  - destruct (parent_ok x p); [|discriminate]. destruct (fget x p) eqn:G; inversion E; subst x'.
    cbn [dirs nstage]. split; [auto|]. split; [reflexivity|].
    split; [now apply fdat_none|]. split; [reflexivity|]. intros q.
    transitivity (fdat (upd x p (mkFile [] 0)) q); [now apply fdat_files|].
    apply (fdat_upd x p (mkFile [] 0) q).
  - destruct (parent_ok x p); [|discriminate]. split; [|split].
    + destruct (fget x p); inversion E; subst x'; auto.
    + destruct (fget x p); inversion E; subst x'; now split.
    + intros q. unfold fdat at 2. destruct (fget x p) eqn:G; inversion E; subst x'; cbn [option_map].
      * reflexivity.
      * apply (fdat_upd x p (mkFile [] 0) q).
  - destruct (fget x p) as [f|] eqn:G; inversion E; subst x'. split; [auto|]. split; [now split|].
    exists (fdata f). split; [apply fdat_some; now exists f|]. intros q.
    apply (fdat_upd x p (mkFile (fdata f ++ b) (fsynced f)) q).
  - destruct (fget x p) as [f|] eqn:G; inversion E; subst x'. split; [auto|]. split; [now split|].
    intros q. change (fdat (upd x p (mkFile (fdata f) (length (fdata f)))) q = fdat x q).
    rewrite fdat_upd. unfold vset.
    destruct (path_eqb_spec q p) as [->|N]; [|reflexivity]. cbn [fdata]. symmetry.
    apply fdat_some. now exists f.
  - destruct (fget x p) as [f|] eqn:G; [|discriminate].
    destruct (parent_ok x q); inversion E; subst x'. split; [auto|]. split; [now split|].
    exists (fdata f). split; [apply fdat_some; now exists f|]. intros r.
    now apply (fdat_ren x p q f r).
  - destruct (fget x p) as [f|] eqn:G; inversion E; subst x'. split; [auto|]. split; [now split|].
    split; [intros X; apply fdat_none in X; congruence|]. intros q. now apply (fdat_del x p q).
Qed.

(* the paths whose data a call can change, and those it can give data they did not have *)
Definition touched (c : call) (q : path) : Prop :=
  match c with
  | CMkdir _ | CSync _ => False
  | CCreate p | CCreateExcl p | COpenAppend p | CAppend p _ | CUnlink p => q = p
  | CRename p r => q = p \/ q = r
  end.
Definition creates (c : call) (q : path) : Prop :=
  match c with
  | CCreate p | CCreateExcl p | COpenAppend p => q = p
  | CRename _ r => q = r
  | _ => False
  end.

(* a path keeps its data, or the call touches it: creates it, removes it, or appends to it *)
Lemma apply_call_at : forall c x x' q, FsWf x -> apply_call c x = Ok x' ->
  fdat x' q = fdat x q \/
  touched c q /\ (creates c q \/ fdat x' q = None \/ exists b, c = CAppend q b /\ fdat x q <> None).
Proof.
  intros c x x' q W E. destruct (apply_call_view c x x' W E) as (_ & _ & V).
  assert (S1 : forall p o, (forall r, fdat x' r = vset (fdat x) p o r) ->
                 fdat x' q = fdat x q \/ q = p /\ fdat x' q = o).
  { intros p o V1. rewrite V1. unfold vset.
    destruct (path_eqb_spec q p) as [->|N]; [right; now split|now left]. }
  destruct c as [d|p|p|p|p b|p|p r|p]; cbn [touched creates].
  - left. apply V.
  - destruct V as [_ V]. destruct (S1 _ _ V) as [X|[X _]]; auto.
  - destruct V as (_ & _ & _ & V). destruct (S1 _ _ V) as [X|[X _]]; auto.
  - destruct V as [_ V]. destruct (fdat x p); [left; apply V|].
    destruct (S1 _ _ V) as [X|[X _]]; auto.
  - destruct V as [_ (d & G & V)]. destruct (S1 _ _ V) as [X|[-> _]]; [now left|right].
    split; [reflexivity|]. right. right. exists b. split; [reflexivity|]. now rewrite G.
  - left. apply V.
  - destruct V as [_ (d & _ & V)]. rewrite V. unfold vset.
    destruct (path_eqb_spec q r) as [->|Nq]; [right; split; auto|].
    destruct (path_eqb_spec q p) as [->|Np]; [right; split; auto|now left].
  - destruct V as [_ [_ V]]. destruct (S1 _ _ V) as [X|[X Y]]; auto.
Qed.

(* calls on the one file p that leave the directories and the staging counter alone
   (StoreRun.call_in (eq p) without the renames), and what they do to its content *)
Definition on (p : path) (c : call) : Prop :=
  match c with
  | CCreate q | COpenAppend q | CAppend q _ | CSync q | CUnlink q => q = p
  | _ => False
  end.
Definition ceff (c : call) (o : option bytes) : option bytes :=
  match c with
  | CCreate _ => Some []
  | COpenAppend _ => match o with Some _ => o | None => Some [] end
  | CAppend _ b => option_map (fun d => d ++ b) o
  | CUnlink _ => None
  | _ => o
  end.

Lemma vset_id : forall (v : path -> option bytes) p q, vset v p (v p) q = v q.
Proof. intros v p q. unfold vset. now destruct (path_eqb_spec q p) as [->|]. Qed.

Lemma apply_call_on : forall p c x x', on p c -> FsWf x -> apply_call c x = Ok x' ->
  same_meta x x' /\ forall q, fdat x' q = vset (fdat x) p (ceff c (fdat x p)) q.
Proof.
  intros p c x x' Oc W E. destruct (apply_call_view c x x' W E) as (_ & _ & V).
  destruct c; cbn [on] in Oc; try contradiction; subst p0; cbn [ceff];
    (split; [exact (proj1 V)|]); intros q.
  - apply V.
  - rewrite (proj2 V). destruct (fdat x p) eqn:G; [rewrite <- G; symmetry; apply vset_id|reflexivity].
  - destruct V as [_ (d & G & V)]. now rewrite G.
  - rewrite (proj2 V). symmetry. apply vset_id.
  - apply V.
Qed.

Lemma eff_same : forall w w', Eff w w' -> same_meta (wfs w) (wfs w').
Proof. intros w w' (_ & _ & D & N). now split. Qed.

(* The invariant *)

Definition scratch (p : path) : Prop :=
  match p with PLock | PIndexTmp | PSettingsTmp => True | _ => False end.

Section CrashInv.
  Variable H : bytes -> bytes.
  Hypothesis H_len : forall b, length (H b) = 32%nat.
  Hypothesis H_byte : forall b, Forall (fun x => x < 256) (H b).
  Variable cfg : config.
  Hypothesis n_pos : 0 < c_n cfg.
  Let cmp := key_cmp (c_kt cfg).

  Local Notation item_of := (item_of H).
  Local Notation km_of := (km_of H).
  Local Notation NoCollide := (NoCollide H).
  Local Notation Live0 := (Live0 H cfg).
  Local Notation seg_of := (seg_of cfg).
  Local Notation DiskW := (DiskW H cfg).
  Local Notation DiskOkW := (DiskOkW H cfg).
  Local Notation DiskOk := (DiskOk H cfg).
  Local Notation Inv := (Inv H cfg).

  (* no staging file at or above the (ghost) staging counter *)
  Definition stage_fresh (x : fs) : Prop := forall i, nstage x <= i -> fdat x (PStaging i) = None.
  (* every content of the abstract map has its blob, with its bytes *)
  Definition cas_has (sg : smap bytes) (x : fs) : Prop :=
    forall k c, In (k, c) sg -> fdat x (cas_path (H c)) = Some c.
  (* a settings file that promises the fan-out directories is right (for well-formed hashes:
     bytes < 256, as in StoreInv.dirs_ok; satisfiable: PreCreate.pre_dirs_after_fresh_open) *)
  Definition pre_dirs (pre : bool) (x : fs) : Prop :=
    pre = true -> forall h, length h = 32%nat -> Forall (fun b => b < 256) h ->
                  parent_ok x (cas_path h) = true.

  Definition Aux (pre : bool) (sg : smap bytes) (x : fs) : Prop :=
    FsWf x /\ stage_fresh x /\ pre_dirs pre x /\ cas_has sg x.

  (* an initialised directory: snapshot version c, next version nv, seal bound sb, stored
     pre-creation flag pre -- the DiskW view of DiskInv.v plus the CAS part *)
  Definition RestP (c nv sb : N) (pre : bool) (sg : smap bytes) (x : fs) : Prop :=
    Aux pre sg x /\ DiskOkW c nv sb pre (fdat x) sg.

  (* first-time initialisation not finished: no settings file yet (then there is no snapshot
     and no segment either, the map is empty and open initialises again).  Either choice of
     pre_create_cas_dirs: nothing is said about the directories, so with c_pre cfg = true ANY
     part of the fan-out tree under cas/ may exist already (the first open was killed in the
     middle of the mkdir loop: the settings file is written only after the loop, and the next
     open runs the loop again, skipping what exists).  The settings file stores
     num_ops_per_wal as a u64 *)
  Definition RestF (sg : smap bytes) (x : fs) : Prop :=
    sg = [] /\ c_n cfg < 2 ^ 64 /\ FsWf x /\ stage_fresh x /\
    fdat x PSettings = None /\ fdat x PIndex = None /\ forall i, fdat x (PWal i) = None.

  (* THE memory-less invariant: recovery from x yields exactly sg.  The seal bound is the
     segment of the NEXT version: the last segment may be sealed already (crash between the
     seal and the first append to the next segment).  Leftovers are tolerated: unreferenced
     blobs, staging files below the counter, index.tmp, db_settings.json.tmp, the lock file,
     stale segments (they are ordinary members of the DiskW view), a sealed or unsealed last
     segment, an empty or missing next segment. *)
  Definition Rest (x : fs) (sg : smap bytes) : Prop :=
    sorted cmp sg /\ NoCollide (map snd sg) /\
    ((exists c nv pre, RestP c nv (seg_of nv) pre sg x) \/ RestF sg x).

  (* The handle invariant that recovery re-establishes.  [DiskOk] of DiskInv.v demands that
     no segment at or above the segment of the LAST WRITTEN version is sealed.  That is false
     after a crash between the seal of a full segment and the first append to the next one,
     and stays false after the recovery from it (recovery does not unseal).  What holds, and
     what every operation needs, is: a handle WITHOUT an active writer (fresh from open) has
     no sealed segment at or above the segment of the NEXT version; a handle with an active
     writer satisfies the strict [DiskOk]. *)
  Definition DiskOk' (m : mem) (s : fs) (sg : smap bytes) : Prop :=
    DiskOkW (lpv (idx m)) (nextv (mwal m))
            (match writer (mwal m) with
             | None => seg_of (nextv (mwal m))
             | Some _ => seg_of (nextv (mwal m) - 1)
             end) (mpre m) (fdat s) sg.
  Definition Inv' (m : mem) (s : fs) (sg : smap bytes) : Prop :=
    Live0 m s sg /\ DiskOk' m s sg /\ FsWf s.

  Lemma seg_of_pred_le : forall nv, seg_of (nv - 1) <= seg_of nv.
  Proof. intros nv. apply (seg_of_mono cfg n_pos). lia. Qed.

  Lemma inv_inv' : forall m s sg, Inv m s sg -> Inv' m s sg.
  Proof.
    intros m s sg (L & D & W). split; [exact L|]. split; [|exact W]. unfold DiskOk'.
    destruct (writer (mwal m)); [exact D|].
    eapply (DiskOkW_weaken_sb H H_len H_byte cfg n_pos); [|exact D]. apply seg_of_pred_le.
  Qed.

  (* with an active writer (i.e. after any logging operation) the strict invariant holds *)
  Lemma inv'_inv : forall m s sg, Inv' m s sg -> writer (mwal m) <> None -> Inv m s sg.
  Proof.
    intros m s sg (L & D & W) Wr. split; [exact L|]. split; [|exact W].
    unfold DiskOk' in D. destruct (writer (mwal m)); [exact D|contradiction].
  Qed.

  Lemma inv'_buf : forall m s sg, Inv' m s sg -> forall s0 b, writer (mwal m) = Some (s0, b) -> b = [].
  Proof.
    intros m s sg (L & _) s0 b Wr. destruct (lv_wal _ _ _ _ _ L) as [_ Hw]. rewrite Wr in Hw.
    exact (proj1 Hw).
  Qed.

  Lemma diskok'_weak : forall m s sg, DiskOk' m s sg ->
    DiskOkW (lpv (idx m)) (nextv (mwal m)) (seg_of (nextv (mwal m))) (mpre m) (fdat s) sg.
  Proof.
    intros m s sg D. unfold DiskOk' in D. destruct (writer (mwal m)); [|exact D].
    eapply (DiskOkW_weaken_sb H H_len H_byte cfg n_pos); [|exact D]. apply seg_of_pred_le.
  Qed.

  Lemma live_aux : forall m s sg, Live0 m s sg -> FsWf s -> Aux (mpre m) sg s.
  Proof.
    intros m s sg [_ _ _ _ Hcas Hst (_ & _ & D3) _] W. split; [exact W|]. split; [|split].
    - intros i Li. apply fdat_none. now apply Hst.
    - exact D3.
    - intros k c Ik. destruct (Hcas k c Ik) as (f & G & Df). apply fdat_some. now exists f.
  Qed.

  Lemma rest_of_inv' : forall m s sg, Inv' m s sg -> Rest s sg.
  Proof.
    intros m s sg (L & D & W). split; [exact (lv_sorted _ _ _ _ _ L)|].
    split; [exact (lv_nocollide _ _ _ _ _ L)|]. left.
    exists (lpv (idx m)), (nextv (mwal m)), (mpre m). split; [now apply live_aux|].
    now apply diskok'_weak.
  Qed.

  (* the invariant of an open handle implies the memory-less invariant *)
  Theorem rest_of_inv : forall m s sg, Inv m s sg -> Rest s sg.
  Proof. intros m s sg IV. eapply rest_of_inv', inv_inv', IV. Qed.

  (* The invariant with a bound on the next version.  After a crash the version counter is
     recomputed from the disk.  To follow a whole history (CrashHist.v) one needs to know that
     it did not run ahead: RestB B is Rest together with "the next version recovery will
     compute is at most B". *)
  Definition RestB (B : N) (x : fs) (sg : smap bytes) : Prop :=
    sorted cmp sg /\ NoCollide (map snd sg) /\
    ((exists c nv pre, nv <= B /\ RestP c nv (seg_of nv) pre sg x) \/ RestF sg x).

  (* "the old map or the new map": the shape of the statements about crashed operations *)
  Definition RestD (sg sg' : smap bytes) (x : fs) : Prop := Rest x sg \/ Rest x sg'.
  Definition RestDB (B : N) (sg sg' : smap bytes) (x : fs) : Prop := RestB B x sg \/ RestB B x sg'.

  Lemma restb_rest : forall B x sg, RestB B x sg -> Rest x sg.
  Proof.
    intros B x sg (Ss & Nc & [(c & nv & pre & _ & R)|R]); (split; [exact Ss|split; [exact Nc|]]);
      [left; now exists c, nv, pre|now right].
  Qed.

  Lemma rest_bounded : forall x sg, Rest x sg -> exists B, RestB B x sg.
  Proof using.
    intros x sg (Ss & Nc & [(c & nv & pre & R)|R]).
    - exists nv. split; [exact Ss|]. split; [exact Nc|]. left. exists c, nv, pre.
      split; [apply N.le_refl|exact R].
    - exists 0. split; [exact Ss|]. split; [exact Nc|]. now right.
  Qed.

  Lemma restb_mono : forall B B' x sg, B <= B' -> RestB B x sg -> RestB B' x sg.
  Proof.
    intros B B' x sg L (Ss & Nc & [(c & nv & pre & Ln & R)|R]); (split; [exact Ss|split; [exact Nc|]]);
      [left; exists c, nv, pre; split; [lia|exact R]|now right].
  Qed.

  Lemma rest_restb : forall x sg, Rest x sg -> exists B, 1 <= B /\ RestB B x sg.
  Proof.
    intros x sg R. destruct (rest_bounded x sg R) as (B & RB). exists (B + 1). split; [lia|].
    eapply restb_mono; [|exact RB]. lia.
  Qed.

  Lemma restdb_rest : forall B sg sg' x, RestDB B sg sg' x -> RestD sg sg' x.
  Proof. intros B sg sg' x [R|R]; [left|right]; eapply restb_rest; exact R. Qed.

  (* from a walk with the bound to the statements about crashed operations *)
  Lemma walk_restdb_along : forall B sg sg' w w', Walk (RestDB B sg sg') w w' ->
    Along (fun x => Rest x sg \/ Rest x sg') w w'.
  Proof.
    intros B sg sg' w w' K. eapply along_weaken; [|exact (walk_along _ _ _ K)]. apply restdb_rest.
  Qed.

  Lemma walk_restb_along : forall B sg w w', Walk (fun x => RestB B x sg) w w' ->
    Along (fun x => Rest x sg) w w'.
  Proof.
    intros B sg w w' K. eapply along_weaken; [|exact (walk_along _ _ _ K)]. intros x. apply restb_rest.
  Qed.

  Lemma restp_restb : forall B c nv sb pre sg x, sorted cmp sg -> NoCollide (map snd sg) ->
    sb <= seg_of nv -> nv <= B -> RestP c nv sb pre sg x -> RestB B x sg.
  Proof.
    intros B c nv sb pre sg x Ss Nc L Ln [A D]. split; [exact Ss|]. split; [exact Nc|]. left.
    exists c, nv, pre. split; [exact Ln|]. split; [exact A|].
    eapply (DiskOkW_weaken_sb H H_len H_byte cfg n_pos); eassumption.
  Qed.

  (* What the invariant does not look at *)

  Lemma pre_dirs_mono : forall pre x x', (forall d, In d (dirs x) -> In d (dirs x')) ->
    pre_dirs pre x -> pre_dirs pre x'.
  Proof.
    intros pre x x' Di P E h Lh Bh. specialize (P E h Lh Bh). unfold parent_ok in *.
    destruct (parent_dir (cas_path h)); [|reflexivity]. apply has_dir_iff, Di, has_dir_iff, P.
  Qed.

  Lemma aux_agree : forall pre sg x x', Aux pre sg x -> FsWf x' -> stage_fresh x' ->
    (forall d, In d (dirs x) -> In d (dirs x')) ->
    (forall k c, In (k, c) sg -> fdat x' (cas_path (H c)) = fdat x (cas_path (H c))) ->
    Aux pre sg x'.
  Proof.
    intros pre sg x x' (_ & _ & P & C) W' S' Di Ca. split; [exact W'|]. split; [exact S'|].
    split; [eapply pre_dirs_mono; eassumption|]. intros k c Ik. rewrite (Ca k c Ik). now apply (C k).
  Qed.

  (* The paths whose data the invariant for the map sg looks at.  [Sees R P]: P implies
     well-formedness and a fresh staging counter, and beyond these looks at a filesystem only
     through its directories (monotonically) and the data of the paths in R. *)
  Definition looked (sg : smap bytes) (q : path) : Prop :=
    match q with
    | PSettings | PIndex | PWal _ => True
    | PCas l => exists k c, In (k, c) sg /\ l = hexpath (H c)
    | _ => False
    end.

  Definition Sees (R : path -> Prop) (P : fs -> Prop) : Prop :=
    (forall x, P x -> FsWf x /\ stage_fresh x) /\
    forall x y, P x -> FsWf y -> stage_fresh y -> (forall d, In d (dirs x) -> In d (dirs y)) ->
      (forall q, R q -> fdat y q = fdat x q) -> P y.

  Lemma looked_blob : forall sg k c, In (k, c) sg -> looked sg (cas_path (H c)).
  Proof. intros sg k c Ik. now exists k, c. Qed.

  Lemma sees_restp : forall c nv sb pre sg, Sees (looked sg) (RestP c nv sb pre sg).
  Proof.
    intros c nv sb pre sg. split; [intros x [(W & Sf & _) _]; now split|].
    intros x y [A D] W S Di V. split.
    - eapply aux_agree; try eassumption. intros k c0 Ik. eapply V, looked_blob, Ik.
    - eapply (DiskOkW_ext H cfg); [| | |exact D]; intros; now apply V.
  Qed.

  Lemma sees_restf : forall sg sg', Sees (looked sg') (RestF sg).
  Proof.
    intros sg sg'. split; [intros x (_ & _ & W & Sf & _); now split|].
    intros x y (E & Nf & _ & _ & G1 & G2 & G3) W S _ V. repeat (split; [assumption|]).
    rewrite !V by exact I. split; [exact G1|]. split; [exact G2|]. intros i. now rewrite V.
  Qed.

  (* the calls every state of the invariant tolerates: directories, syncs, anything on the
     scratch files (lock, index.tmp, settings.tmp), writes to and removal of staging files,
     removal of blobs the map does not reference *)
  Definition unref (sg : smap bytes) (p : path) : Prop :=
    forall k c, In (k, c) sg -> cas_path (H c) <> p.
  Definition harmless (sg : smap bytes) (c : call) : Prop :=
    match c with
    | CMkdir _ | CSync _ => True
    | CCreate p | COpenAppend p | CCreateExcl p => scratch p
    | CAppend p _ => scratch p \/ is_staging p
    | CUnlink p => scratch p \/ is_staging p \/ (is_cas p /\ unref sg p)
    | CRename p q => scratch p /\ scratch q
    end.

  (* a harmless call touches nothing the invariant looks at, and creates scratch files only *)
  Lemma harmless_touched : forall sg c q, harmless sg c -> touched c q -> ~ looked sg q.
  Proof.
    assert (Sc : forall sg p, scratch p -> ~ looked sg p) by (intros sg [] X L; contradiction).
    assert (St : forall sg p, is_staging p -> ~ looked sg p) by (intros sg [] X L; contradiction).
    intros sg c q Hh T. destruct c as [d|p|p|p|p b|p|p r|p]; cbn [harmless touched] in Hh, T;
      try contradiction; try (subst q; now apply Sc).
    - subst q. destruct Hh; [now apply Sc|now apply St].
    - destruct Hh, T; subst q; now apply Sc.
    - subst q. destruct Hh as [X|[X|[X Un]]]; [now apply Sc|now apply St|].
      destruct p; try contradiction. intros (k & c & Ik & ->). now apply (Un k c Ik).
  Qed.

  Lemma harmless_creates : forall sg c q, harmless sg c -> creates c q -> scratch q.
  Proof.
    intros sg c q Hh T. destruct c; cbn [harmless creates] in Hh, T; try contradiction;
      subst q; tauto.
  Qed.

  Lemma harmless_sees : forall sg c x x', harmless sg c -> FsWf x -> stage_fresh x ->
    apply_call c x = Ok x' ->
    FsWf x' /\ stage_fresh x' /\ (forall d, In d (dirs x) -> In d (dirs x')) /\
    forall q, looked sg q -> fdat x' q = fdat x q.
  Proof.
    intros sg c x x' Hh W Sf E. destruct (apply_call_view c x x' W E) as (W' & Di & V).
    split; [exact W'|]. split; [|split; [exact Di|]].
    - assert (Ns : nstage x' = nstage x).
      { destruct c; cbn [harmless] in Hh; try (destruct V as [[_ Ns] _]; exact Ns).
        - exact (proj1 V).
        - destruct V as (_ & _ & Ns & _). destruct p; try contradiction; exact Ns. }
      intros i Li. rewrite Ns in Li.
      destruct (apply_call_at c x x' (PStaging i) W E) as [X|(_ & [X|[X|(b & _ & X)]])].
      + rewrite X. now apply Sf.
      + destruct (harmless_creates _ _ _ Hh X).
      + exact X.
      + destruct X. now apply Sf.
    - intros q L. destruct (apply_call_at c x x' q W E) as [X|(T & _)]; [exact X|].
      destruct (harmless_touched _ _ _ Hh T L).
  Qed.

  Lemma sees_keeps : forall sg P cl, Sees (looked sg) P -> harmless sg cl -> call_keeps P cl.
  Proof.
    intros sg P cl [Wf Ag] Hh x x' Px E. destruct (Wf x Px) as [W Sf].
    destruct (harmless_sees sg cl x x' Hh W Sf E) as (W' & S' & Di & V). now apply (Ag x x').
  Qed.

  Lemma keeps_or : forall (P Q : fs -> Prop) cl, call_keeps P cl -> call_keeps Q cl ->
    call_keeps (fun x => P x \/ Q x) cl.
  Proof. intros P Q cl KP KQ x x' [X|X] E; [left; eapply KP|right; eapply KQ]; eassumption. Qed.

  (* a filesystem with the same data and staging counter and at least the directories *)
  Lemma sees_view_eq : forall R (P : fs -> Prop) x x', Sees R P -> P x -> FsWf x' ->
    (forall d, In d (dirs x) -> In d (dirs x')) -> nstage x' = nstage x ->
    (forall q, fdat x' q = fdat x q) -> P x'.
  Proof.
    intros R P x x' [Wf Ag] Px W' Di Ns V. apply (Ag x x'); auto.
    intros i Li. rewrite Ns in Li. rewrite V. now apply (proj2 (Wf x Px)).
  Qed.

  Lemma restp_keeps : forall c nv sb pre sg cl, harmless sg cl ->
    call_keeps (RestP c nv sb pre sg) cl.
  Proof. intros c nv sb pre sg cl. apply sees_keeps, sees_restp. Qed.

  Lemma restf_keeps : forall sg cl, harmless [] cl -> call_keeps (RestF sg) cl.
  Proof. intros sg cl. apply sees_keeps, sees_restf. Qed.

  (* the staging part of put: a new staging file at the counter, writes to staging files and
     directories (harmless), and the rename of a staging file onto the blob path of its content *)
  Definition stage_call (c : call) : Prop :=
    match c with
    | CMkdir _ => True
    | CAppend p _ | CSync p => is_staging p
    | _ => False
    end.

  Lemma stage_harmless : forall sg c, stage_call c -> harmless sg c.
  Proof using. intros sg c S. destruct c; cbn [stage_call harmless] in *; try contradiction; auto. Qed.

  Lemma sees_new_staging : forall sg (P : fs -> Prop) x x', Sees (looked sg) P -> P x ->
    apply_call (CCreateExcl (PStaging (nstage x))) x = Ok x' -> P x'.
  Proof using.
    intros sg P x x' [Wf Ag] Px E. destruct (Wf x Px) as [W Sf].
    destruct (apply_call_view _ _ _ W E) as (W' & Di & _ & _ & Ns & V).
    apply (Ag x x' Px W'); [|exact Di|].
    - intros i Li. rewrite Ns in Li. rewrite V, vset_other; [apply Sf; clear - Li; lia|].
      intros X. inversion X. clear - Li H1. lia.
    - intros q Lq. rewrite V. apply vset_other. intros ->. destruct Lq.
  Qed.

  (* a blob the map references already is renamed onto itself, by collision-freedom *)
  Lemma sees_rename_blob : forall sg (P : fs -> Prop) i c x x', Sees (looked sg) P ->
    (forall y, P y -> cas_has sg y) -> NoCollide (c :: map snd sg) -> P x ->
    apply_call (CRename (PStaging i) (cas_path (H c))) x = Ok x' ->
    fdat x' (cas_path (H c)) = Some c -> P x'.
  Proof.
    intros sg P i c x x' [Wf Ag] Ca NC Px E G. destruct (Wf x Px) as [W Sf].
    destruct (apply_call_view _ _ _ W E) as (W' & Di & [_ Ns] & d & _ & V).
    rewrite V, vset_same in G. inversion G; subst d.
    apply (Ag x x' Px W'); [|exact Di|].
    - intros j Lj. rewrite Ns in Lj. rewrite V, vset_other by discriminate. unfold vset.
      destruct (path_eqb (PStaging j) (PStaging i)); [reflexivity|now apply Sf].
    - intros q Lq. rewrite V. unfold vset at 1.
      destruct (path_eqb_spec q (cas_path (H c))) as [->|N].
      + destruct Lq as (k & c1 & Ik & Eh).
        assert (c = c1).
        { apply NC; [now left|right; apply in_map_iff; now exists (k, c1)|].
          apply (cas_path_inj H H_len H_byte). unfold cas_path. now rewrite Eh. }
        subst c1. symmetry. now apply (Ca x Px k).
      + apply vset_other. intros ->. destruct Lq.
  Qed.

  (* stale segments: any segments below the segment of the snapshot version may be dropped *)
  Lemma V_drop : forall c nv sb pre dv dv' sg,
    DiskOkW c nv sb pre dv sg ->
    dv' PSettings = dv PSettings -> dv' PIndex = dv PIndex ->
    (forall i, dv' (PWal i) = dv (PWal i) \/ (i < seg_of c /\ dv' (PWal i) = None)) ->
    DiskOkW c nv sb pre dv' sg.
  Proof using H_len H_byte n_pos.
    intros c nv sb pre dv dv' sg (ids & rf & sf & km_c & ops & D) Es Ei Ew.
    destruct D as [d_sg d_set d_snap d_kmc d_asc d_in d_out d_seg d_filter d_nv d_nvfit d_opsfit d_opsok d_fold].
    set (keep := fun i => match dv' (PWal i) with Some _ => true | None => false end).
    exists (filter keep ids), rf, sf, km_c, ops.
    assert (Kt : forall i, In i ids -> keep i = true -> dv' (PWal i) = dv (PWal i)).
    { intros i Ii K. unfold keep in K. destruct (Ew i) as [X|[_ X]]; [exact X|].
      rewrite X in K. discriminate. }
    constructor; try assumption.
    - now rewrite Es.
    - unfold snap_ok. now rewrite Ei.
    - now apply asc_filter.
    - intros i Ii. apply filter_In in Ii. destruct Ii as [Ii K]. rewrite (Kt i Ii K). auto.
    - intros i Ni. destruct (in_dec N.eq_dec i ids) as [Ii|Ii].
      + destruct (keep i) eqn:K; [exfalso; apply Ni, filter_In; now split|].
        unfold keep in K. destruct (dv' (PWal i)); [discriminate|reflexivity].
      + destruct (Ew i) as [X|[_ X]]; [|exact X]. rewrite X. auto.
    - intros i Ii. apply filter_In in Ii. apply d_seg, Ii.
    - rewrite filter_flat_map_skip; [exact d_filter|].
      intros i Ii K. apply filter_none. intros r Ir.
      assert (Lt : i < seg_of c).
      { destruct (Ew i) as [X|[X _]]; [|exact X]. exfalso. unfold keep in K.
        rewrite X, (d_in i Ii) in K. discriminate. }
      destruct (d_seg i Ii) as (_ & S2 & _). rewrite Forall_forall in S2. specialize (S2 r Ir).
      destruct (c <? fst r) eqn:Cr; [|reflexivity]. exfalso. apply N.ltb_lt in Cr.
      pose proof (seg_of_mono cfg n_pos c (fst r) (N.lt_le_incl _ _ Cr)) as Hm. rewrite S2 in Hm.
      exact (proj1 (N.lt_nge _ _) Lt Hm).
  Qed.

  Lemma restp_keeps_drop : forall c nv sb pre sg i, i < seg_of c ->
    call_keeps (RestP c nv sb pre sg) (CUnlink (PWal i)).
  Proof.
    intros c nv sb pre sg i Li x x' [A D] E. pose proof A as (W & Sf & _).
    destruct (apply_call_view _ x x' W E) as (W' & Di & [_ Ns] & _ & V).
    split.
    - eapply aux_agree; [exact A|exact W'| |exact Di|].
      + intros j Lj. rewrite Ns in Lj. rewrite V, vset_other by discriminate. now apply Sf.
      + intros k c0 _. rewrite V. apply vset_other. discriminate.
    - eapply V_drop; [exact D| | |].
      + rewrite V. apply vset_other. discriminate.
      + rewrite V. apply vset_other. discriminate.
      + intros j. rewrite V. unfold vset. destruct (path_eqb_spec (PWal j) (PWal i)) as [X|X].
        * inversion X; subst j. right. now split.
        * now left.
  Qed.

  Lemma sees_restb : forall B sg, Sees (looked sg) (fun x => RestB B x sg).
  Proof.
    intros B sg. split.
    - intros x (_ & _ & [(c & nv & pre & _ & R)|R]);
        [exact (proj1 (sees_restp _ _ _ _ _) x R)|exact (proj1 (sees_restf _ sg) x R)].
    - intros x y (Ss & Nc & R) W S Di V. split; [exact Ss|]. split; [exact Nc|].
      destruct R as [(c & nv & pre & L & R)|R].
      + left. exists c, nv, pre. split; [exact L|]. eapply (proj2 (sees_restp _ _ _ _ _)); eassumption.
      + right. eapply (proj2 (sees_restf _ sg)); eassumption.
  Qed.

  Lemma sees_rest : forall sg, Sees (looked sg) (fun x => Rest x sg).
  Proof.
    intros sg. split.
    - intros x R. destruct (rest_bounded _ _ R) as (B & RB). exact (proj1 (sees_restb B sg) x RB).
    - intros x y R W S Di V. destruct (rest_bounded _ _ R) as (B & RB).
      eapply restb_rest, (proj2 (sees_restb B sg)); eassumption.
  Qed.

  Lemma restb_wf : forall B x sg, RestB B x sg -> FsWf x.
  Proof. intros B x sg R. exact (proj1 (proj1 (sees_restb B sg) x R)). Qed.

  Lemma rest_fresh : forall x sg, Rest x sg -> stage_fresh x.
  Proof. intros x sg R. exact (proj2 (proj1 (sees_rest sg) x R)). Qed.

  Lemma restb_keeps : forall B sg cl, harmless sg cl -> call_keeps (fun x => RestB B x sg) cl.
  Proof. intros B sg cl. apply sees_keeps, sees_restb. Qed.

  Lemma rest_keeps : forall sg cl, harmless sg cl -> call_keeps (fun x => Rest x sg) cl.
  Proof. intros sg cl. apply sees_keeps, sees_rest. Qed.

  Lemma restd_keeps : forall sg sg' cl, harmless sg cl -> harmless sg' cl ->
    call_keeps (RestD sg sg') cl.
  Proof. intros sg sg' cl H1 H2. apply keeps_or; now apply rest_keeps. Qed.

  Lemma restdb_keeps : forall B sg sg' cl, harmless sg cl -> harmless sg' cl ->
    call_keeps (RestDB B sg sg') cl.
  Proof. intros B sg sg' cl H1 H2. apply keeps_or; now apply restb_keeps. Qed.

  (* Rest and RestB pass to any filesystem with the same data view and staging counter and at
     least the directories *)
  Lemma view_eq_rest : forall sg x x', Rest x sg -> FsWf x' ->
    (forall d, In d (dirs x) -> In d (dirs x')) -> nstage x' = nstage x ->
    (forall q, fdat x' q = fdat x q) -> Rest x' sg.
  Proof. intros sg x x'. apply (sees_view_eq _ _ x x' (sees_rest sg)). Qed.

  Lemma view_eq_restb : forall B sg x x', RestB B x sg -> FsWf x' ->
    (forall d, In d (dirs x) -> In d (dirs x')) -> nstage x' = nstage x ->
    (forall q, fdat x' q = fdat x q) -> RestB B x' sg.
  Proof. intros B sg x x'. apply (sees_view_eq _ _ x x' (sees_restb B sg)). Qed.
End CrashInv.

Print Assumptions walk_trans.
Print Assumptions walk_call.
Print Assumptions replay_trace.
Print Assumptions apply_call_view.
Print Assumptions rest_of_inv.
Print Assumptions rest_keeps.
Print Assumptions V_drop.
