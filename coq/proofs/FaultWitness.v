(* FaultWitness.v -- C14 (a failed I/O call is contained to the operation that hit it) is FALSE
   for the model once a reopen is part of the history: known finding F4, by computation.

   When the WAL append (or the WAL fdatasync) of an operation fails, the operation returns an
   error and the in-memory index is unchanged -- but the record stays in the segment writer's
   BufWriter (model: writer (mwal m) = Some (seg, buf) with buf <> []), resp. in the file, and
   becomes durable with the next append or on close.  If the blob the record names is reclaimed
   afterwards, a later open replays a Put whose blob is missing.

   The history (toy hash, num_ops_per_wal = 8, sync mode, orphan scan + integrity gate on):
       open ; put kB X ; put kA X  <- EIO at the WAL append ; remove kB ; close ; open
   put kA fails (Err EWalIo) and a read of kA still answers "absent"; remove kB succeeds and
   reclaims blob X (its only reference in memory); the reopen replays  Put kB X, Put kA X,
   Remove kB  and finds kA -> X without blob X.  The result is neither "put kA happened"
   (get kA would return X) nor "put kA did not happen" (the reopen would succeed, kA absent). *)
From Cas Require Import History.
From CasProofs Require Import StoreHist.
Open Scope N_scope.

(* key type, num_ops_per_wal, then: sync mode, pre_create_cas_dirs, scan_orphans_on_startup,
   verify_blob_integrity, fail_on_integrity_errors *)
Definition cfgK : config := mkConfig KBytes 8 true false true false true.
Definition kA : bytes := [1].
Definition kB : bytes := [2].
Definition cX : bytes := [10; 11; 12].

Definition opsK (gate : bool) : list op :=
  [OpOpen cfgK false; OpPut kB [cX]; OpPut kA [cX]; OpGet kA; OpRemove kB; OpClose;
   OpOpen cfgK gate].

(* The fault plan [Some n] fails the n-th effective call of the process, counted from 0 (FS.do_call).
   In the run of opsK without a fault (read off wtrace), calls 0-8 are the first open, 9-17 put kB,
   18-21 stage put kA's blob and rename it into cas/, call 22 appends put kA's record to wal/0 and
   call 23 is the fdatasync of that segment: these two are the indices used below. *)

(* the injected fault hit an append to / an fdatasync of a WAL segment *)
Definition fault_hits_wal_append (w : world) : Prop :=
  existsb (fun e => match e with TFault (CAppend (PWal _) _) => true | _ => false end) (wtrace w) = true.
Definition fault_hits_wal_sync (w : world) : Prop :=
  existsb (fun e => match e with TFault (CSync (PWal _)) => true | _ => false end) (wtrace w) = true.

Definition outs_of (r : list out * option handle * world) : list out := fst (fst r).
Definition world_of (r : list out * option handle * world) : world := snd r.

(* the integrity gate of the reopen rejects the database *)
Theorem C14_refuted_on_known_class :
  exists n ops,
    let r := run_hist toyH empty_fs (Some n) ops in
    fault_hits_wal_append (world_of r) /\ last (outs_of r) OutUnit = OutErr EIntegrity.
Proof. exists 22%nat, (opsK true). vm_compute. split; reflexivity. Qed.

(* the whole output sequence: the failed put reports EWalIo, the read after it says "absent",
   everything else succeeds, the reopen fails *)
Example refutation_outputs :
  tl (outs_of (run_hist toyH empty_fs (Some 22%nat) (opsK true)))
  = [OutUnit; OutErr EWalIo; OutBytes None; OutBool true; OutUnit; OutErr EIntegrity].
Proof. vm_compute. reflexivity. Qed.

(* the same with the fault at the fdatasync of the segment instead of the append *)
Theorem C14_refuted_on_wal_sync :
  let r := run_hist toyH empty_fs (Some 23%nat) (opsK true) in
  fault_hits_wal_sync (world_of r) /\ last (outs_of r) OutUnit = OutErr EIntegrity.
Proof. vm_compute. split; reflexivity. Qed.

(* without the gate (open_with_recover): the open succeeds, reports the blob as missing, and
   kA is a key whose value cannot be read *)
Theorem C14_refuted_blob_missing :
  let r := run_hist toyH empty_fs (Some 22%nat) (opsK false ++ [OpGet kA; OpGetSize kA]) in
  fault_hits_wal_append (world_of r) /\
  (exists o, nth 6 (outs_of r) OutUnit = OutOpened (Some o) /\ o_missing o = [toyH cX]) /\
  nth 7 (outs_of r) OutUnit = OutErr EBlobMissing /\
  nth 8 (outs_of r) OutUnit = OutSize (Some 3).
Proof.
  vm_compute. split; [reflexivity|]. split; [|split; reflexivity].
  eexists. split; reflexivity.
Qed.

(* control: without a fault the same history reopens cleanly, kA holds X *)
Example no_fault_control :
  let r := run_hist toyH empty_fs None (opsK true ++ [OpGet kA]) in
  (exists o, nth 6 (outs_of r) OutUnit = OutOpened (Some o) /\ o_missing o = []) /\
  nth 7 (outs_of r) OutUnit = OutBytes (Some cX).
Proof. vm_compute. split; [|reflexivity]. eexists. split; reflexivity. Qed.

(* control: if put kA is left out altogether ("did not happen") the reopen succeeds as well *)
Example not_done_control :
  let r := run_hist toyH empty_fs None
             [OpOpen cfgK false; OpPut kB [cX]; OpRemove kB; OpClose; OpOpen cfgK true; OpGet kA] in
  (exists o, nth 4 (outs_of r) OutUnit = OutOpened (Some o) /\ o_missing o = []) /\
  nth 5 (outs_of r) OutUnit = OutBytes None.
Proof. vm_compute. split; [|reflexivity]. eexists. split; reflexivity. Qed.

(* the mechanism: after the failed put the record sits in the writer's buffer *)
Example record_left_in_buffer :
  match snd (fst (run_hist toyH empty_fs (Some 22%nat)
                    [OpOpen cfgK false; OpPut kB [cX]; OpPut kA [cX]])) with
  | Some h => match writer (mwal (h_mem h)) with
              | Some (_, buf) => negb (len buf =? 0) && (nextv (mwal (h_mem h)) =? 3)
              | None => false
              end
  | None => false
  end = true.
Proof. vm_compute. reflexivity. Qed.

Print Assumptions C14_refuted_on_known_class.
Print Assumptions C14_refuted_on_wal_sync.
Print Assumptions C14_refuted_blob_missing.
