(* CodecProofs.v -- properties of theories/Codec.v: counted sequences and their independence
   of the fuel, decoder-after-encoder round trips (dec_op, dec_snapshot), from_raw, the
   allocation bound, record framing and damage detection, concrete examples. *)
From Coq Require Import ZifyBool ZifyNat ZifyN.
From Cas Require Import Base Codec.
From CasProofs Require Import CodecBase.
Open Scope N_scope.

(* [2^32] and [2^64] as numerals, so that [lia] can use the bounds *)
Ltac pow_consts :=
  change (2 ^ 32) with 4294967296 in *;
  change (2 ^ 64) with 18446744073709551616 in *.

Definition key_fits (k : bytes) : Prop := len k < 2 ^ 32.
Definition hash_ok (h : bytes) : Prop := length h = 32%nat.
Definition op_fits (o : rawop) : Prop :=
  match o with
  | RPut k h sz => key_fits k /\ hash_ok h /\ sz < 2 ^ 64
  | RRemove ks => N.of_nat (length ks) < 2 ^ 32 /\ Forall key_fits ks
  end.
Definition entry_fits (e : entry) : Prop :=
  key_fits (fst e) /\ hash_ok (ihash (snd e)) /\ isize (snd e) < 2 ^ 64.

Lemma key_fits_small (k : bytes) : (length k < 1000)%nat -> key_fits k.
Proof. unfold key_fits, len. pow_consts. lia. Qed.

Example key_fits_ex : key_fits [1; 2; 3].
Proof. apply key_fits_small. cbn. lia. Qed.
Example hash_ok_ex : hash_ok (repeat 7 32).
Proof. reflexivity. Qed.
Example op_fits_put_ex : op_fits (RPut [1; 2; 3] (repeat 7 32) 12345).
Proof.
  cbn [op_fits]. split; [apply key_fits_ex|]. split; [apply hash_ok_ex|]. pow_consts. lia.
Qed.
Example op_fits_remove_ex : op_fits (RRemove [[1; 2; 3]; []; [255]]).
Proof.
  cbn [op_fits length]. split; [pow_consts; lia|].
  repeat constructor; apply key_fits_small; cbn; lia.
Qed.
Example entry_fits_ex : entry_fits ([104; 105], mkItem (repeat 0 32) 42).
Proof.
  unfold entry_fits. cbn [fst snd ihash isize].
  split; [apply key_fits_small; cbn; lia|]. split; [reflexivity|]. pow_consts. lia.
Qed.

Lemma read_fixed_app (n : nat) (a b : bytes) :
  length a = n -> read_fixed n (a ++ b) = Ok (a, b).
Proof. intro Hl. unfold read_fixed. now rewrite take_app. Qed.

Lemma read_u32_app v tl : v < 2 ^ 32 -> read_u32 (u32 v ++ tl) = Ok (v, tl).
Proof.
  intro Hv. unfold read_u32. rewrite read_fixed_app by apply length_u32.
  cbn [rbind]. now rewrite le_dec_u32.
Qed.

Lemma read_u64_app v tl : v < 2 ^ 64 -> read_u64 (u64 v ++ tl) = Ok (v, tl).
Proof.
  intro Hv. unfold read_u64. rewrite read_fixed_app by apply length_u64.
  cbn [rbind]. now rewrite le_dec_u64.
Qed.

Lemma read_bwl_app k tl : key_fits k -> read_bytes_with_len (enc_key k ++ tl) = Ok (k, tl).
Proof.
  intro Hk. unfold enc_key, read_bytes_with_len. rewrite <- app_assoc.
  rewrite read_u32_app by exact Hk. cbn [rbind]. now rewrite takeN_app.
Qed.

Lemma read_fixed_ok n bs h r : read_fixed n bs = Ok (h, r) -> bs = h ++ r /\ length h = n.
Proof.
  unfold read_fixed. destruct (take n bs) as [p|] eqn:E; [|discriminate].
  intros [= ->]. now apply take_some.
Qed.

Lemma read_fixed_len n bs h r : read_fixed n bs = Ok (h, r) -> length bs = (n + length r)%nat.
Proof. intros [-> <-]%read_fixed_ok. apply app_length. Qed.

Lemma read_u32_ok bs v r : read_u32 bs = Ok (v, r) -> length bs = (4 + length r)%nat.
Proof. intros ([h t] & E & [= _ <-])%rbind_ok. now apply read_fixed_len in E. Qed.

Lemma read_u64_ok bs v r : read_u64 bs = Ok (v, r) -> length bs = (8 + length r)%nat.
Proof. intros ([h t] & E & [= _ <-])%rbind_ok. now apply read_fixed_len in E. Qed.

Lemma read_bwl_ok bs k r :
  read_bytes_with_len bs = Ok (k, r) -> length bs = (4 + length k + length r)%nat.
Proof.
  intros ([n t] & E & Hq)%rbind_ok. apply read_u32_ok in E.
  destruct (takeN n t) as [p|] eqn:E2; [|discriminate]. injection Hq as ->.
  apply takeN_some in E2. destruct E2 as [-> _]. rewrite E, app_length. lia.
Qed.

(** * Counted sequences

    [read_keys] and [read_entries] are the same loop around two element readers; everything
    about the loop is proved once, for an arbitrary element reader [rd]. *)

Section ReadMany.
  Context {A : Type} (rd : bytes -> res derr (A * bytes)).

  Fixpoint read_many (fuel : nat) (cnt : N) (bs : bytes) : res derr (list A * bytes) :=
    if cnt =? 0 then Ok ([], bs) else
    match fuel with
    | O => Err DInsufficient
    | S f =>
      do* (a, r) <- rd bs;
      do* (l, r') <- read_many f (cnt - 1) r;
      Ok (a :: l, r')
    end.

  (* a successful run stays successful, with the same result, under any larger fuel, whatever
     the length of the input *)
  Lemma read_many_mono f : forall f' cnt bs x,
    read_many f cnt bs = Ok x -> (f <= f')%nat -> read_many f' cnt bs = Ok x.
  Proof.
    induction f as [|f IH]; intros f' cnt bs x Hr Hle.
    - destruct f'; cbn [read_many] in *; destruct (cnt =? 0); try discriminate; exact Hr.
    - destruct f' as [|f']; [lia|]. cbn [read_many] in *. destruct (cnt =? 0); [exact Hr|].
      apply rbind_ok in Hr as ([a r] & E & ([l r'] & E' & Hq)%rbind_ok).
      rewrite E. cbn [rbind]. rewrite (IH f' _ _ _ E') by lia. exact Hq.
  Qed.

  Lemma read_many_count f : forall cnt bs l r,
    read_many f cnt bs = Ok (l, r) -> N.of_nat (length l) = cnt.
  Proof.
    induction f as [|f IH]; intros cnt bs l r; cbn [read_many];
      destruct (N.eqb_spec cnt 0) as [->|Hc]; try discriminate; try (now intros [= <- _]).
    intros ([a r0] & _ & ([l' r'] & E' & [= <- _])%rbind_ok)%rbind_ok. apply IH in E'.
    cbn [length]. lia.
  Qed.

  (* an element reader that consumes [c] bytes of framing and [w a] bytes of content *)
  Variables (c : nat) (w : A -> nat).
  Hypothesis rd_len : forall bs a r, rd bs = Ok (a, r) -> length bs = (c + w a + length r)%nat.

  Lemma read_many_len f : forall cnt bs l r,
    read_many f cnt bs = Ok (l, r) ->
    (fold_right (fun a s => w a + s) 0 l + c * length l + length r = length bs)%nat.
  Proof.
    induction f as [|f IH]; intros cnt bs l r; cbn [read_many];
      destruct (cnt =? 0); try discriminate; try (intros [= <- <-]; cbn; lia).
    intros ([a r0] & E & ([l' r'] & E' & [= <- <-])%rbind_ok)%rbind_ok.
    apply rd_len in E. apply IH in E'. cbn [fold_right length]. lia.
  Qed.

  (* every iteration consumes at least [c] bytes, so any fuel above the input length will do *)
  Hypothesis c_pos : (0 < c)%nat.

  Lemma read_many_fuel f1 : forall f2 cnt bs,
    (length bs < f1)%nat -> (length bs < f2)%nat -> read_many f1 cnt bs = read_many f2 cnt bs.
  Proof.
    induction f1 as [|f1 IH]; intros f2 cnt bs H1 H2; [now apply Nat.nlt_0_r in H1|].
    destruct f2 as [|f2]; [now apply Nat.nlt_0_r in H2|]. cbn [read_many].
    destruct (cnt =? 0); [reflexivity|].
    destruct (rd bs) as [[a r]|e] eqn:E; cbn [rbind]; [|reflexivity].
    apply rd_len in E. rewrite (IH f2 (cnt - 1) r) by lia. reflexivity.
  Qed.

  (* reading back what an encoder [enc] of elements wrote *)
  Variables (enc : A -> bytes) (fits : A -> Prop).
  Hypothesis rd_enc : forall a tl, fits a -> rd (enc a ++ tl) = Ok (a, tl).

  Lemma read_many_enc l : forall f tl,
    Forall fits l -> (length l <= f)%nat ->
    read_many f (N.of_nat (length l)) (flat_map enc l ++ tl) = Ok (l, tl).
  Proof.
    induction l as [|a l IH]; intros f tl Hf Hle.
    - destruct f; reflexivity.
    - cbn [length] in Hle. destruct f as [|f]; [lia|].
      inversion Hf as [|? ? Ha Hl]; subst.
      cbn [read_many flat_map length]. rewrite Nat2N.inj_succ.
      destruct (N.eqb_spec (N.succ (N.of_nat (length l))) 0) as [Z|_]; [lia|].
      rewrite <- app_assoc, rd_enc by exact Ha. cbn [rbind].
      rewrite N.sub_1_r, N.pred_succ, IH by (auto; lia). reflexivity.
  Qed.

  Lemma flat_map_enc_length l : Forall fits l -> (length l <= length (flat_map enc l))%nat.
  Proof.
    induction 1 as [|a l Ha _ IH]; cbn [flat_map length]; [lia|].
    pose proof (rd_len _ _ _ (rd_enc a [] Ha)) as E. rewrite app_nil_r in E.
    rewrite app_length. lia.
  Qed.

  (* ... in particular with the fuel the decoders give the loop *)
  Corollary read_many_enc_all l tl :
    Forall fits l ->
    read_many (S (length (flat_map enc l ++ tl))) (N.of_nat (length l)) (flat_map enc l ++ tl)
    = Ok (l, tl).
  Proof.
    intro Hf. apply read_many_enc; [exact Hf|].
    rewrite app_length. pose proof (flat_map_enc_length l Hf). lia.
  Qed.
End ReadMany.

Lemma read_keys_many f : forall cnt bs, read_keys f cnt bs = read_many read_bytes_with_len f cnt bs.
Proof.
  induction f as [|f IH]; intros cnt bs; cbn [read_keys read_many]; [reflexivity|].
  destruct (cnt =? 0); [reflexivity|].
  destruct (read_bytes_with_len bs) as [[k r]|e]; cbn [rbind]; [|reflexivity].
  now rewrite IH.
Qed.

(* one entry of a snapshot: key, hash, size *)
Definition read_entry (bs : bytes) : res derr (entry * bytes) :=
  do* (k, r) <- read_bytes_with_len bs;
  do* (h, r1) <- read_fixed 32 r;
  do* (sz, r2) <- read_u64 r1;
  Ok ((k, mkItem h sz), r2).

Lemma read_entries_many f : forall cnt bs, read_entries f cnt bs = read_many read_entry f cnt bs.
Proof.
  induction f as [|f IH]; intros cnt bs; cbn [read_entries read_many]; [reflexivity|].
  destruct (cnt =? 0); [reflexivity|]. unfold read_entry.
  destruct (read_bytes_with_len bs) as [[k r]|e]; cbn [rbind]; [|reflexivity].
  destruct (read_fixed 32 r) as [[h r1]|e]; cbn [rbind]; [|reflexivity].
  destruct (read_u64 r1) as [[sz r2]|e]; cbn [rbind]; [|reflexivity].
  now rewrite IH.
Qed.

Lemma read_entry_ok bs e r :
  read_entry bs = Ok (e, r) ->
  length bs = (12 + (length (fst e) + length (ihash (snd e))) + length r)%nat.
Proof.
  intros ([k r0] & E & ([h r1] & E1 & ([sz r2] & E2 & [= <- <-])%rbind_ok)%rbind_ok)%rbind_ok.
  apply read_bwl_ok in E. apply read_fixed_ok in E1. destruct E1 as [-> Hh].
  apply read_u64_ok in E2. rewrite app_length in E. cbn [fst snd ihash]. lia.
Qed.

Lemma read_entry_app e tl : entry_fits e -> read_entry (enc_entry e ++ tl) = Ok (e, tl).
Proof.
  destruct e as [k [h sz]]. intros (Hk & Hh & Hsz). cbn [fst snd ihash isize] in *.
  unfold read_entry, enc_entry. cbn [fst snd ihash isize]. rewrite <- !app_assoc.
  rewrite read_bwl_app by exact Hk. cbn [rbind].
  rewrite read_fixed_app by exact Hh. cbn [rbind].
  rewrite read_u64_app by exact Hsz. reflexivity.
Qed.

(** * Fuel independence *)

Lemma read_keys_fuel f1 : forall f2 cnt bs,
  (length bs < f1)%nat -> (length bs < f2)%nat -> read_keys f1 cnt bs = read_keys f2 cnt bs.
Proof.
  intros. rewrite !read_keys_many. apply (read_many_fuel _ 4 _ read_bwl_ok); lia.
Qed.

Lemma read_entries_fuel f1 : forall f2 cnt bs,
  (length bs < f1)%nat -> (length bs < f2)%nat -> read_entries f1 cnt bs = read_entries f2 cnt bs.
Proof.
  intros. rewrite !read_entries_many. apply (read_many_fuel _ 12 _ read_entry_ok); lia.
Qed.

Lemma read_keys_fuel_mono f : forall f' cnt bs x,
  read_keys f cnt bs = Ok x -> (f <= f')%nat -> read_keys f' cnt bs = Ok x.
Proof. intros f' cnt bs x. rewrite !read_keys_many. apply read_many_mono. Qed.

Lemma read_entries_fuel_mono f : forall f' cnt bs x,
  read_entries f cnt bs = Ok x -> (f <= f')%nat -> read_entries f' cnt bs = Ok x.
Proof. intros f' cnt bs x. rewrite !read_entries_many. apply read_many_mono. Qed.

(** * dec_op after enc_op *)

Lemma enc_key_length k : length (enc_key k) = (4 + length k)%nat.
Proof. unfold enc_key. now rewrite app_length, length_u32. Qed.

Theorem dec_enc_op o tl : op_fits o -> dec_op (enc_op o ++ tl) = Ok o.
Proof.
  destruct o as [k h sz | ks]; cbn [op_fits enc_op]; unfold dec_op.
  - intros (Hk & Hh & Hsz). rewrite <- app_comm_cons. cbn [read_u8 rbind].
    change (0 =? 0) with true. cbv iota.
    rewrite <- !app_assoc.
    rewrite read_bwl_app by exact Hk. cbn [rbind].
    rewrite read_fixed_app by exact Hh. cbn [rbind].
    rewrite read_u64_app by exact Hsz. reflexivity.
  - intros (Hn & Hks). rewrite <- app_comm_cons. cbn [read_u8 rbind].
    change (1 =? 0) with false. change (1 =? 1) with true. cbv iota.
    rewrite <- !app_assoc.
    rewrite read_u32_app by exact Hn. cbn [rbind].
    rewrite read_keys_many.
    now rewrite (read_many_enc_all _ 4 _ read_bwl_ok (Nat.lt_0_succ _) _ _ read_bwl_app).
Qed.

Corollary dec_enc_op_nil o : op_fits o -> dec_op (enc_op o) = Ok o.
Proof. intro Hf. rewrite <- (app_nil_r (enc_op o)). now apply dec_enc_op. Qed.

Lemma enc_op_nonempty o : 0 < len (enc_op o).
Proof. destruct o; cbn [enc_op]; unfold len; cbn [length]; lia. Qed.

(** * dec_snapshot after enc_snapshot *)

Theorem dec_enc_snapshot ver es tl :
  ver < 2 ^ 64 -> N.of_nat (length es) < 2 ^ 32 -> Forall entry_fits es ->
  dec_snapshot (enc_snapshot ver es ++ tl) = Ok (ver, es).
Proof.
  intros Hv Hn Hes. unfold dec_snapshot, enc_snapshot. rewrite <- !app_assoc.
  rewrite read_u64_app by exact Hv. cbn [rbind].
  rewrite read_u32_app by exact Hn. cbn [rbind].
  rewrite read_entries_many.
  now rewrite (read_many_enc_all _ 12 _ read_entry_ok (Nat.lt_0_succ _) _ _ read_entry_app).
Qed.

Corollary dec_enc_snapshot_nil ver es :
  ver < 2 ^ 64 -> N.of_nat (length es) < 2 ^ 32 -> Forall entry_fits es ->
  dec_snapshot (enc_snapshot ver es) = Ok (ver, es).
Proof.
  intros. rewrite <- (app_nil_r (enc_snapshot ver es)). now apply dec_enc_snapshot.
Qed.

(** * from_raw *)

Definition op_keys (o : rawop) : list bytes :=
  match o with RPut k _ _ => [k] | RRemove ks => ks end.
Definition keys_valid (t : ktype) (ks : list bytes) : Prop :=
  Forall (fun k => key_valid t k = true) ks.

Lemma first_invalid_none t ks : forall i, first_invalid t i ks = None <-> keys_valid t ks.
Proof.
  induction ks as [|k ks IH]; intro i; cbn [first_invalid].
  - split; [constructor | reflexivity].
  - destruct (key_valid t k) eqn:E.
    + rewrite IH. split; [now constructor | now inversion 1].
    + split; [discriminate|]. inversion 1; congruence.
Qed.

Theorem from_raw_valid t o : keys_valid t (op_keys o) -> from_raw t o = Ok o.
Proof.
  destruct o as [k h sz | ks]; cbn [op_keys from_raw]; intro Hv.
  - inversion Hv as [|? ? Hk _]; subst. now rewrite Hk.
  - apply (first_invalid_none t ks 0%nat) in Hv. now rewrite Hv.
Qed.

Theorem from_raw_ok_inv t o o' : from_raw t o = Ok o' -> o' = o /\ keys_valid t (op_keys o).
Proof.
  destruct o as [k h sz | ks]; cbn [op_keys from_raw].
  - destruct (key_valid t k) eqn:E; [|discriminate].
    intro Hq. inversion Hq. split; [reflexivity|]. now repeat constructor.
  - destruct (first_invalid t 0 ks) eqn:E; [discriminate|].
    intro Hq. inversion Hq. split; [reflexivity|]. now apply (first_invalid_none t ks 0%nat).
Qed.

Corollary from_raw_ok_iff t o : from_raw t o = Ok o <-> keys_valid t (op_keys o).
Proof.
  split; [intro Hq; now apply from_raw_ok_inv in Hq | apply from_raw_valid].
Qed.

(* the error index is the position of the first invalid key *)
Lemma first_invalid_some t ks : forall i j, first_invalid t i ks = Some j ->
  exists n, j = (i + n)%nat /\ keys_valid t (firstn n ks) /\
            exists k, nth_error ks n = Some k /\ key_valid t k = false.
Proof.
  induction ks as [|k ks IH]; intros i j; cbn [first_invalid]; [discriminate|].
  destruct (key_valid t k) eqn:E.
  - intro Hq. apply IH in Hq. destruct Hq as (n & -> & Hv & k' & Hn & Hk').
    exists (S n). split; [lia|]. split; [now constructor|]. now exists k'.
  - intro Hq. inversion Hq; subst. exists 0%nat. split; [lia|]. split; [constructor|].
    now exists k.
Qed.

(** * Allocation bound *)

Theorem dec_op_alloc bs o : dec_op bs = Ok o -> (op_alloc o <= length bs)%nat.
Proof.
  unfold dec_op. destruct bs as [|tag r]; cbn [read_u8 rbind]; [discriminate|].
  destruct (tag =? 0); [|destruct (tag =? 1); [|discriminate]].
  - intros ([k r1] & E & ([h r2] & E1 & ([sz r3] & _ & [= <-])%rbind_ok)%rbind_ok)%rbind_ok.
    apply read_bwl_ok in E. apply read_fixed_ok in E1 as [-> Hh]. rewrite app_length in E.
    cbn [op_alloc length]. lia.
  - intros ([n r1] & E & ([ks r2] & E1 & [= <-])%rbind_ok)%rbind_ok.
    apply read_u32_ok in E. rewrite read_keys_many in E1.
    apply (read_many_len _ 4 _ read_bwl_ok) in E1.
    change (op_alloc (RRemove ks) + 4 * length ks + length r2 = length r1)%nat in E1.
    cbn [length]. lia.
Qed.

Theorem dec_snapshot_alloc bs v es :
  dec_snapshot bs = Ok (v, es) -> (entries_alloc es <= length bs)%nat.
Proof.
  intros ([ver r] & E & ([n r1] & E1 & ([es0 r2] & E2 & [= _ ->])%rbind_ok)%rbind_ok)%rbind_ok.
  apply read_u64_ok in E. apply read_u32_ok in E1. rewrite read_entries_many in E2.
  apply (read_many_len _ 12 _ read_entry_ok) in E2.
  change (entries_alloc es + 12 * length es + length r2 = length r1)%nat in E2. lia.
Qed.

(* a remove record is accepted only if the input really holds 4 bytes per announced key: a
   count of 2^32-1 in a short input is an error, not an allocation request *)
Corollary dec_op_count_bound cnt tl o :
  cnt < 2 ^ 32 -> dec_op (1 :: u32 cnt ++ tl) = Ok o ->
  exists ks, o = RRemove ks /\ N.of_nat (length ks) = cnt /\ (4 * length ks <= length tl)%nat.
Proof.
  intro Hc. unfold dec_op. cbn [read_u8 rbind].
  change (1 =? 0) with false. change (1 =? 1) with true. cbv iota.
  rewrite read_u32_app by exact Hc. cbn [rbind]. rewrite read_keys_many.
  intros ([ks r] & E1 & [= <-])%rbind_ok. exists ks. split; [reflexivity|].
  pose proof (read_many_count _ _ _ _ _ _ E1). apply (read_many_len _ 4 _ read_bwl_ok) in E1.
  split; [assumption|lia].
Qed.

(** * Record framing and damage detection *)

Section FramingProofs.
  Variable H : bytes -> bytes.
  Hypothesis Hlen : forall b, length (H b) = 32%nat.

  Definition rec_ok (r : N * bytes) : Prop :=
    (0 < fst r /\ fst r < 2 ^ 64) /\ (0 < len (snd r) /\ len (snd r) < 2 ^ 32).

  Definition render (recs : list (N * bytes)) : bytes :=
    flat_map (fun r => enc_record H (fst r) (snd r)) recs.

  Lemma header_length ver p : length (header H ver p) = 44%nat.
  Proof. unfold header. now rewrite !app_length, length_u64, length_u32, Hlen. Qed.

  Lemma enc_record_length ver p : length (enc_record H ver p) = (44 + length p)%nat.
  Proof. unfold enc_record. now rewrite app_length, header_length. Qed.

  (* the three fields of a 44 byte header *)
  Lemma header_fields ver c n :
    length c = 32%nat ->
    let hd := u64 ver ++ c ++ u32 n in
    length hd = 44%nat /\
    firstn 8 hd = u64 ver /\ firstn 32 (skipn 8 hd) = c /\ skipn 40 hd = u32 n.
  Proof.
    intros Hc hd. unfold hd. split; [|split; [|split]].
    - now rewrite !app_length, length_u64, length_u32, Hc.
    - apply firstn_app_n, length_u64.
    - rewrite (skipn_app_n 8) by apply length_u64. now apply firstn_app_n.
    - rewrite app_assoc. apply skipn_app_n. now rewrite app_length, length_u64, Hc.
  Qed.

  (* the general shape of a record read: a 44 byte header with arbitrary checksum field *)
  Lemma read_record_raw ver c n rest :
    length c = 32%nat -> 0 < ver -> ver < 2 ^ 64 -> 0 < n -> n < 2 ^ 32 ->
    read_record H (u64 ver ++ c ++ u32 n ++ rest) =
    match takeN n rest with
    | None => Err RShortPayload
    | Some (pl, r') => if beqb (H pl) c then Ok (Some (ver, pl, r')) else Err RChecksum
    end.
  Proof.
    intros Hc Hv0 Hv Hn0 Hn. destruct (header_fields ver c n Hc) as (L & F1 & F2 & F3).
    rewrite (app_assoc c), app_assoc. unfold read_record.
    rewrite (take_app 44) by exact L. cbv zeta.
    rewrite F1, F2, F3, le_dec_u64, le_dec_u32 by assumption.
    rewrite 2 (proj2 (N.eqb_neq _ 0)) by now apply N.neq_0_lt_0.
    reflexivity.
  Qed.

  Lemma header_app ver p rest :
    header H ver p ++ rest = u64 ver ++ H p ++ u32 (len p) ++ rest.
  Proof. unfold header. now rewrite <- !app_assoc. Qed.

  Theorem read_record_enc ver p rest :
    0 < ver -> ver < 2 ^ 64 -> 0 < len p -> len p < 2 ^ 32 ->
    read_record H (enc_record H ver p ++ rest) = Ok (Some (ver, p, rest)).
  Proof.
    intros Hv0 Hv Hp0 Hp. unfold enc_record. rewrite <- app_assoc, header_app.
    rewrite read_record_raw by auto.
    rewrite takeN_app by reflexivity. now rewrite beqb_refl.
  Qed.

  (* a framed operation comes back as the same operation *)
  Corollary wal_record_roundtrip ver o rest :
    0 < ver -> ver < 2 ^ 64 -> op_fits o -> len (enc_op o) < 2 ^ 32 ->
    exists p, read_record H (enc_record H ver (enc_op o) ++ rest) = Ok (Some (ver, p, rest)) /\
              dec_op p = Ok o.
  Proof.
    intros Hv0 Hv Ho Hl. exists (enc_op o). split.
    - apply read_record_enc; auto. apply enc_op_nonempty.
    - now apply dec_enc_op_nil.
  Qed.

  Lemma read_record_short t : (length t < 44)%nat -> read_record H t = Ok None.
  Proof. intro Hl. unfold read_record. now rewrite take_none. Qed.

  Lemma read_record_sentinel rest : read_record H (sentinel ++ rest) = Ok None.
  Proof.
    unfold read_record. rewrite (take_app 44) by reflexivity. reflexivity.
  Qed.

  (** truncation of a record *)
  Theorem read_record_truncated ver p n :
    0 < ver -> ver < 2 ^ 64 -> 0 < len p -> len p < 2 ^ 32 ->
    (n < length (enc_record H ver p))%nat ->
    read_record H (firstn n (enc_record H ver p)) =
    if (n <? 44)%nat then Ok None else Err RShortPayload.
  Proof.
    intros Hv0 Hv Hp0 Hp Hn. rewrite enc_record_length in Hn.
    destruct (n <? 44)%nat eqn:E.
    - apply Nat.ltb_lt in E. apply read_record_short. rewrite firstn_length. lia.
    - apply Nat.ltb_ge in E. unfold enc_record.
      rewrite firstn_app, header_length.
      rewrite firstn_all2 by (rewrite header_length; lia).
      rewrite header_app, read_record_raw by auto.
      rewrite takeN_none; [reflexivity|].
      unfold len. rewrite firstn_length. lia.
  Qed.

  (** payload corruption ([p' <> p] follows from [H p' <> H p] and is not used) *)
  Theorem read_record_bad_payload ver p p' rest :
    0 < ver -> ver < 2 ^ 64 -> 0 < len p -> len p < 2 ^ 32 ->
    length p' = length p -> p' <> p -> H p' <> H p ->
    read_record H (header H ver p ++ p' ++ rest) = Err RChecksum.
  Proof.
    intros Hv0 Hv Hp0 Hp Hl _ Hne. rewrite header_app, read_record_raw by auto.
    rewrite takeN_app by (unfold len; now rewrite Hl).
    apply beqb_false_iff in Hne. now rewrite Hne.
  Qed.

  (** checksum corruption *)
  Theorem read_record_bad_checksum ver c' p rest :
    0 < ver -> ver < 2 ^ 64 -> 0 < len p -> len p < 2 ^ 32 ->
    length c' = 32%nat -> c' <> H p ->
    read_record H (u64 ver ++ c' ++ u32 (len p) ++ p ++ rest) = Err RChecksum.
  Proof.
    intros Hv0 Hv Hp0 Hp Hc Hne. rewrite read_record_raw by auto.
    rewrite takeN_app by reflexivity.
    assert (Hne' : H p <> c') by congruence.
    apply beqb_false_iff in Hne'. now rewrite Hne'.
  Qed.

  (* a successfully read record is authenticated by its stored checksum: whatever the
     bytes are, the payload delivered hashes to the checksum field of the header *)
  Theorem read_record_sound bs ver p rest :
    read_record H bs = Ok (Some (ver, p, rest)) ->
    exists hd, bs = hd ++ p ++ rest /\ length hd = 44%nat /\
               ver = le_dec (firstn 8 hd) /\ ver <> 0 /\
               H p = firstn 32 (skipn 8 hd) /\ len p = le_dec (skipn 40 hd) /\ len p <> 0.
  Proof.
    unfold read_record. destruct (take 44 bs) as [[hd r]|] eqn:E; [|discriminate].
    cbv zeta. apply take_some in E as [-> Hhd].
    destruct (N.eqb_spec (le_dec (firstn 8 hd)) 0) as [|Ev]; [discriminate|].
    destruct (N.eqb_spec (le_dec (skipn 40 hd)) 0) as [|En]; [discriminate|].
    destruct (takeN _ r) as [[pl r']|] eqn:Et; [|discriminate].
    destruct (beqb_spec (H pl) (firstn 32 (skipn 8 hd))) as [Eb|]; [|discriminate].
    intros [= <- <- <-]. apply takeN_some in Et as [-> Hpl]. exists hd. rewrite Hpl.
    exact (conj eq_refl (conj Hhd (conj eq_refl (conj Ev (conj Eb (conj eq_refl En)))))).
  Qed.

  Lemma render_app a b : render (a ++ b) = render a ++ render b.
  Proof. unfold render. apply flat_map_app. Qed.

  Lemma render_length_le recs : (length recs <= length (render recs))%nat.
  Proof.
    induction recs as [|r recs IH]; cbn [render flat_map length]; [lia|].
    fold (render recs). rewrite app_length, enc_record_length. lia.
  Qed.

  (* eager and lazy readers agree *)
  Lemma read_segment_of_lazy f : forall bs,
    read_segment H f bs =
    match snd (read_segment_lazy H f bs) with
    | None => Ok (fst (read_segment_lazy H f bs))
    | Some e => Err e
    end.
  Proof.
    induction f as [|f IH]; intro bs; cbn [read_segment read_segment_lazy]; [reflexivity|].
    destruct (read_record H bs) as [[[[ver p] r]|]|e]; cbn [rbind fst snd]; try reflexivity.
    rewrite IH. destruct (read_segment_lazy H f r) as [t [e|]]; reflexivity.
  Qed.

  Lemma parse_of_lazy bs recs e :
    read_segment_lazy H (S (length bs)) bs = (recs, e) ->
    parse_segment H bs = match e with None => Ok recs | Some x => Err x end.
  Proof. intro L. unfold parse_segment. now rewrite read_segment_of_lazy, L. Qed.

  Lemma lazy_render recs : forall f tl,
    Forall rec_ok recs ->
    read_segment_lazy H (length recs + f) (render recs ++ tl) =
    (recs ++ fst (read_segment_lazy H f tl), snd (read_segment_lazy H f tl)).
  Proof.
    induction recs as [|[ver p] recs IH]; intros f tl Hok.
    - cbn [length render flat_map app Nat.add]. now destruct (read_segment_lazy H f tl).
    - inversion Hok as [|? ? Hr Hrs]; subst. destruct Hr as [[Hv0 Hv] [Hp0 Hp]].
      cbn [fst snd] in *.
      cbn [length Nat.add render flat_map read_segment_lazy fst snd]. fold (render recs).
      rewrite <- app_assoc, read_record_enc by assumption.
      rewrite IH by exact Hrs. reflexivity.
  Qed.

  (* a rendered log followed by anything that does not start with a readable record, fuel
     as in [parse_segment]: the records come back, and the reader stops with the verdict of
     [read_record] on the rest *)
  Lemma lazy_render_end recs tl :
    Forall rec_ok recs -> (forall x, read_record H tl <> Ok (Some x)) ->
    read_segment_lazy H (S (length (render recs ++ tl))) (render recs ++ tl) =
    (recs, match read_record H tl with Err e => Some e | Ok _ => None end).
  Proof.
    intros Hok Hend. pose proof (render_length_le recs) as Hl. rewrite app_length.
    replace (S (length (render recs) + length tl))
      with (length recs + S (length (render recs) + length tl - length recs))%nat by lia.
    rewrite lazy_render by exact Hok. cbn [read_segment_lazy].
    destruct (read_record H tl) as [[x|]|e]; [now destruct (Hend x)| |];
      cbn [fst snd]; now rewrite app_nil_r.
  Qed.

  Lemma lazy_render_stop recs tl :
    Forall rec_ok recs -> read_record H tl = Ok None ->
    read_segment_lazy H (S (length (render recs ++ tl))) (render recs ++ tl) = (recs, None).
  Proof. intros Hok E. rewrite lazy_render_end, E; [reflexivity | exact Hok | now rewrite E]. Qed.

  Lemma lazy_render_err recs tl e :
    Forall rec_ok recs -> read_record H tl = Err e ->
    read_segment_lazy H (S (length (render recs ++ tl))) (render recs ++ tl) = (recs, Some e).
  Proof. intros Hok E. rewrite lazy_render_end, E; [reflexivity | exact Hok | now rewrite E]. Qed.

  (** read_segment_lazy / parse_segment on rendered logs *)
  Theorem lazy_segment_render recs :
    Forall rec_ok recs ->
    read_segment_lazy H (S (length (render recs))) (render recs) = (recs, None).
  Proof.
    intro Hok. rewrite <- (app_nil_r (render recs)).
    apply lazy_render_stop; [exact Hok | apply read_record_short; cbn [length]; lia].
  Qed.

  Theorem lazy_segment_render_sentinel recs rest :
    Forall rec_ok recs ->
    let bs := render recs ++ sentinel ++ rest in
    read_segment_lazy H (S (length bs)) bs = (recs, None).
  Proof. intro Hok. apply lazy_render_stop; [exact Hok | apply read_record_sentinel]. Qed.

  Corollary lazy_segment_render_sentinel_nil recs :
    Forall rec_ok recs ->
    let bs := render recs ++ sentinel in
    read_segment_lazy H (S (length bs)) bs = (recs, None).
  Proof.
    intro Hok. cbv zeta. rewrite <- (app_nil_r sentinel).
    now apply lazy_segment_render_sentinel.
  Qed.

  Theorem lazy_segment_render_torn recs t :
    Forall rec_ok recs -> (length t < 44)%nat ->
    let bs := render recs ++ t in
    read_segment_lazy H (S (length bs)) bs = (recs, None).
  Proof. intros Hok Ht. apply lazy_render_stop; [exact Hok | now apply read_record_short]. Qed.

  Theorem parse_segment_render recs :
    Forall rec_ok recs -> parse_segment H (render recs) = Ok recs.
  Proof. intro Hok. exact (parse_of_lazy _ _ _ (lazy_segment_render recs Hok)). Qed.

  Theorem parse_segment_render_sentinel recs rest :
    Forall rec_ok recs -> parse_segment H (render recs ++ sentinel ++ rest) = Ok recs.
  Proof. intro Hok. exact (parse_of_lazy _ _ _ (lazy_segment_render_sentinel recs rest Hok)). Qed.

  Corollary parse_segment_render_sentinel_nil recs :
    Forall rec_ok recs -> parse_segment H (render recs ++ sentinel) = Ok recs.
  Proof. intro Hok. exact (parse_of_lazy _ _ _ (lazy_segment_render_sentinel_nil recs Hok)). Qed.

  Theorem parse_segment_render_torn recs t :
    Forall rec_ok recs -> (length t < 44)%nat -> parse_segment H (render recs ++ t) = Ok recs.
  Proof. intros Hok Ht. exact (parse_of_lazy _ _ _ (lazy_segment_render_torn recs t Hok Ht)). Qed.

  (** damage inside a segment.  In each case exactly the records before the
      damaged one are delivered. *)

  (* (a) the log recs1 ++ [r] ++ recs2 is cut [n] bytes into record r *)
  Theorem lazy_segment_truncated recs1 r recs2 n :
    Forall rec_ok recs1 -> rec_ok r ->
    (n < length (enc_record H (fst r) (snd r)))%nat ->
    let bs := firstn (length (render recs1) + n) (render (recs1 ++ [r] ++ recs2)) in
    read_segment_lazy H (S (length bs)) bs =
    (recs1, if (n <? 44)%nat then None else Some RShortPayload).
  Proof.
    intros Hok [[Hv0 Hv] [Hp0 Hp]] Hn. cbv zeta.
    rewrite !render_app, firstn_app_2.
    assert (E : firstn n (render [r] ++ render recs2) = firstn n (enc_record H (fst r) (snd r))).
    { cbn [render flat_map]. rewrite app_nil_r, firstn_app.
      replace (n - length (enc_record H (fst r) (snd r)))%nat with 0%nat by lia.
      cbn [firstn]. now rewrite app_nil_r. }
    rewrite E.
    pose proof (read_record_truncated (fst r) (snd r) n Hv0 Hv Hp0 Hp Hn) as Hr.
    destruct (n <? 44)%nat.
    - now apply lazy_render_stop.
    - now apply lazy_render_err.
  Qed.

  Corollary parse_segment_truncated recs1 r recs2 n :
    Forall rec_ok recs1 -> rec_ok r ->
    (n < length (enc_record H (fst r) (snd r)))%nat ->
    parse_segment H (firstn (length (render recs1) + n) (render (recs1 ++ [r] ++ recs2))) =
    if (n <? 44)%nat then Ok recs1 else Err RShortPayload.
  Proof.
    intros Hok Hr Hn.
    rewrite (parse_of_lazy _ _ _ (lazy_segment_truncated recs1 r recs2 n Hok Hr Hn)).
    now destruct (n <? 44)%nat.
  Qed.

  (* (b1) the payload of r = (ver, p) is replaced by p' *)
  Theorem lazy_segment_bad_payload recs1 ver p p' rest :
    Forall rec_ok recs1 -> rec_ok (ver, p) ->
    length p' = length p -> p' <> p -> H p' <> H p ->
    let bs := render recs1 ++ header H ver p ++ p' ++ rest in
    read_segment_lazy H (S (length bs)) bs = (recs1, Some RChecksum).
  Proof.
    intros Hok [[Hv0 Hv] [Hp0 Hp]] Hl Hne HneH. cbn [fst snd] in *.
    apply lazy_render_err; [exact Hok|]. now apply read_record_bad_payload.
  Qed.

  (* (b2) the checksum field of r = (ver, p) is replaced by c' *)
  Theorem lazy_segment_bad_checksum recs1 ver p c' rest :
    Forall rec_ok recs1 -> rec_ok (ver, p) ->
    length c' = 32%nat -> c' <> H p ->
    let bs := render recs1 ++ u64 ver ++ c' ++ u32 (len p) ++ p ++ rest in
    read_segment_lazy H (S (length bs)) bs = (recs1, Some RChecksum).
  Proof.
    intros Hok [[Hv0 Hv] [Hp0 Hp]] Hc Hne. cbn [fst snd] in *.
    apply lazy_render_err; [exact Hok|]. now apply read_record_bad_checksum.
  Qed.

  Corollary parse_segment_bad_payload recs1 ver p p' rest :
    Forall rec_ok recs1 -> rec_ok (ver, p) ->
    length p' = length p -> p' <> p -> H p' <> H p ->
    parse_segment H (render recs1 ++ header H ver p ++ p' ++ rest) = Err RChecksum.
  Proof.
    intros Hok Hr Hl Hne HneH.
    exact (parse_of_lazy _ _ _ (lazy_segment_bad_payload recs1 ver p p' rest Hok Hr Hl Hne HneH)).
  Qed.

  Corollary parse_segment_bad_checksum recs1 ver p c' rest :
    Forall rec_ok recs1 -> rec_ok (ver, p) ->
    length c' = 32%nat -> c' <> H p ->
    parse_segment H (render recs1 ++ u64 ver ++ c' ++ u32 (len p) ++ p ++ rest) = Err RChecksum.
  Proof.
    intros Hok Hr Hc Hne.
    exact (parse_of_lazy _ _ _ (lazy_segment_bad_checksum recs1 ver p c' rest Hok Hr Hc Hne)).
  Qed.

  (* every position of a rendered log is either its end or lies inside exactly one record *)
  Lemma render_position recs : forall m, (m < length (render recs))%nat ->
    exists recs1 r recs2 n, recs = recs1 ++ [r] ++ recs2 /\
      m = (length (render recs1) + n)%nat /\ (n < length (enc_record H (fst r) (snd r)))%nat.
  Proof.
    induction recs as [|r recs IH]; intros m Hm; [cbn in Hm; lia|].
    cbn [render flat_map] in Hm. fold (render recs) in Hm. rewrite app_length in Hm.
    destruct (Nat.lt_ge_cases m (length (enc_record H (fst r) (snd r)))) as [Hlt|Hge].
    - exists [], r, recs, m. repeat split; auto.
    - destruct (IH (m - length (enc_record H (fst r) (snd r)))%nat) as (r1 & x & r2 & n & -> & Hm' & Hn);
        [lia|].
      exists (r :: r1), x, r2, n. repeat split; auto.
      cbn [render flat_map]. fold (render r1). rewrite app_length. lia.
  Qed.

  (* truncating a well-formed log at ANY byte position delivers a prefix of its records,
     with either a clean end or a short-payload error: never an altered record *)
  Theorem lazy_segment_any_truncation recs m :
    Forall rec_ok recs ->
    let bs := firstn m (render recs) in
    exists recs1 recs2 e, recs = recs1 ++ recs2 /\
      read_segment_lazy H (S (length bs)) bs = (recs1, e) /\
      (e = None \/ e = Some RShortPayload).
  Proof.
    intros Hok. cbv zeta.
    destruct (Nat.lt_ge_cases m (length (render recs))) as [Hlt|Hge].
    - destruct (render_position recs m Hlt) as (r1 & r & r2 & n & -> & -> & Hn).
      apply Forall_app in Hok. destruct Hok as [Hok1 Hok2].
      inversion Hok2 as [|? ? Hr _]; subst.
      exists r1, ([r] ++ r2). eexists. split; [reflexivity|]. split.
      + apply (lazy_segment_truncated r1 r r2 n Hok1 Hr Hn).
      + destruct (n <? 44)%nat; auto.
    - rewrite firstn_all2 by exact Hge.
      exists recs, [], None. rewrite app_nil_r. split; [reflexivity|]. split; auto.
      now apply lazy_segment_render.
  Qed.
End FramingProofs.

(** * Concrete examples *)

Definition toyH (b : bytes) : bytes := repeat (N.of_nat (length b) mod 256) 32.

Lemma toyH_length b : length (toyH b) = 32%nat.
Proof. apply repeat_length. Qed.

Definition ex_put : rawop := RPut [107; 101; 121] (repeat 171 32) 1234567890123.
Definition ex_remove : rawop := RRemove [[97]; []; [98; 99; 255]].

Example ex_put_roundtrip : dec_op (enc_op ex_put) = Ok ex_put.
Proof. vm_compute. reflexivity. Qed.
Example ex_remove_roundtrip : dec_op (enc_op ex_remove) = Ok ex_remove.
Proof. vm_compute. reflexivity. Qed.
Example ex_put_roundtrip_trailing : dec_op (enc_op ex_put ++ [1; 2; 3]) = Ok ex_put.
Proof. vm_compute. reflexivity. Qed.
Example ex_from_raw : from_raw (KArr 3) ex_put = Ok ex_put.
Proof. vm_compute. reflexivity. Qed.
Example ex_from_raw_bad : from_raw (KArr 1) ex_remove = Err (FRemoveKey 1).
Proof. vm_compute. reflexivity. Qed.
Example ex_snapshot_roundtrip :
  dec_snapshot (enc_snapshot 7 [([1; 2], mkItem (repeat 9 32) 100); ([], mkItem (repeat 0 32) 0)])
  = Ok (7, [([1; 2], mkItem (repeat 9 32) 100); ([], mkItem (repeat 0 32) 0)]).
Proof. vm_compute. reflexivity. Qed.
Example ex_record_roundtrip :
  read_record toyH (enc_record toyH 5 (enc_op ex_put) ++ [9; 9]) = Ok (Some (5, enc_op ex_put, [9; 9])).
Proof. vm_compute. reflexivity. Qed.
Example ex_segment_roundtrip :
  parse_segment toyH (enc_record toyH 1 (enc_op ex_put) ++ enc_record toyH 2 (enc_op ex_remove)
                      ++ sentinel)
  = Ok [(1, enc_op ex_put); (2, enc_op ex_remove)].
Proof. vm_compute. reflexivity. Qed.
Example ex_segment_truncated :
  read_segment_lazy toyH 200
    (firstn 150 (enc_record toyH 1 (enc_op ex_put) ++ enc_record toyH 2 (enc_op ex_remove)))
  = ([(1, enc_op ex_put)], Some RShortPayload).
Proof. vm_compute. reflexivity. Qed.
(* a huge count field in a tiny input is an error, not an allocation *)
Example ex_huge_count : dec_op (1 :: u32 4294967295 ++ [0; 0; 0; 0]) = Err DInsufficient.
Proof. vm_compute. reflexivity. Qed.

Print Assumptions dec_enc_op.
Print Assumptions dec_enc_snapshot.
Print Assumptions from_raw_valid.
Print Assumptions from_raw_ok_inv.
Print Assumptions dec_op_alloc.
Print Assumptions dec_snapshot_alloc.
Print Assumptions read_keys_fuel.
Print Assumptions read_entries_fuel.
Print Assumptions read_record_enc.
Print Assumptions parse_segment_render.
Print Assumptions parse_segment_render_sentinel.
Print Assumptions parse_segment_render_torn.
Print Assumptions lazy_segment_render.
Print Assumptions lazy_segment_render_sentinel.
Print Assumptions lazy_segment_render_torn.
Print Assumptions read_record_truncated.
Print Assumptions read_record_bad_payload.
Print Assumptions read_record_bad_checksum.
Print Assumptions read_record_sound.
Print Assumptions lazy_segment_truncated.
Print Assumptions lazy_segment_bad_payload.
Print Assumptions lazy_segment_bad_checksum.
Print Assumptions lazy_segment_any_truncation.
Print Assumptions enc_op_nonempty.
Print Assumptions wal_record_roundtrip.
Print Assumptions dec_op_count_bound.
Print Assumptions parse_segment_truncated.
Print Assumptions parse_segment_bad_payload.
Print Assumptions parse_segment_bad_checksum.
