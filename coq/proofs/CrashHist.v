(* CrashHist.v -- C03 at the level of histories: extended histories with crashes.

   ev := EvOp o            an API call that completes (is acknowledged)
       | EvRestart         close, then open
       | EvCrash o n       the process is killed during the API call o, after n of its effective
                           filesystem calls (n >= the number of calls of o: killed right after o,
                           before the acknowledgement is used); then the store is opened again
       | EvCrashOpen n     the process is killed at rest, the recovery is killed after n calls,
                           and the store is opened again (several of these in a row: nested
                           crashes during recovery)

   C03_crash_atomic: from an empty directory, for every such history of API operations (fitting
   as in hist_fits, no hash collision among the contents), every open succeeds and the final
   handle satisfies the (weak) handle invariant Inv' for some map in [allowed h]: acknowledged
   operations applied in order, each crashed operation applied entirely or not at all, nothing
   else. *)
From Cas Require Import History.
From CasProofs Require Import BaseProofs CodecProofs StoreFS StoreInv StoreWrite StoreRead StoreHist
  DiskInv RestartHist CrashInv CrashOps CrashOpen.
Open Scope N_scope.

Inductive ev :=
| EvOp (o : op)
| EvRestart
| EvCrash (o : op) (n : nat)
| EvCrashOpen (n : nat).

(* the events recorded between w and a later world w' (most recent first) *)
Definition new_trace (w w' : world) : list tev :=
  firstn (length (wtrace w') - length (wtrace w)) (wtrace w').

Lemma new_trace_app : forall w w' tr, wtrace w' = tr ++ wtrace w -> new_trace w w' = tr.
Proof.
  intros w w' tr E. unfold new_trace. rewrite E, app_length.
  replace (length tr + length (wtrace w) - length (wtrace w))%nat with (length tr) by lia.
  rewrite firstn_app, Nat.sub_diag, firstn_all. cbn [firstn]. apply app_nil_r.
Qed.

Lemma along_crash_at : forall (P : fs -> Prop) w w' n, Along P w w' ->
  P (crash_fs n (rev (new_trace w w')) (wfs w)).
Proof.
  intros P w w' n A. pose proof A as (_ & tr & E & _). rewrite (new_trace_app _ _ _ E).
  exact (along_crash_fs P w w' tr n A E).
Qed.

Definition ev_contents (e : ev) : list bytes :=
  match e with EvOp o | EvCrash o _ => op_contents o | _ => [] end.

Section CrashHist.
  Variable H : bytes -> bytes.
  Hypothesis H_len : forall b, length (H b) = 32%nat.
  Hypothesis H_byte : forall b, Forall (fun x => x < 256) (H b).
  Variable cfg : config.
  Hypothesis n_pos : 0 < c_n cfg.
  Let cmp := key_cmp (c_kt cfg).

  Local Notation DX L := (L H H_len H_byte cfg n_pos) (only parsing).
  Local Notation km_of := (km_of H).
  Local Notation NoCollide := (NoCollide H).
  Local Notation Inv' := (Inv' H cfg).
  Local Notation RestB := (RestB H cfg).
  Local Notation RestDB := (RestDB H cfg).
  Local Notation spec_out := (spec_out H cfg).
  Local Notation api_op := (api_op cfg).
  Local Notation op_fits_at := (op_fits_at cfg).

  Definition opened (r : res serr (mem * option ostats) * world) : option (handle * world) :=
    match r with
    | (Ok (m, os), w') => Some (mkHandle cfg m os, w')
    | (Err _, _) => None
    end.

  (* memory is lost: a new process opens the store on the filesystem x *)
  Definition reopen (x : fs) : option (handle * world) :=
    opened (open_with_recover H cfg (init_world x None)).

  Definition run_ev (st : handle * world) (e : ev) : option (handle * world) :=
    let '(hd, w) := st in
    match e with
    | EvOp o =>
      let '((_, ohd), w') := step H (Some hd) o w in
      match ohd with Some hd' => Some (hd', w') | None => None end
    | EvRestart =>
      let '(_, w1) := close (h_mem hd) w in opened (open_with_recover H cfg w1)
    | EvCrash o n =>
      let w' := snd (step H (Some hd) o w) in
      reopen (crash_fs n (rev (new_trace w w')) (wfs w))
    | EvCrashOpen n => reopen (crash_open H cfg n (wfs w))
    end.

  Fixpoint run_ext (st : handle * world) (h : list ev) : option (handle * world) :=
    match h with
    | [] => Some st
    | e :: r => match run_ev st e with Some st' => run_ext st' r | None => None end
    end.

  (* the maps a history may end in *)
  Fixpoint allowed (sg : smap bytes) (h : list ev) (sgf : smap bytes) : Prop :=
    match h with
    | [] => sgf = sg
    | EvOp o :: r => allowed (spec_step cmp sg o) r sgf
    | EvRestart :: r | EvCrashOpen _ :: r => allowed sg r sgf
    | EvCrash o _ :: r => allowed sg r sgf \/ allowed (spec_step cmp sg o) r sgf
    end.

  (* fitting hypotheses (as hist_fits), along every allowed branch *)
  Fixpoint ext_fits (sg : smap bytes) (h : list ev) : Prop :=
    match h with
    | [] => True
    | EvOp o :: r => api_op o /\ op_fits_at sg o /\ ext_fits (spec_step cmp sg o) r
    | EvRestart :: r | EvCrashOpen _ :: r => ext_fits sg r
    | EvCrash o _ :: r =>
      api_op o /\ op_fits_at sg o /\ ext_fits sg r /\ ext_fits (spec_step cmp sg o) r
    end.

  Lemma step_walk : forall m s sg os o w,
    Inv' m s sg -> wfs w = s -> wfault w = None -> api_op o ->
    NoCollide (op_contents o ++ map snd sg) -> op_fits_at sg o ->
    N.of_nat (length sg) + 1 < 2 ^ 32 -> nextv (mwal m) < 2 ^ 64 ->
    exists m' w',
      step H (Some (mkHandle cfg m os)) o w = ((spec_out sg o, Some (mkHandle cfg m' os)), w') /\
      wfault w' = None /\ Inv' m' (wfs w') (spec_step cmp sg o) /\
      nextv (mwal m') <= nextv (mwal m) + 1 /\
      Walk (RestDB (nextv (mwal m) + 1) sg (spec_step cmp sg o)) w w'.
  Proof.
    intros m s sg os o w IV Ws F A NC Fit Ln Lv. pose proof IV as (L & D & Wf).
    pose proof (DX inv'_restb _ _ _ _ IV (N.le_add_r _ 1)) as RB.
    assert (RD : is_read o ->
              exists m' w',
                step H (Some (mkHandle cfg m os)) o w
                = ((spec_out sg o, Some (mkHandle cfg m' os)), w') /\
                wfault w' = None /\ Inv' m' (wfs w') sg /\ nextv (mwal m') <= nextv (mwal m) + 1 /\
                Walk (RestDB (nextv (mwal m) + 1) sg sg) w w').
    { intros R.
      destruct (step_ok H H_len H_byte cfg n_pos m s sg os o w L Ws F A NC) as (m' & w' & E & F' & _).
      destruct (read_step _ _ _ _ _ _ _ _ _ E R) as [-> ->].
      exists m, w. split; [exact E|]. split; [exact F|]. split; [now rewrite Ws|].
      split; [apply N.le_add_r|].
      apply walk_refl; [exact F|]. left. now rewrite Ws. }
    destruct o; cbn [StoreHist.api_op] in A; try contradiction;
      try (apply RD; exact I);
      cbn [step h_cfg h_mem h_ostats StoreHist.spec_out spec_step StoreHist.op_contents
           RestartHist.op_fits_at] in *.
    - (* put *)
      destruct Fit as (Lk & Vk & Lc).
      destruct (DX put_crash' m s sg k chunks w IV Ws F NC Lk Vk Lc Ln Lv)
        as (m' & w' & E & F' & IV' & Nv & K).
      exists m', w'. rewrite (bind_eq _ _ _ _ _ E). split; [reflexivity|].
      split; [exact F'|]. split; [exact IV'|]. split; [rewrite Nv; apply N.le_refl|exact K].
    - (* abort *)
      destruct (DX abort_crash' m s sg k chunks w IV Ws F) as (w' & E & F' & IV' & K).
      exists m, w'. rewrite (bind_eq _ _ _ _ _ E). split; [reflexivity|].
      split; [exact F'|]. split; [exact IV'|]. split; [apply N.le_add_r|].
      eapply walk_weaken; [|exact K]. intros x Rx. left.
      exact (restb_mono H cfg n_pos _ _ _ _ (N.le_add_r _ 1) Rx).
    - (* remove *)
      destruct (DX remove_crash' m s sg k w IV Ws F Lv) as (m' & w' & E & F' & IV' & Nv & K).
      exists m', w'. rewrite (bind_eq _ _ _ _ _ E). split; [reflexivity|].
      split; [exact F'|]. split; [exact IV'|]. split; [exact Nv|exact K].
    - (* remove_range *)
      fold cmp in A.
      assert (NP : (nonempty (km (idx m)) && range_panics cmp lo hi) = false)
        by (rewrite A; apply andb_false_r).
      destruct (DX remove_range_crash' m s sg lo hi w IV Ws F NP Fit Lv)
        as (m' & w' & E & F' & IV' & Nv & K).
      exists m', w'. rewrite (bind_eq _ _ _ _ _ E). rewrite A, andb_false_r.
      split; [reflexivity|]. split; [exact F'|]. split; [exact IV'|]. split; [exact Nv|exact K].
    - (* checkpoint *)
      destruct (DX checkpoint_crash' m s sg w IV Ws F) as (m' & w' & E & F' & IV' & Nv & K).
      exists m', w'. rewrite (bind_eq _ _ _ _ _ E). split; [reflexivity|].
      split; [exact F'|]. split; [exact IV'|]. split; [rewrite Nv; apply N.le_add_r|].
      eapply walk_weaken; [|exact K]. intros x Rx. left.
      exact (restb_mono H cfg n_pos _ _ _ _ (N.le_add_r _ 1) Rx).
  Qed.

  Lemma inv'_nextv_pos : forall m s sg, Inv' m s sg -> 1 <= nextv (mwal m).
  Proof. intros m s sg (L & _). exact (proj1 (lv_wal _ _ _ _ _ L)). Qed.

  (* Kill the process after any number n of the effective calls of an API operation issued on
     a handle satisfying the invariant: the next open succeeds and yields a handle for the map
     before the operation or for the map after it, at most one version ahead. *)
  Lemma crash_step : forall m s sg os o w n,
    Inv' m s sg -> wfs w = s -> wfault w = None -> api_op o ->
    NoCollide (op_contents o ++ map snd sg) -> op_fits_at sg o ->
    N.of_nat (length sg) + 1 < 2 ^ 32 -> nextv (mwal m) < 2 ^ 64 ->
    let w' := snd (step H (Some (mkHandle cfg m os)) o w) in
    let x := crash_fs n (rev (new_trace w w')) (wfs w) in
    exists m2 os2 w2 sgX, open_with_recover H cfg (init_world x None) = (Ok (m2, os2), w2) /\
      wfault w2 = None /\ (sgX = sg \/ sgX = spec_step cmp sg o) /\ Inv' m2 (wfs w2) sgX /\
      nextv (mwal m2) <= nextv (mwal m) + 1.
  Proof.
    intros m s sg os o w n IV Ws F A NC Fit Ln Lv. cbv zeta.
    destruct (step_walk m s sg os o w IV Ws F A NC Fit Ln Lv) as (m1 & w1 & E1 & _ & _ & _ & K).
    rewrite E1. cbn [snd]. set (x := crash_fs n (rev (new_trace w w1)) (wfs w)).
    pose proof (inv'_nextv_pos _ _ _ IV) as Nv1.
    assert (RX : exists sgX, (sgX = sg \/ sgX = spec_step cmp sg o) /\
                             RestB (nextv (mwal m) + 1) x sgX).
    { destruct (along_crash_at _ w w1 n (walk_along _ _ _ K)) as [RX|RX]; eauto. }
    destruct RX as (sgX & Ex & RX).
    destruct (DX rest_open_b (nextv (mwal m) + 1) x sgX (init_world x None) RX)
      as (m2 & os2 & w2 & Eo & F2 & IV2 & _ & Nv2 & _); try reflexivity;
      [exact (N.le_trans _ _ _ Nv1 (N.le_add_r _ 1))|].
    now exists m2, os2, w2, sgX.
  Qed.

  (* C03 for one operation, spelled out *)
  Theorem crash_any_instant : forall m s sg os o w n,
    Inv' m s sg -> wfs w = s -> wfault w = None -> api_op o ->
    NoCollide (op_contents o ++ map snd sg) -> op_fits_at sg o ->
    N.of_nat (length sg) + 1 < 2 ^ 32 -> nextv (mwal m) < 2 ^ 64 ->
    let w' := snd (step H (Some (mkHandle cfg m os)) o w) in
    let x := crash_fs n (rev (new_trace w w')) (wfs w) in
    exists m2 os2 w2, open_with_recover H cfg (init_world x None) = (Ok (m2, os2), w2) /\
      (Inv' m2 (wfs w2) sg \/ Inv' m2 (wfs w2) (spec_step cmp sg o)).
  Proof.
    intros m s sg os o w n IV Ws F A NC Fit Ln Lv.
    destruct (crash_step m s sg os o w n IV Ws F A NC Fit Ln Lv)
      as (m2 & os2 & w2 & sgX & Eo & _ & [->| ->] & IV2 & _);
      exists m2, os2, w2; (split; [exact Eo|]); [now left|now right].
  Qed.

  Lemma run_ext_ok : forall h m os w sg,
    Inv' m (wfs w) sg -> wfault w = None ->
    NoCollide (flat_map ev_contents h ++ map snd sg) -> ext_fits sg h ->
    N.of_nat (length sg) + N.of_nat (length h) < 2 ^ 32 ->
    nextv (mwal m) + N.of_nat (length h) <= 2 ^ 32 ->
    exists hd w', run_ext (mkHandle cfg m os, w) h = Some (hd, w') /\ h_cfg hd = cfg /\
      wfault w' = None /\ exists sgf, allowed sg h sgf /\ Inv' (h_mem hd) (wfs w') sgf.
  Proof.
    induction h as [|e r IH]; intros m os w sg IV F NC Fit Ln Lv.
    - exists (mkHandle cfg m os), w. split; [reflexivity|]. split; [reflexivity|].
      split; [exact F|]. exists sg. split; [reflexivity|exact IV].
    - cbn [length] in Ln, Lv. cbn [flat_map] in NC.
      pose proof (inv'_nextv_pos _ _ _ IV) as Nv1.
      assert (Ln1 : N.of_nat (length sg) + 1 < 2 ^ 32) by (clear - Ln; lia).
      assert (Lv1 : nextv (mwal m) < 2 ^ 64) by (clear - Lv; pow_consts; lia).
      (* the remaining history, from a handle for sgX obtained with at most one more version *)
      assert (Next : forall m2 os2 w2 sgX,
                Inv' m2 (wfs w2) sgX -> wfault w2 = None ->
                nextv (mwal m2) <= nextv (mwal m) + 1 ->
                (length sgX <= S (length sg))%nat ->
                (forall x, In x (map snd sgX) -> In x (ev_contents e) \/ In x (map snd sg)) ->
                ext_fits sgX r ->
                exists hd w', run_ext (mkHandle cfg m2 os2, w2) r = Some (hd, w') /\ h_cfg hd = cfg /\
                  wfault w' = None /\ exists sgf, allowed sgX r sgf /\ Inv' (h_mem hd) (wfs w') sgf).
      { intros m2 os2 w2 sgX IV2 F2 Nv2 Lx Cx Fx.
        apply IH; try assumption; [exact (nocollide_rest H _ _ _ _ NC Cx)| |]; clear - Ln Lv Nv2 Lx; lia. }
      assert (Same : forall x, In x (map snd sg) -> In x (ev_contents e) \/ In x (map snd sg))
        by (intros x Ix; now right).
      assert (New : forall o, ev_contents e = op_contents o ->
                forall x, In x (map snd (spec_step cmp sg o)) -> In x (ev_contents e) \/ In x (map snd sg))
        by (intros o -> x; apply (spec_step_contents cfg)).
      (* a reopened handle is not ahead of the one it replaces *)
      assert (Back : forall m2 os2 w2, Inv' m2 (wfs w2) sg -> wfault w2 = None ->
                nextv (mwal m2) <= nextv (mwal m) -> ext_fits sg r ->
                exists hd w', run_ext (mkHandle cfg m2 os2, w2) r = Some (hd, w') /\ h_cfg hd = cfg /\
                  wfault w' = None /\ exists sgf, allowed sg r sgf /\ Inv' (h_mem hd) (wfs w') sgf).
      { intros m2 os2 w2 IV2 F2 Nv2 Fx. apply Next; try assumption.
        - exact (N.le_trans _ _ _ Nv2 (N.le_add_r _ _)).
        - apply Nat.le_succ_diag_r. }
      destruct e as [o| |o n|n]; cbn [ext_fits] in Fit; cbn [run_ext run_ev allowed].
      + (* an acknowledged operation *)
        destruct Fit as (Ao & Fo & Fr).
        destruct (step_walk m (wfs w) sg os o w IV eq_refl F Ao (nocollide_head H _ _ _ NC) Fo Ln1 Lv1)
          as (m1 & w1 & E1 & F1 & IV1 & Nv & _).
        rewrite E1. apply (Next m1 os w1 (spec_step cmp sg o)); try assumption.
        * apply (DX length_spec_step).
        * now apply New.
      + (* restart *)
        destruct (DX close_crash' m (wfs w) sg w IV eq_refl F) as (w1 & Ec & F1 & RB1 & _).
        destruct (DX rest_open_b (nextv (mwal m)) (wfs w1) sg w1 RB1 Nv1 F1 eq_refl)
          as (m2 & os2 & w2 & Eo & F2 & IV2 & _ & Nv2 & _).
        cbn [h_mem]. rewrite Ec, Eo. cbn [opened]. now apply (Back m2 os2 w2).
      + (* crash during an operation *)
        destruct Fit as (Ao & Fo & Fr1 & Fr2).
        destruct (crash_step m (wfs w) sg os o w n IV eq_refl F Ao (nocollide_head H _ _ _ NC) Fo Ln1 Lv1)
          as (m2 & os2 & w2 & sgX & Eo & F2 & Ex & IV2 & Nv2).
        unfold reopen. rewrite Eo. cbn [opened].
        destruct (Next m2 os2 w2 sgX) as (hd & w' & Er & Hc & F' & sgf & Al & IVf); try assumption.
        * destruct Ex as [->| ->]; [apply Nat.le_succ_diag_r|apply (DX length_spec_step)].
        * destruct Ex as [->| ->]; [exact Same|now apply New].
        * now destruct Ex as [->| ->].
        * exists hd, w'. split; [exact Er|]. split; [exact Hc|]. split; [exact F'|].
          exists sgf. split; [|exact IVf]. destruct Ex as [->| ->]; [now left|now right].
      + (* crash at rest, crash during the recovery *)
        pose proof (DX inv'_restb _ _ _ _ IV (N.le_refl _)) as RB.
        pose proof (DX crash_open_restb _ n _ _ RB Nv1) as RX.
        unfold reopen.
        destruct (DX rest_open_b (nextv (mwal m)) _ sg (init_world (crash_open H cfg n (wfs w)) None) RX
                    Nv1 eq_refl eq_refl) as (m2 & os2 & w2 & Eo & F2 & IV2 & _ & Nv2 & _).
        rewrite Eo. cbn [opened]. now apply (Back m2 os2 w2).
  Qed.

  (* C03.  From an empty directory (either choice of pre_create_cas_dirs: the empty directory
     is a state of the first-time clause RestF of the invariant, and CrashOpen.a_open covers
     the first open for both), for every extended history whose operations are API calls fitting
     the formats (ext_fits: as hist_fits, along every branch), without hash collisions among the
     written contents, of fewer than 2^32-1 events: every open of the history -- after a
     restart, after a crash during an operation at ANY call boundary, after crashes during the
     recovery itself -- succeeds, and the final handle satisfies the handle invariant for a map
     in [allowed [] h]: acknowledged operations applied in order, each crashed operation
     applied entirely or not at all.  (Inv' is the invariant every further operation needs;
     it gives Live0, hence exact reads, counts and statistics for that map.) *)
  Theorem C03_crash_atomic : forall h,
    c_n cfg < 2 ^ 64 ->
    NoCollide (flat_map ev_contents h) -> ext_fits [] h -> N.of_nat (length h) < 2 ^ 32 - 1 ->
    exists hd0 w0, reopen empty_fs = Some (hd0, w0) /\
    exists hd w', run_ext (hd0, w0) h = Some (hd, w') /\ h_cfg hd = cfg /\ wfault w' = None /\
      exists sg, allowed [] h sg /\ Inv' (h_mem hd) (wfs w') sg.
  Proof.
    intros h Nfit NC Fit Ln.
    destruct (DX rest_open_b 1 empty_fs [] (init_world empty_fs None) (restb_empty H cfg Nfit 1)
                (N.le_refl _) eq_refl eq_refl)
      as (m & os & w1 & E1 & F1 & IV1 & _ & Nv1 & _).
    exists (mkHandle cfg m os), w1. split; [unfold reopen; rewrite E1; reflexivity|].
    apply run_ext_ok; try assumption.
    - now rewrite app_nil_r.
    - cbn [length]. clear - Ln. pow_consts. lia.
    - clear - Ln Nv1. pow_consts. lia.
  Qed.

  (* a segment at or above the seal bound is exactly the rendering of the records it parses to *)
  Lemma unsealed_render : forall c nv sb pre dv sg i d recs,
    DiskOkW H cfg c nv sb pre dv sg -> sb <= i -> dv (PWal i) = Some d ->
    parse_segment H d = Ok recs -> d = render H recs.
  Proof using H_len.
    intros c nv sb pre dv sg i d recs (ids & rf & sf & km_c & ops & D) L G P.
    destruct (in_dec N.eq_dec i ids) as [Ii|Ni];
      [|rewrite (dw_out _ _ _ _ _ _ _ _ _ _ _ _ _ D i Ni) in G; discriminate].
    destruct (dw_seg _ _ _ _ _ _ _ _ _ _ _ _ _ D i Ii) as (S1 & _ & _ & _ & S5).
    rewrite (dw_in _ _ _ _ _ _ _ _ _ _ _ _ _ D i Ii) in G.
    destruct (sf i); [destruct (proj1 (N.lt_nge _ _) (S5 eq_refl) L)|]. cbn [tailb] in G. rewrite app_nil_r in G.
    inversion G; subst d. rewrite (parse_segment_render H H_len _ S1) in P. now inversion P.
  Qed.

  (* what Inv' gives the user of the final handle: reads answer as the ordered map sgf *)
  Corollary C03_final_reads : forall m s sg k, Inv' m s sg ->
    get cfg m s k = Ok (sm_get cmp sg k) /\ km (idx m) = km_of sg.
  Proof.
    intros m s sg k (L & _). split; [|exact (lv_km _ _ _ _ _ L)].
    apply (get_spec H cfg). exact L.
  Qed.
End CrashHist.

Print Assumptions crash_any_instant.
Print Assumptions C03_crash_atomic.

(* a closed, computed instance (toy hash and configuration of StoreHist.v: 2 operations per WAL
   segment).  The third put rolls the log over: its 17 effective calls are
     create staging, write, sync, mkdir, mkdir, rename into cas/, seal segment 0, sync,
     open segment 1, APPEND THE RECORD, sync, unlink the unreferenced blob,
     create index.tmp, write, sync, rename to index, unlink segment 0.
   Killing the process after n of them (and then once more during the recovery) and reopening
   yields the old map for n < 10 and the new map from n = 10 on. *)
Definition toy_h (n : nat) : list ev :=
  [EvOp (OpPut toy_k1 [toy_c1]); EvOp (OpPut toy_k2 [toy_c1; toy_c2]);
   EvCrash (OpPut toy_k1 [toy_c2]) n; EvCrashOpen 2].

Definition toy_final (n : nat) : option (list (bytes * N)) :=
  match reopen toyH toy_cfg empty_fs with
  | None => None
  | Some st0 =>
    match run_ext toyH toy_cfg st0 (toy_h n) with
    | None => None
    | Some (hd, _) => Some (map (fun e => (fst e, isize (snd e))) (km (idx (h_mem hd))))
    end
  end.

(* The states of the toy history after the first open and after the two acknowledged puts, and
   the calls of the third put (most recent first), evaluated once; the tables below then only
   cut that trace and reopen.  The closed equations are VM casts: nothing is read back. *)
Ltac evaluated t := let r := eval vm_compute in t in match r with Some ?x => exact x end.

Definition toy_put1 := OpPut toy_k1 [toy_c1].
Definition toy_put2 := OpPut toy_k2 [toy_c1; toy_c2].
Definition toy_put3 := OpPut toy_k1 [toy_c2].

(* the calls an operation issues from a state, most recent first *)
Definition op_calls (st : handle * world) (o : op) : list tev :=
  new_trace (snd st) (snd (step toyH (Some (fst st)) o (snd st))).

Definition toy_st0 : handle * world := ltac:(evaluated (reopen toyH toy_cfg empty_fs)).
Definition toy_st1 : handle * world := ltac:(evaluated (run_ev toyH toy_cfg toy_st0 (EvOp toy_put1))).
Definition toy_st2 : handle * world := ltac:(evaluated (run_ev toyH toy_cfg toy_st1 (EvOp toy_put2))).
Definition toy_tr3 : list tev := Eval vm_compute in op_calls toy_st2 toy_put3.

Definition toy_open0 := eq_refl (Some toy_st0) <: reopen toyH toy_cfg empty_fs = Some toy_st0.
Definition toy_run1 := eq_refl (Some toy_st1) <: run_ev toyH toy_cfg toy_st0 (EvOp toy_put1) = Some toy_st1.
Definition toy_run2 := eq_refl (Some toy_st2) <: run_ev toyH toy_cfg toy_st1 (EvOp toy_put2) = Some toy_st2.
Definition toy_calls3 := eq_refl toy_tr3 <: op_calls toy_st2 toy_put3 = toy_tr3.

Lemma toy_cut : forall n r,
  run_ext toyH toy_cfg toy_st0 (EvOp toy_put1 :: EvOp toy_put2 :: EvCrash toy_put3 n :: r)
  = match reopen toyH toy_cfg (crash_fs n (rev toy_tr3) (wfs (snd toy_st2))) with
    | Some st => run_ext toyH toy_cfg st r
    | None => None
    end.
Proof.
  intros n r. cbn [run_ext]. rewrite toy_run1, toy_run2, <- toy_calls3. now destruct toy_st2.
Qed.

Definition toy_keys (st : option (handle * world)) : option (list (bytes * N)) :=
  match st with
  | Some (hd, _) => Some (map (fun e => (fst e, isize (snd e))) (km (idx (h_mem hd))))
  | None => None
  end.

Lemma toy_final_cut : forall n,
  toy_final n
  = toy_keys match reopen toyH toy_cfg (crash_fs n (rev toy_tr3) (wfs (snd toy_st2))) with
             | Some st => run_ext toyH toy_cfg st [EvCrashOpen 2]
             | None => None
             end.
Proof. intros n. unfold toy_final, toy_h. now rewrite toy_open0, toy_cut. Qed.

Example toy_crash_every_instant :
  map toy_final (seq 0 19)
  = repeat (Some [(toy_k1, 3); (toy_k2, 5)]) 10 ++ repeat (Some [(toy_k1, 2); (toy_k2, 5)]) 9.
Proof. rewrite (map_ext _ _ toy_final_cut). vm_compute. reflexivity. Qed.

Lemma toy_nocollide_h : forall n, NoCollide toyH (flat_map ev_contents (toy_h n)).
Proof.
  intros n a b Ia Ib E. cbn in Ia, Ib.
  destruct Ia as [<-|[<-|[<-|[]]]]; destruct Ib as [<-|[<-|[<-|[]]]]; try reflexivity;
    vm_compute in E; discriminate.
Qed.

(* the hypotheses of the theorem are satisfiable, for every crash point *)
Example toy_crash_theorem_instance : forall n,
  exists hd0 w0 hd w' sg,
    reopen toyH toy_cfg empty_fs = Some (hd0, w0) /\
    run_ext toyH toy_cfg (hd0, w0) (toy_h n) = Some (hd, w') /\
    allowed toy_cfg [] (toy_h n) sg /\ km (idx (h_mem hd)) = km_of toyH sg.
Proof.
  intros n.
  destruct (C03_crash_atomic toyH toyH_len toyH_byte toy_cfg eq_refl (toy_h n))
    as (hd0 & w0 & E0 & hd & w' & E & _ & _ & sg & Al & (L & _)).
  - reflexivity.
  - apply toy_nocollide_h.
  - vm_compute. repeat split.
  - reflexivity.
  - exists hd0, w0, hd, w', sg. split; [exact E0|]. split; [exact E|]. split; [exact Al|].
    exact (lv_km _ _ _ _ _ L).
Qed.

(* Why recovery re-establishes Inv' and not the strict Inv of DiskInv.v: kill the third put
   after its 8th call (segment 0 sealed and synced, segment 1 not yet opened), reopen.  The
   recovered handle has next version 3 and no active writer; segment 0 -- the segment of the
   last written version 2 -- ends with the sentinel.  [DiskOk] demands that sealed segments
   lie strictly below the segment of the last written version, so it is false for EVERY map. *)
Definition toy_after (n : nat) : option (handle * world) :=
  match reopen toyH toy_cfg empty_fs with
  | None => None
  | Some st0 => run_ext toyH toy_cfg st0
                  [EvOp (OpPut toy_k1 [toy_c1]); EvOp (OpPut toy_k2 [toy_c1; toy_c2]);
                   EvCrash (OpPut toy_k1 [toy_c2]) n]
  end.

(* what is computed of the recovered state: segment 0 is the segment of the last written
   version, and its file parses but is longer than the rendering of its records *)
Definition seg0_sealed (st : option (handle * world)) : bool :=
  match st with
  | Some (hd, w') =>
    (seg_of toy_cfg (nextv (mwal (h_mem hd)) - 1) =? 0) &&
    match fdat (wfs w') (PWal 0) with
    | Some d => match parse_segment toyH d with
                | Ok recs => negb (Nat.eqb (length d) (length (render toyH recs)))
                | Err _ => false
                end
    | None => false
    end
  | None => false
  end.

Example strict_DiskOk_fails_after_seal_crash :
  exists hd w', toy_after 8 = Some (hd, w') /\
                forall sg, ~ DiskOk toyH toy_cfg (h_mem hd) (wfs w') sg.
Proof.
  assert (C : seg0_sealed (toy_after 8) = true)
    by (unfold toy_after; rewrite toy_open0, toy_cut; vm_compute; reflexivity).
  revert C. destruct (toy_after 8) as [[hd w']|]; [|discriminate]. cbn [seg0_sealed]. intros C.
  exists hd, w'. split; [reflexivity|]. intros sg D.
  apply andb_true_iff in C. destruct C as [C1 C2]. apply N.eqb_eq in C1.
  destruct (fdat (wfs w') (PWal 0)) as [d|] eqn:G; [|discriminate].
  destruct (parse_segment toyH d) as [recs|] eqn:P; [|discriminate].
  rewrite (unsealed_render toyH toyH_len toy_cfg _ _ _ _ _ _ 0 d recs D) in C2;
    [|rewrite C1; apply N.le_refl|exact G|exact P].
  rewrite Nat.eqb_refl in C2. discriminate.
Qed.

Print Assumptions toy_crash_every_instant.
Print Assumptions strict_DiskOk_fails_after_seal_crash.
Print Assumptions toy_crash_theorem_instance.
