(* Faults.v -- C14, the part that holds: a failed I/O call is contained, IN MEMORY and for the
   rest of the process lifetime, to the operation that hit it.

   Every statement here holds for EVERY world, hence under every fault plan (wfault w = None or
   Some n for any n; the model injects EIO at the n-th counted effective call, which then has no
   effect -- FS.v do_call).  No hypothesis on wfault appears anywhere in this file.

   The invariant is LiveF: Live0 (StoreInv.v) without the clause about the segment writer
   (after a failed WAL append / fdatasync the buffer may be non-empty, the writer may be None and
   a version number may have been burned) and without the staging-freshness clause (a failed
   unlink may leave a staging file behind).  It keeps everything a reader needs: the index key
   map is the abstract map, the reference counts / statistics are exact, every referenced blob
   is present with its bytes, the directories exist, 1 <= nextv.  It splits into MemF (the memory
   alone) and FsF (the filesystem alone): the triples of the operations (FaultLogic.Hoare) assume
   MemF and have FsF as precondition; hoare_live reads them in any world of a consistent handle.

   What is NOT claimed (and is false for the model, known finding F4, see FaultWitness.v):
   anything about what a later reopen sees.  The record of an operation whose WAL append or
   fdatasync failed stays in the writer's buffer / in the segment file and becomes durable
   later; LiveF deliberately says nothing about the buffer. *)
From Cas Require Import History.
From CasProofs Require Import BaseProofs SMapProofs IndexProofs StoreFS StoreInv StoreWrite
  StoreRead WorldRel FaultLogic.
Open Scope N_scope.

Section Faults.
  Variable H : bytes -> bytes.
  Hypothesis H_len : forall b, length (H b) = 32%nat.
  Hypothesis H_byte : forall b, Forall (fun x => x < 256) (H b).
  Variable cfg : config.
  Hypothesis n_pos : 0 < c_n cfg.
  Let cmp := key_cmp (c_kt cfg).

  Local Notation KX L :=
    (L cmp (key_cmp_refl _) (key_cmp_eq _) (key_cmp_antisym _) (key_cmp_trans _)) (only parsing).
  Local Notation item_of := (item_of H).
  Local Notation km_of := (km_of H).
  Local Notation NoCollide := (NoCollide H).
  Local Notation Live0 := (Live0 H cfg).

  (* the weakened invariant *)
  Record LiveF (m : mem) (s : fs) (sg : smap bytes) : Prop := mkLiveF {
    lf_sorted : sorted cmp sg;
    lf_km : km (idx m) = km_of sg;
    lf_idx : IdxInv cmp (idx m);
    lf_nocollide : NoCollide (map snd sg);
    lf_cas : forall k c, In (k, c) sg -> exists f, fget s (cas_path (H c)) = Some f /\ fdata f = c;
    lf_dirs : dirs_ok m s;
    lf_nextv : 1 <= nextv (mwal m)
  }.

  Lemma Live0_LiveF : forall m s sg, Live0 m s sg -> LiveF m s sg.
  Proof.
    intros m s sg [L1 L2 L3 L4 L5 L6 L7 L8]. constructor; try assumption. exact (proj1 L8).
  Qed.

  (* the reads need no more of the invariant (StoreRead.get_view and the like) *)
  Lemma LiveF_view : forall m s sg, LiveF m s sg -> ReadView H cfg m s sg.
  Proof. intros m s sg [L1 L2 _ _ L5 _ _]. now constructor. Qed.

  Record MemF (m : mem) (sg : smap bytes) : Prop := mkMemF {
    mf_sorted : sorted cmp sg;
    mf_km : km (idx m) = km_of sg;
    mf_idx : IdxInv cmp (idx m);
    mf_nocollide : NoCollide (map snd sg);
    mf_nextv : 1 <= nextv (mwal m)
  }.

  Definition Staged (p : path) (x : bytes) (s : fs) : Prop :=
    exists f, fget s p = Some f /\ fdata f = x.
  Definition Blob (s : fs) (c : bytes) : Prop :=
    exists f, fget s (cas_path (H c)) = Some f /\ fdata f = c.
  (* the same three clauses as StoreInv.dirs_ok (third one: well-formed hashes only) *)
  Definition DirsOK (pre : bool) (s : fs) : Prop :=
    has_dir s [s_staging] = true /\ has_dir s [s_cas] = true /\
    (pre = true -> forall h, length h = 32%nat -> Forall (fun x => x < 256) h ->
                    parent_ok s (cas_path h) = true).
  Definition FsF (pre : bool) (cs : list bytes) (s : fs) : Prop :=
    (forall c, In c cs -> Blob s c) /\ DirsOK pre s.

  Lemma LiveF_mem : forall m s sg, LiveF m s sg -> MemF m sg.
  Proof. intros m s sg [L1 L2 L3 L4 _ _ L7]. now constructor. Qed.

  Lemma LiveF_fs : forall m s sg, LiveF m s sg -> FsF (mpre m) (map snd sg) s.
  Proof.
    intros m s sg L. split; [|exact (lf_dirs _ _ _ L)].
    intros c Ic. apply in_map_iff in Ic. destruct Ic as ([k c'] & <- & Ik).
    exact (lf_cas _ _ _ L k c' Ik).
  Qed.

  Lemma LiveF_intro : forall m s sg, MemF m sg -> FsF (mpre m) (map snd sg) s -> LiveF m s sg.
  Proof.
    intros m s sg [S1 S2 S3 S4 S5] [B D]. constructor; try assumption.
    intros k c Ik. apply B. exact (in_map snd sg (k, c) Ik).
  Qed.

  (* the index may be rewritten as long as the maps, the counts and the statistics stay (a
     checkpoint sets the snapshot version and size) *)
  Lemma LiveF_same : forall m m' s sg, same_maps m' m -> LiveF m s sg -> LiveF m' s sg.
  Proof.
    intros m m' s sg (K2 & R2 & U2 & T2 & W2 & P2) [L1 L2 L3 L4 L5 L6 L7].
    constructor; try assumption.
    - now rewrite K2.
    - eapply IdxInv_ext; [exact K2|exact R2|exact U2|exact T2|exact L3].
    - unfold dirs_ok. rewrite P2. exact L6.
    - now rewrite W2.
  Qed.

  Lemma FsF_incl : forall pre cs cs' s, incl cs' cs -> FsF pre cs s -> FsF pre cs' s.
  Proof. intros pre cs cs' s I [B D]. split; [|exact D]. intros c Ic. apply B, I, Ic. Qed.

  Lemma dirsok_keeps : forall pre c, call_keeps (DirsOK pre) c.
  Proof.
    intros pre c s s' (D1 & D2 & D3) E.
    split; [exact (has_dir_keeps _ c _ _ D1 E)|]. split; [exact (has_dir_keeps _ c _ _ D2 E)|].
    intros Pp h Lh Bh. specialize (D3 Pp h Lh Bh). unfold parent_ok in *.
    cbn [cas_path parent_dir] in *. exact (has_dir_keeps _ c _ _ D3 E).
  Qed.

  Lemma staged_keeps : forall p x c, call_avoids p c = true -> call_keeps (Staged p x) c.
  Proof.
    intros p x c A s s' (f & G & D) E. exists f. split; [|exact D].
    exact (avoids_keeps p (Some f) c A s s' G E).
  Qed.

  Lemma fsf_keeps : forall pre cs c,
    (forall c0, In c0 cs -> call_avoids (cas_path (H c0)) c = true) -> call_keeps (FsF pre cs) c.
  Proof.
    intros pre cs c A s s' [B D] E. split; [|exact (dirsok_keeps pre c _ _ D E)].
    intros c0 I0. exact (staged_keeps _ c0 c (A c0 I0) _ _ (B c0 I0) E).
  Qed.

  (* calls that name nothing under cas/ (everything except the rename of a staged blob into
     cas/ and the unlink of unreferenced blobs) *)
  Lemma fsf_free : forall pre cs c, cas_free c = true -> call_keeps (FsF pre cs) c.
  Proof.
    intros pre cs c F. apply fsf_keeps. intros c0 _. unfold cas_path. now apply cas_free_avoids.
  Qed.

  Lemma pres_delete_blobs : forall pre cs hs,
    (forall h c0, In h hs -> In c0 cs -> cas_path (H c0) <> cas_path h) ->
    Pres (FsF pre cs) (delete_blobs hs).
  Proof.
    intros pre cs. induction hs as [|h hs IH]; intros Hs; cbn [delete_blobs].
    - apply pres_ret.
    - assert (IH' : Pres (FsF pre cs) (delete_blobs hs)).
      { apply IH. intros h' c0 Ih I0. apply Hs; [now right|exact I0]. }
      apply pres_bind.
      + apply pres_do_call, fsf_keeps. intros c0 I0. cbn [call_avoids].
        rewrite path_eqb_neq; [reflexivity|]. apply Hs; [now left|exact I0].
      + intros [u|[]]; try exact IH'; apply pres_ret.
  Qed.

  (* the outcome of a write operation *)
  (* sg: the abstract map before; sg': the map the operation is meant to produce.
     Whatever happens: no panic; the handle is in a consistent state for the old OR the new
     map (the two differ only on the keys of the operation, so every other key keeps exactly
     its content); and if the operation reports success it is the new one. *)
  Definition Outcome {R} (sg sg' : smap bytes) (r : res serr R) (m' : mem) (s' : fs) : Prop :=
    r <> Err EPanic /\ (LiveF m' s' sg \/ LiveF m' s' sg') /\
    ((exists v, r = Ok v) -> LiveF m' s' sg').

  Lemma Outcome_fail : forall {R} m s sg sg' e,
    e <> EPanic -> LiveF m s sg -> @Outcome R sg sg' (Err e) m s.
  Proof.
    intros R m s sg sg' e Ne L. split; [congruence|]. split; [now left|].
    intros [v E]. discriminate.
  Qed.

  Lemma Outcome_same : forall {R} m s sg (r : res serr R),
    r <> Err EPanic -> LiveF m s sg -> Outcome sg sg r m s.
  Proof. intros R m s sg r Nr L. split; [exact Nr|]. split; [now left|auto]. Qed.

  Lemma Outcome_map : forall {R R'} sg sg' (r : res serr R) (r' : res serr R') m s,
    Outcome sg sg' r m s ->
    (forall e, r' = Err e -> r = Err e) -> ((exists v, r' = Ok v) -> exists v, r = Ok v) ->
    Outcome sg sg' r' m s.
  Proof.
    intros R R' sg sg' r r' m s (A & B & C) He Ho. split; [|split; [exact B|]].
    - intros X. apply A. now apply He.
    - intros X. apply C, Ho, X.
  Qed.

  Lemma hoare_live : forall {A} m s sg w (prog : M A) (Q : A -> fs -> Prop),
    LiveF m s sg -> wfs w = s -> (MemF m sg -> Hoare (FsF (mpre m) (map snd sg)) prog Q) ->
    Q (fst (prog w)) (wfs (snd (prog w))).
  Proof.
    intros A m s sg w prog Q L <- Hp. exact (Hp (LiveF_mem _ _ _ L) w (LiveF_fs _ _ _ L)).
  Qed.

  (* log_and_apply under faults *)
  Lemma log_and_apply_fault : forall m sg sg' o, MemF m sg ->
    op_respects_sizes (idx m) o ->
    sorted cmp sg' -> km_of sg' = km_expected cmp (idx m) o -> NoCollide (map snd sg') ->
    Hoare (FsF (mpre m) (map snd sg ++ map snd sg')) (log_and_apply H cfg m o)
          (fun rm s' => Outcome sg sg' (fst rm) (snd rm) s').
  Proof.
    intros m sg sg' o [Ssg Hkm Hidx Hnc Hnv] Hop Ssg' Kexp Nc'.
    set (cs := map snd sg). set (cs' := map snd sg'). set (pre := mpre m).
    unfold log_and_apply. cbv zeta.
    eapply hoare_bind.
    { apply (inv_append_op H cfg (FsF pre (cs ++ cs'))). intros c Fc. now apply fsf_free. }
    intros [[ver|e] wl']; apply hoare_pure; cbn [fst snd]; intros [Hn He].
    - (* the record was appended and synced *)
      destruct (C12_apply cmp (key_cmp_refl _) (key_cmp_eq _) (key_cmp_antisym _) (key_cmp_trans _)
                  (idx m) o Hidx Hop) as (i' & un & Eap & Inv' & Ki' & _ & _ & Hun).
      unfold cmp in Eap. rewrite Eap.
      set (m1 := mkMem i' wl' (mpre m)).
      assert (L1 : forall s, FsF pre cs' s -> LiveF m1 s sg').
      { intros s. apply (LiveF_intro m1 s sg'). constructor; cbn [m1 idx mwal]; try assumption.
        - rewrite Ki'. symmetry. exact Kexp.
        - rewrite Hn. apply N.le_trans with (1 := Hnv), N.le_add_r. }
      eapply hoare_bind with (R := fun _ s => FsF pre cs' s).
      { eapply hoare_pre; [intros s; apply FsF_incl, incl_appr, incl_refl|].
        apply hoare_of_pres, pres_delete_blobs.
        (* an unreferenced hash is the hash of an old content and of no content of the new map *)
        intros h c0 Ih I0. apply Hun in Ih. destruct Ih as [Ih1 Ih2]. rewrite Hkm in Ih1.
        apply in_map_iff in I0. destruct I0 as ([k0 c0'] & <- & I0).
        apply (unref_not_live H H_len H_byte sg sg' h k0 c0' Ih1); [|exact I0].
        now rewrite Kexp, <- Ki'. }
      intros [u|e].
      + match goal with |- context [if ?b then _ else _] => destruct b end.
        * eapply hoare_post; [|apply (inv_checkpoint_inner cfg (FsF pre cs')); intros c Fc; now apply fsf_free].
          intros [r m2] s [Fs (Hr & Same)]. cbn [fst snd] in *.
          assert (L2 : LiveF m2 s sg') by exact (LiveF_same m1 m2 s sg' Same (L1 s Fs)).
          split; [exact Hr|]. split; [now right|auto].
        * apply hoare_ret. intros s Fs. cbn [fst snd]. split; [discriminate|].
          split; [right|intros _]; now apply L1.
      + apply hoare_ret. intros s Fs. cbn [fst snd]. split; [discriminate|].
        split; [right; now apply L1|]. intros [v E]. discriminate.
    - (* the append failed: memory keeps the old index; the version is burned and the record
         may still sit in the writer's buffer (F4) *)
      apply hoare_ret. intros s Fs. cbn [fst snd]. apply Outcome_fail.
      + intros ->. now apply He.
      + apply LiveF_intro; [|exact (FsF_incl _ _ _ _ (incl_appl _ (incl_refl _)) Fs)].
        constructor; cbn [idx mwal]; try assumption.
        rewrite Hn. apply N.le_trans with (1 := Hnv), N.le_add_r.
  Qed.

  (* put *)
  Lemma staged_append : forall p x b s s',
    Staged p x s -> apply_call (CAppend p b) s = Ok s' -> Staged p (x ++ b) s'.
  Proof.
    intros p x b s s' (f & G & D) E. cbn [apply_call] in E. rewrite G in E. inversion E.
    eexists. split; [apply (fget_upd_same s p)|]. cbn [fdata]. now rewrite D.
  Qed.

  Lemma staged_sync : forall p x s s',
    Staged p x s -> apply_call (CSync p) s = Ok s' -> Staged p x s'.
  Proof.
    intros p x s s' (f & G & D) E. cbn [apply_call] in E. rewrite G in E. inversion E.
    eexists. split; [apply (fget_upd_same s p)|]. exact D.
  Qed.

  (* the staging file gets the next unused number and is empty; failure is EStageCreate *)
  Lemma new_staging_hoare : forall (I : fs -> Prop), (forall c, cas_free c = true -> call_keeps I c) ->
    Hoare I new_staging
          (fun rp s => I s /\ match rp with
                              | Ok p => (exists i, p = PStaging i) /\ Staged p [] s
                              | Err e => e = EStageCreate
                              end).
  Proof.
    intros I KF. unfold new_staging.
    eapply hoare_bind with (R := fun _ s => I s); [apply hoare_get_fs; auto|].
    intros s0. cbv beta zeta. set (p := PStaging (nstage s0)).
    apply (hoare_try I (Staged p [])).
    - eapply hoare_pre; [|apply (hoare_call_frame I (fun _ => True)); [now apply KF|]];
        [intros s Is; now split|].
      intros s s' _ E. cbn [apply_call] in E. destruct (parent_ok s p); [|discriminate].
      destruct (fget s p); inversion E.
      exists (mkFile [] 0). split; [|reflexivity]. unfold fget. cbn [files].
      rewrite lookup_set_path, path_eqb_refl. reflexivity.
    - intros u. apply hoare_ret. intros s [Is St]. split; [exact Is|]. split; [now exists (nstage s0)|exact St].
    - intros e. apply hoare_ret. intros s Is. now split.
  Qed.

  Theorem put_hoare : forall m sg k chunks, MemF m sg ->
    NoCollide (concat chunks :: map snd sg) ->
    Hoare (FsF (mpre m) (map snd sg)) (put H cfg m k chunks)
          (fun rm s' => Outcome sg (sm_ins cmp sg k (concat chunks)) (fst rm) (snd rm) s').
  Proof.
    intros m sg k chunks Mm NC. pose proof Mm as [Ssg Hkm Hidx Hnc Hnv].
    set (c := concat chunks) in *. set (sg' := sm_ins cmp sg k c).
    set (cs := map snd sg) in *. set (Fs0 := FsF (mpre m) cs).
    assert (KF : forall c0, cas_free c0 = true -> call_keeps Fs0 c0)
      by (intros c0 F0; now apply fsf_free).
    assert (Fail : forall e s, e <> EPanic -> Fs0 s -> @Outcome unit sg sg' (Err e) m s).
    { intros e s Ne Fs. apply Outcome_fail; [exact Ne|]. now apply LiveF_intro. }
    (* the clean-up of the error paths: only the staging file is touched *)
    assert (Cleanup : forall i e, e <> EPanic ->
              Hoare Fs0 (do! _ <- drop_staging (PStaging i) ;; ret (Err e, m))
                    (fun rm s' => @Outcome unit sg sg' (fst rm) (snd rm) s')).
    { intros i e Ne. eapply hoare_bind; [apply (inv_drop_staging Fs0 KF)|].
      intros u. apply hoare_ret. intros s [Fs _]. now apply Fail. }
    unfold put. cbv zeta. fold c.
    (* A. the staging file *)
    eapply hoare_bind; [exact (new_staging_hoare Fs0 KF)|].
    intros [p|e].
    2: { apply hoare_ret. intros s [Fs ->]. apply Fail; [discriminate|exact Fs]. }
    apply (hoare_pre_elim (exists i, p = PStaging i)); [intros s (_ & X & _); exact X|].
    intros [i ->]. set (p := PStaging i).
    (* B. the content *)
    apply (hoare_try Fs0 (Staged p c)).
    { destruct c as [|x c0] eqn:Ec.
      - apply hoare_ret. intros s [Fs [_ St]]. now split.
      - apply hoare_call_frame; [now apply KF|]. intros s s' [_ St]. exact (staged_append p [] _ s s' St). }
    2: { (* the BufWriter's Drop retries the flush first *)
         intros e. eapply hoare_bind with (R := fun _ s => Fs0 s /\ True);
           [|intros u; apply hoare_pure; intros _; now apply Cleanup].
         destruct (bw_sim 0 chunks); [now apply inv_ret|now apply inv_call, KF]. }
    intros _.
    (* C. fsync of the staged file *)
    apply (hoare_try Fs0 (Staged p c)); [|intros _|intros e; now apply Cleanup].
    { destruct (c_sync cfg).
      - apply hoare_call_frame; [now apply KF|]. intros s s' St. exact (staged_sync p c s s' St).
      - apply hoare_ret. intros s [Fs St]. now split. }
    (* D. the fan-out directories *)
    apply (hoare_try Fs0 (Staged p c)); [|intros _|intros e; now apply Cleanup].
    { eapply hoare_post; [|apply (hoare_of_pres (fun s => Fs0 s /\ Staged p c s))].
      - intros [u|e] s [Fs St]; now split.
      - destruct (mpre m); [apply pres_ret|].
        apply pres_prog, prog_mkdir_cas2; (apply keeps_and; [now apply KF|now apply staged_keeps]). }
    (* E. the rename into cas/ *)
    set (q := cas_path (H c)).
    apply (hoare_try Fs0 (fun s => Blob s c)); [|intros _|intros e; now apply Cleanup].
    { apply hoare_call.
      - intros s s' [[B D] (f & G & Df)] E.
        pose proof (dirsok_keeps _ _ _ _ D E) as D'.
        cbn [apply_call] in E. rewrite G in E. destruct (parent_ok s q); [|discriminate].
        inversion E as [E']. change (with_files s (set_path (remove_path (files s) p) q f))
                              with (ren s p q f) in *.
        assert (Bc : Blob (ren s p q f) c).
        { exists f. split; [|exact Df]. fold q. now rewrite fget_ren, path_eqb_refl. }
        split; [|exact Bc]. split; [|rewrite E'; exact D'].
        intros c0 I0. destruct (path_eq_dec (cas_path (H c0)) q) as [Eq|Nq].
        + assert (c0 = c); [|now subst].
          apply (cas_path_inj H H_len H_byte) in Eq. apply NC; [now right|now left|exact Eq].
        + destruct (B c0 I0) as (f0 & G0 & D0). exists f0. split; [|exact D0].
          rewrite fget_ren, (path_eqb_neq _ _ Nq), fget_del_other; [exact G0|discriminate].
      - intros s e [Fs _]. now split. }
    (* F. the WAL record and the index update *)
    destruct (put_next H cfg m sg k c Ssg Hkm NC) as (Hop & Ss' & Ke & Nc').
    eapply hoare_pre; [|exact (log_and_apply_fault m sg sg' _ Mm Hop Ss' Ke Nc')].
    intros s [[B D] Bc]. split; [|exact D]. intros x Ix. apply in_app_or in Ix.
    destruct Ix as [Ix|Ix]; [now apply B|]. apply (ins_contents cfg) in Ix. destruct Ix as [<-|Ix]; auto.
  Qed.

  (* remove, remove_range, checkpoint, abort *)
  (* removal of a list of keys: the common part of remove and remove_range *)
  Lemma removal_fault : forall m sg sg' ks, MemF m sg ->
    sorted cmp sg' -> incl sg' sg ->
    km_of sg' = fold_left (fun mm k => sm_del cmp mm k) ks (km_of sg) ->
    Hoare (FsF (mpre m) (map snd sg)) (log_and_apply H cfg m (RRemove ks))
          (fun rm s' => Outcome sg sg' (fst rm) (snd rm) s').
  Proof.
    intros m sg sg' ks Mm Ssg' Sub Kd.
    assert (Sub' : incl (map snd sg') (map snd sg)) by now apply incl_map.
    eapply hoare_pre; [|apply (log_and_apply_fault m sg sg' _ Mm)].
    - intros s. apply FsF_incl, incl_app; [apply incl_refl|exact Sub'].
    - exact I.
    - exact Ssg'.
    - cbn [km_expected]. now rewrite (mf_km _ _ Mm).
    - exact (NoCollide_incl H _ _ Sub' (mf_nocollide _ _ Mm)).
  Qed.

  (* the operation reports a value v only together with the new map *)
  Definition Reports {R} (sg sg' : smap bytes) (v : R) (rm : res serr R * mem) (s' : fs) : Prop :=
    Outcome sg sg' (fst rm) (snd rm) s' /\ forall v', fst rm = Ok v' -> v' = v.

  Lemma reports_after : forall {R} m sg sg' (v : R) o,
    Hoare (FsF (mpre m) (map snd sg)) (log_and_apply H cfg m o)
          (fun rm s' => Outcome sg sg' (fst rm) (snd rm) s') ->
    Hoare (FsF (mpre m) (map snd sg))
          (do! rm <- log_and_apply H cfg m o ;;
           match rm with (Ok _, m') => ret (Ok v, m') | (Err e, m') => ret (Err e, m') end)
          (Reports sg sg' v).
  Proof.
    intros R m sg sg' v o Hl. eapply hoare_bind; [exact Hl|].
    intros [[u|e] m']; apply hoare_ret; intros s O; cbn [fst snd] in O.
    - split; [|intros v' Ev; now inversion Ev].
      eapply Outcome_map; [exact O|discriminate|intros _; now exists u].
    - split; [|discriminate].
      eapply Outcome_map; [exact O|intros e' Ee; now inversion Ee|intros [v' Ev]; discriminate].
  Qed.

  Theorem remove_hoare : forall m sg k, MemF m sg ->
    Hoare (FsF (mpre m) (map snd sg)) (remove H cfg m k)
          (Reports sg (sm_del cmp sg k) (match sm_get cmp sg k with Some _ => true | None => false end)).
  Proof.
    intros m sg k Mm. pose proof (mf_sorted _ _ Mm) as Ssg. unfold remove. fold cmp.
    rewrite (mf_km _ _ Mm). unfold cmp at 1. rewrite (km_of_get H cfg). fold cmp.
    destruct (sm_get cmp sg k) as [c0|] eqn:G; cbn [option_map].
    - apply reports_after, (removal_fault m sg (sm_del cmp sg k) [k] Mm).
      + apply (KX sorted_del), Ssg.
      + intros e. apply (In_sm_del _).
      + cbn [fold_left]. apply (km_of_del H cfg).
    - apply hoare_ret. intros s Fs. split; [|intros b Eb; now inversion Eb]. cbn [fst snd].
      rewrite (sm_del_absent _ _ _ G). apply Outcome_same; [discriminate|now apply LiveF_intro].
  Qed.

  Theorem remove_range_hoare : forall m sg lo hi, MemF m sg ->
    (nonempty sg && range_panics cmp lo hi) = false ->
    let inr := fun e : bytes * bytes => in_range cmp lo hi (fst e) in
    Hoare (FsF (mpre m) (map snd sg)) (remove_range H cfg m lo hi)
          (Reports sg (filter (fun e => negb (inr e)) sg) (N.of_nat (length (filter inr sg)))).
  Proof.
    intros m sg lo hi Mm NP inr. pose proof (mf_sorted _ _ Mm) as Ssg. unfold remove_range. fold cmp.
    rewrite (mf_km _ _ Mm), (nonempty_km_of H), NP. unfold keys_in_range. fold cmp.
    rewrite (mf_km _ _ Mm), <- (km_of_filter H (in_range cmp lo hi)), (km_of_keys H). fold inr.
    destruct (map fst (filter inr sg)) as [|k0 ks0] eqn:Eks.
    - apply hoare_ret. intros s Fs. apply map_eq_nil in Eks.
      rewrite (filter_none_all inr sg Eks), Eks. split; [|intros n En; now inversion En]. cbn [fst snd].
      apply Outcome_same; [discriminate|now apply LiveF_intro].
    - rewrite <- Eks, <- (map_length fst (filter inr sg)).
      apply reports_after, (removal_fault m sg _ (map fst (filter inr sg)) Mm).
      + apply (KX sorted_filter), Ssg.
      + apply incl_filter.
      + exact (km_of_del_range H cfg (in_range cmp lo hi) sg Ssg).
  Qed.

  (* bounds that make BTreeMap::range panic: the call panics before any I/O (this is the
     documented behaviour of the real code, not a fault effect) *)
  Lemma remove_range_panics : forall m lo hi w,
    (nonempty (km (idx m)) && range_panics (key_cmp (c_kt cfg)) lo hi) = true ->
    remove_range H cfg m lo hi w = ((Err EPanic, m), w).
  Proof. intros m lo hi w E. unfold remove_range. now rewrite E. Qed.

  Theorem checkpoint_hoare : forall m sg, MemF m sg ->
    Hoare (FsF (mpre m) (map snd sg)) (checkpoint cfg m)
          (fun rm s' => Outcome sg sg (fst rm) (snd rm) s').
  Proof.
    intros m sg Mm. unfold checkpoint.
    eapply hoare_post; [|apply (inv_checkpoint_inner cfg (FsF (mpre m) (map snd sg)));
                         intros c Fc; now apply fsf_free].
    intros [r m2] s [Fs (Hr & Same)]. apply Outcome_same; [exact Hr|].
    apply (LiveF_same m m2 s sg Same). now apply LiveF_intro.
  Qed.

  Theorem abort_hoare : forall m sg k chunks, MemF m sg ->
    Hoare (FsF (mpre m) (map snd sg)) (abort m k chunks)
          (fun rm s' => Outcome sg sg (fst rm) (snd rm) s' /\ snd rm = m).
  Proof.
    intros m sg k chunks Mm.
    eapply hoare_post; [|apply (inv_abort (FsF (mpre m) (map snd sg))); intros c Fc; now apply fsf_free].
    intros [r m2] s [Fs [Hr Em]]. cbn [fst snd] in *. subst m2. split; [|reflexivity].
    apply Outcome_same; [exact Hr|now apply LiveF_intro].
  Qed.

  (* put and close in world form: for EVERY world w, whatever wfault w is *)
  Theorem put_fault : forall m s sg k chunks w,
    LiveF m s sg -> wfs w = s -> NoCollide (concat chunks :: map snd sg) ->
    let '((r, m'), w') := put H cfg m k chunks w in
    r <> Err EPanic /\
    (LiveF m' (wfs w') sg \/ LiveF m' (wfs w') (sm_ins cmp sg k (concat chunks))) /\
    (r = Ok tt -> LiveF m' (wfs w') (sm_ins cmp sg k (concat chunks))).
  (* with every hypothesis of the section *)
  Proof using H H_len H_byte cfg n_pos.
    intros m s sg k chunks w L Ws NC.
    pose proof (hoare_live m s sg w _ _ L Ws (fun Mm => put_hoare m sg k chunks Mm NC)) as O.
    destruct (put H cfg m k chunks w) as [[r m'] w']. cbn [fst snd] in O.
    destruct O as (A & B & C). split; [exact A|]. split; [exact B|]. intros ->. apply C. now exists tt.
  Qed.

  (* close under faults: the filesystem part of the invariant survives (only the WAL segment
     is touched) *)
  Theorem close_fault : forall m s sg w,
    LiveF m s sg -> wfs w = s -> FsF (mpre m) (map snd sg) (wfs (snd (close m w))).
  Proof.
    intros m s sg w L Ws. subst s.
    apply (pres_prog (FsF (mpre m) (map snd sg))); [|now apply LiveF_fs].
    apply prog_close. intros c E. apply fsf_free, wal_free, E.
  Qed.
End Faults.

Print Assumptions log_and_apply_fault.
Print Assumptions put_fault.
Print Assumptions close_fault.
