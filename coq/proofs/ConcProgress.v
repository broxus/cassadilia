(* ConcProgress.v -- C15, progress: every step of every thread strictly decreases the thread's
   own measure [work], so every schedule performs at most [total_work] steps and (with
   deadlock freedom) every program can be run to completion from every reachable state.
   (The read retry happens under the state lock, so no edge leads back:
   GReread -> GOpenL -> finish.)  A get_range costs what a get costs (its pre-open exits only
   shorten it); an iteration is two steps (take the call, read under the guard: IRead).

     work B ts            per-thread measure (B bounds the number of indexed keys: the number
                          of KPut calls of the programs, KmBound / km_bound)
     C15_progress_thread  every step of a thread decreases its work and changes no other thread
     C15_potential_decreases   potential g = sum of work over the threads; decreases with every step
     C15_progress         number of steps of any schedule <= total_work
     C15_calls_complete   from every reachable state some schedule finishes all threads
     C15_stuck_is_finished  a state where nothing is enabled has all threads finished

   All of this holds for ARBITRARY fault parameters bad / ckbad: the error exits only shorten a
   call (PRen -> PDropI -> return instead of the 8 remaining steps of a put; WUnlink -> return),
   so the measure and the bound total_work are unchanged. *)
From Cas Require Import SMap Index Conc.
From CasProofs Require Import SMapProofs IndexProofs ConcInv ConcProofs.
From Coq Require Import List NArith Lia Bool Arith.
Import ListNotations.
Open Scope nat_scope.

Fixpoint tsum (f : tstate -> nat) (l : list (nat * tstate)) : nat :=
  match l with [] => 0 | (_, s) :: r => f s + tsum f r end.

Lemma tsum_tset f l t s s' :
  tget l t = Some s -> tsum f (tset l t s') + f s = tsum f l + f s'.
Proof.
  induction l as [|[v x] r IH]; cbn [tget tset tsum]; [discriminate|].
  destruct (Nat.eqb t v) eqn:E; cbn [tsum].
  - intros G; inversion G; subst. lia.
  - intros G. specialize (IH G). lia.
Qed.

Lemma tsum_le f g l : (forall s, f s <= g s) -> tsum f l <= tsum g l.
Proof.
  intros A. induction l as [|[v x] r IH]; cbn [tsum]; [lia|]. specialize (A x). lia.
Qed.

Lemma tsum_const c l : tsum (fun _ => c) l = c * length l.
Proof. induction l as [|[v x] r IH]; cbn [tsum length]; lia. Qed.

Lemma length_tset l t s s0 : tget l t = Some s0 -> length (tset l t s) = length l.
Proof.
  induction l as [|[v x] r IH]; cbn [tget tset length]; [discriminate|].
  destruct (Nat.eqb t v); cbn [length]; [reflexivity|]. intros G. rewrite (IH G). reflexivity.
Qed.

Definition wsize (w : wkind) : nat :=
  match w with WPut _ _ _ => 1 | WRm ks _ => length ks end.

(* pc_work B p bounds the steps a thread parked at p still takes until its call returns.  The
   constants are read off the rules of ConcStep, each one more than the largest value a rule
   leads to: the apply of w leaves at most wsize w hashes to unlink, a range scan finds at most
   B keys (B bounds the key map: km_bound), an orphan candidate costs three steps (OLockI, ORead,
   OUnlink).  call_work B c is one more than pc_work at the pc where c starts (call_start): the
   step that takes the call *)
Definition pc_work (B : nat) (p : pc) : nat :=
  match p with
  | Idle => 0
  | PReg _ _ => 11 | PILock _ _ => 10 | PRen _ _ _ => 9 | PDropI _ _ _ => 8
  | WLockI w => 7 + wsize w | WLockS w => 6 + wsize w | WLockW w => 5 + wsize w
  | WApplied _ un _ => 4 + length un
  | WUnlink _ todo _ => 3 + length todo
  | WReleased _ _ => 3 | WCkS _ _ => 2 | WCkW _ _ => 1
  | RRead _ => 10 | RScanned _ => 9
  | RRRead _ _ => 9 + B | RRScanned ks => 8 + length ks
  | GRead _ _ => 5 | GLooked _ _ _ => 4 | GOpen _ _ _ => 3 | GReread _ _ _ => 2 | GOpenL _ _ _ => 1
  | IRead => 1
  | OLockI todo _ _ => 1 + 3 * length todo
  | ORead _ rest _ _ => 3 + 3 * length rest
  | OUnlink _ rest _ _ => 2 + 3 * length rest
  end.

Definition call_work (B : nat) (c : ccall) : nat :=
  match c with
  | KPut _ _ => 12 | KAbort _ _ => 1 | KRemove _ => 11 | KRemoveRange _ _ => 10 + B
  | KGet _ | KGetSize _ | KGetRange _ _ _ => 6 | KIter => 2 | KCheckpoint => 3
  | KDelOrphans hs => 2 + 3 * length hs
  end.

Fixpoint calls_work (B : nat) (cs : list ccall) : nat :=
  match cs with [] => 0 | c :: r => call_work B c + calls_work B r end.

Definition work (B : nat) (ts : tstate) : nat := calls_work B (t_calls ts) + pc_work B (t_pc ts).

(* pending puts: what can still add a key *)
Definition pc_put (p : pc) : nat :=
  match p with
  | PReg _ _ | PILock _ _ | PRen _ _ _
  | WLockI (WPut _ _ _) | WLockS (WPut _ _ _) | WLockW (WPut _ _ _) => 1
  | _ => 0
  end.
Definition puts_left (ts : tstate) : nat :=
  length (flat_map call_contents (t_calls ts)) + pc_put (t_pc ts).

Lemma keys_in_len cmp (m : smap item) lo hi : length (keys_in cmp m lo hi) <= length m.
Proof. unfold keys_in. rewrite map_length. apply filter_length_le. Qed.

Lemma puts_left_init thr :
  tsum puts_left (map (fun p : nat * list ccall => (fst p, mkT (snd p) Idle [])) thr)
  = length (contents thr).
Proof.
  unfold contents. induction thr as [|[t cs] r IH]; cbn [map tsum flat_map fst snd]; [reflexivity|].
  unfold puts_left at 1. rewrite app_length, IH. cbn [t_calls t_pc pc_put]. lia.
Qed.

Section Progress.
  Variable H : bytes -> bytes.
  Variable cmp : bytes -> bytes -> comparison.
  Hypothesis cmp_refl : forall a, cmp a a = Eq.
  Hypothesis cmp_eq : forall a b, cmp a b = Eq -> a = b.
  Hypothesis cmp_antisym : forall a b, cmp b a = CompOpp (cmp a b).
  Hypothesis cmp_trans : forall a b c, cmp a b = Lt -> cmp b c = Lt -> cmp a c = Lt.
  Variable nops : N.
  Variable bad : bytes -> bool.
  Variable ckbad : bool.
  Variable thr0 : list (nat * list ccall).
  Hypothesis thr0_nodup : NoDup (map fst thr0).
  Variable cas0 : smap bytes.
  Hypothesis cas0_sorted : sorted lex_cmp cas0.
  Hypothesis cas0_named : forall h c, In (h, c) cas0 -> H c = h.
  Hypothesis NoCollideC :
    forall a b, In a (allc thr0 cas0) -> In b (allc thr0 cas0) -> H a = H b -> a = b.
  Collection Ord := cmp_refl cmp_eq cmp_antisym cmp_trans.
  Collection Setting := Ord thr0_nodup cas0_sorted cas0_named NoCollideC.

  Local Notation Reach := (reachable H cmp nops bad ckbad thr0 cas0).
  Local Notation step := (cstep H cmp nops bad ckbad).
  Local Notation edge := (edge H cmp nops bad ckbad).
  Local Notation at_setting L :=
    (L H cmp cmp_refl cmp_eq cmp_antisym cmp_trans nops bad ckbad thr0 thr0_nodup cas0 cas0_sorted
       cas0_named NoCollideC) (only parsing).

  (* the number of indexed keys never exceeds the number of KPut calls of the programs *)
  Definition B : nat := length (contents thr0).
  Definition KmBound (g : cstate) : Prop := length (km (g_idx g)) + tsum puts_left (g_thr g) <= B.

  (* a step adds a key only by turning a pending put into an applied one *)
  Lemma edge_puts_left g t p cs p' cs' out sh : edge g t p cs p' cs' out sh ->
    length (km (g_idx sh)) + (length (flat_map call_contents cs') + pc_put p') <=
    length (km (g_idx g)) + (length (flat_map call_contents cs) + pc_put p).
  Proof using.
    intros E.
    destruct E; cbn [g_idx set_I set_S set_R set_cas set_intents set_index pc_put km persisted];
      try lia.
    - destruct c as [| | | | | | | | |[|]]; cbn; lia.
    - destruct (apply_op_shape _ _ _ _ _ Ap) as [K _]. rewrite K.
      destruct w as [k h sz|ks r]; cbn [pc_put wop km_expected].
      + pose proof (length_sm_ins_le cmp (km (g_idx g)) k (mkItem h sz)). lia.
      + pose proof (length_fold_del_le cmp ks (km (g_idx g))). lia.
  Qed.

  Lemma km_bound_init : KmBound (init_c thr0 cas0).
  Proof using.
    unfold KmBound, init_c, B. cbn [g_idx g_thr km empty_istate length].
    rewrite puts_left_init. lia.
  Qed.

  Lemma km_bound g : Reach g -> KmBound g.
  Proof using.
    revert g. apply reachable_ind; [exact km_bound_init|]. unfold KmBound.
    intros g t g' _ KB St. destruct (cstep_tget St) as [ts Ht].
    destruct (cstep_spec Ht St) as (p' & cs' & out & sh & E & ->).
    cbn [set_thr g_idx g_thr]. rewrite (edge_thr E).
    pose proof (tsum_tset puts_left _ _ _ (mkT cs' p' (emit (t_res ts) out)) Ht) as X.
    unfold puts_left in *. cbn [t_calls t_pc] in X. pose proof (edge_puts_left _ _ _ _ _ _ _ _ E). lia.
  Qed.

  Lemma edge_work g t p cs p' cs' out sh : (length (km (g_idx g)) <= B)%nat ->
    edge g t p cs p' cs' out sh ->
    calls_work B cs' + pc_work B p' < calls_work B cs + pc_work B p.
  Proof using.
    intros KB E. destruct E; cbn [calls_work pc_work length wsize]; try lia.
    - destruct c as [| | | | | | | | |[|]]; cbn [call_start fst call_work pc_work length]; lia.
    - destruct (apply_op_shape _ _ _ _ _ Ap) as (_ & _ & L). destruct w; cbn [wop wsize] in L |- *; lia.
    - pose proof (filter_length_le (unprot_in (wbh w (g_byhash g))) un). lia.
    - pose proof (keys_in_len cmp (km (g_idx g)) lo hi). lia.
  Qed.

  Lemma thread_step g t ts g' : Reach g -> tget (g_thr g) t = Some ts -> step g t = Some g' ->
    exists ts', g_thr g' = tset (g_thr g) t ts' /\ work B ts' < work B ts.
  Proof using.
    intros R Ht St. pose proof (km_bound g R) as KB. unfold KmBound in KB.
    destruct (cstep_spec Ht St) as (p' & cs' & out & sh & E & ->).
    eexists. cbn [set_thr g_thr]. rewrite (edge_thr E).
    split; [reflexivity|]. eapply edge_work; [|exact E]. lia.
  Qed.

  (* every step of a thread decreases its work (no edge leads back), and leaves the other
     threads alone *)
  Theorem C15_progress_thread g t ts g' ts' : Reach g ->
    tget (g_thr g) t = Some ts -> step g t = Some g' -> tget (g_thr g') t = Some ts' ->
    work B ts' < work B ts /\
    forall u, u <> t -> tget (g_thr g') u = tget (g_thr g) u.
  Proof using Ord.
    intros R Ht St Ht'.
    destruct (thread_step g t ts g' R Ht St) as (ts2 & E & W).
    rewrite E, tget_tset_same in Ht'. injection Ht' as <-.
    split; [exact W|]. intros u N. rewrite E. apply tget_tset_other, N.
  Qed.

  (* the total remaining work *)
  Definition potential (g : cstate) : nat := tsum (work B) (g_thr g).

  Theorem C15_potential_decreases g t g' : Reach g -> step g t = Some g' ->
    potential g' < potential g.
  Proof using Ord.
    intros R St.
    destruct (cstep_tget St) as [ts Ht].
    destruct (thread_step g t ts g' R Ht St) as (ts' & E & W).
    unfold potential. rewrite E.
    pose proof (tsum_tset (work B) _ _ _ ts' Ht). lia.
  Qed.

  Fixpoint csteps (g : cstate) (sched : list nat) : nat :=
    match sched with
    | [] => 0
    | t :: r => match step g t with Some g' => S (csteps g' r) | None => csteps g r end
    end.

  Lemma csteps_bound sched : forall g, Reach g ->
    csteps g sched + potential (crun H cmp nops bad ckbad g sched) <= potential g.
  Proof using Ord.
    induction sched as [|t r IH]; intros g R; cbn [csteps crun]; [lia|].
    destruct (step g t) as [g'|] eqn:St; [|apply IH, R].
    pose proof (C15_potential_decreases g t g' R St).
    specialize (IH g' (reachable_step _ _ _ _ _ _ _ _ _ _ R St)). lia.
  Qed.

  (* sum over all threads and calls of call_work *)
  Definition total_work : nat := tsum (work B) (g_thr (init_c thr0 cas0)).

  (* any schedule performs at most total_work steps *)
  Theorem C15_progress sched : csteps (init_c thr0 cas0) sched <= total_work.
  Proof using Ord.
    pose proof (csteps_bound sched _ (reachable_init H cmp nops bad ckbad thr0 cas0)) as Bd.
    unfold total_work. unfold potential in Bd at 2. lia.
  Qed.

  (* in particular a schedule that only schedules enabled threads is that short *)
  Corollary C15_progress_enabled sched :
    csteps (init_c thr0 cas0) sched = length sched -> length sched <= total_work.
  Proof using Ord.
    intros <-. apply C15_progress.
  Qed.

  (* concurrent calls always complete: from every reachable state the programs can be run
     to completion (by deadlock freedom some thread can always move, and the potential
     bounds the number of moves), whatever happened before *)
  Theorem C15_calls_complete g : Reach g ->
    exists sched, all_finished (crun H cmp nops bad ckbad g sched) = true.
  Proof using Setting.
    assert (A : forall n g0, potential g0 < n -> Reach g0 ->
                             exists sched, all_finished (crun H cmp nops bad ckbad g0 sched) = true).
    { clear g. induction n as [|n IH]; intros g Pn R; [lia|].
      destruct (all_finished g) eqn:AF; [exists []; exact AF|].
      destruct (at_setting C15_deadlock_free g R AF) as [t En].
      unfold enabled in En. destruct (step g t) as [g'|] eqn:St; [|discriminate].
      pose proof (C15_potential_decreases g t g' R St) as D.
      destruct (IH g') as [sched Hs]; [lia|eapply reachable_step; eassumption|].
      exists (t :: sched). cbn [crun]. rewrite St. exact Hs. }
    intros R. apply (A (S (potential g)) g); [lia|exact R].
  Qed.

  (* a run that stops only when nothing is enabled ends with all threads finished *)
  Theorem C15_stuck_is_finished g : Reach g ->
    (forall t, enabled H cmp nops bad ckbad g t = false) -> all_finished g = true.
  Proof using Setting.
    intros R Stuck. destruct (all_finished g) eqn:AF; [reflexivity|].
    destruct (at_setting C15_deadlock_free g R AF) as [t En].
    rewrite Stuck in En. discriminate.
  Qed.

End Progress.

Print Assumptions C15_progress_thread.
Print Assumptions C15_potential_decreases.
Print Assumptions C15_progress.
Print Assumptions C15_calls_complete.
Print Assumptions C15_stuck_is_finished.
