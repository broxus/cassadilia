(* OpenLock2Proofs.v -- property C11 for the inode-level model Cas.OpenLock2: however the two
   halves of racing opens (open(LOCK) / flock) interleave with each other and with drops, kills,
   clones and operations, at most one handle is live -- as long as the name LOCK is never
   unlinked.  With an unlink two live handles are reachable (C11_2_unlink_breaks_exclusivity). *)
From Coq Require Import List NArith Bool Arith Lia.
Import ListNotations.
From Cas Require Import OpenLock OpenLock2.


(* The invariant: at most one inode (number 0) ever exists.  Three shapes of state: *)
(*   fresh : the name is unbound; nothing exists yet *)
(*   free  : the name is bound to inode 0, nobody holds a flock, no live handle; every pending *)
(*           open holds a descriptor of inode 0 *)
(*   held  : as free, but exactly one live handle, which holds the one flock (on inode 0), *)
(*           has >= 1 references and an id below next_id2. *)
Definition pend_ok (ps : list pending) : Prop := Forall (fun p => p_ino p = 0) ps.

Inductive Inv2 : st2 -> Prop :=
| Inv2_fresh : forall c d n, Inv2 (mkSt2 None [] c d [] [] n 0)
| Inv2_free  : forall c ps n, pend_ok ps -> Inv2 (mkSt2 (Some 0) [] c true [] ps n 1)
| Inv2_held  : forall c ps n id pid r, pend_ok ps -> 1 <= r -> id < n ->
    Inv2 (mkSt2 (Some 0) [(0, id)] c true [mkH2 id pid r 0] ps n 1).

Lemma Inv2_init : Inv2 init2.
Proof. constructor. Qed.

Lemma pend_ok_in : forall ps p, pend_ok ps -> In p ps -> p_ino p = 0.
Proof. intros ps p H. revert p. now apply Forall_forall. Qed.

Lemma pend_ok_filter : forall f ps, pend_ok ps -> pend_ok (filter f ps).
Proof.
  intros f ps H. apply Forall_forall. intros p Hp. apply filter_In in Hp.
  apply (pend_ok_in ps p H), Hp.
Qed.

Lemma pend_ok_find : forall f ps p, pend_ok ps -> find f ps = Some p -> p_ino p = 0.
Proof. intros f ps p H F. apply find_some in F. apply (pend_ok_in ps p H), F. Qed.

Lemma step2_Inv2 : forall s e, Inv2 s -> e <> E2Unlink -> Inv2 (fst (step2 s e)).
Proof.
  intros s e H Hne. destruct H as [c d n|c ps n Hps|c ps n id pid r Hps Hr Hn];
    destruct e as [p|tok p|tok|hid|hid|p|hid|]; try congruence; clear Hne; cbn;
    try (constructor; assumption).  (* the events that find nothing to act on *)
  (* fresh *)
  - apply Inv2_held; [constructor|lia|lia].
  - apply Inv2_free. constructor; [reflexivity|constructor].
  (* free *)
  - apply Inv2_held; [assumption|lia|lia].
  - apply Inv2_free. constructor; [reflexivity|assumption].
  - destruct (find _ ps) as [q|] eqn:F; [|cbn; constructor; assumption].
    rewrite (pend_ok_find _ _ _ Hps F). cbn.
    apply Inv2_held; [apply pend_ok_filter, Hps|lia|lia].
  - constructor. apply pend_ok_filter, Hps.
  (* held *)
  - apply Inv2_held; [|assumption|assumption]. constructor; [reflexivity|assumption].
  - destruct (find _ ps) as [q|] eqn:F; [|cbn; constructor; assumption].
    rewrite (pend_ok_find _ _ _ Hps F). cbn.
    apply Inv2_held; [apply pend_ok_filter, Hps|lia|lia].
  - unfold has_id2. cbn. destruct (Nat.eqb id hid); apply Inv2_held; try assumption; lia.
  - unfold has_id2. cbn. destruct (Nat.eqb_spec id hid) as [<-|]; cbn; [|now apply Inv2_held].
    destruct (Nat.leb_spec r 1); cbn; unfold has_id2; cbn; rewrite ?Nat.eqb_refl; cbn.
    + constructor; assumption.
    + apply Inv2_held; try assumption; lia.
  - unfold has_pid2. cbn. destruct (Nat.eqb_spec pid p); cbn.
    + rewrite Nat.eqb_refl. cbn. constructor. apply pend_ok_filter, Hps.
    + apply Inv2_held; try assumption. apply pend_ok_filter, Hps.
  - unfold has_id2. cbn. destruct (Nat.eqb id hid); now apply Inv2_held.
Qed.

Lemma no_unlink_cons : forall e r, no_unlink (e :: r) -> e <> E2Unlink /\ no_unlink r.
Proof.
  unfold no_unlink. intros e r H. split.
  - intros ->. apply H. left. reflexivity.
  - intros Hin. apply H. right. exact Hin.
Qed.

Lemma run2_Inv2 : forall evs s, Inv2 s -> no_unlink evs -> Inv2 (run2 s evs).
Proof.
  induction evs as [|e r IH]; intros s H Hn; cbn; [assumption|].
  apply no_unlink_cons in Hn. destruct Hn as [He Hr].
  apply IH; [apply step2_Inv2; assumption|assumption].
Qed.

(* states reachable without unlink *)
Definition reachable2 (s : st2) : Prop := exists evs, no_unlink evs /\ s = run2 init2 evs.

Lemma reachable2_Inv2 : forall s, reachable2 s -> Inv2 s.
Proof. intros s (evs & Hn & ->). apply run2_Inv2; [apply Inv2_init|assumption]. Qed.

Lemma run2_app : forall a b s, run2 s (a ++ b) = run2 (run2 s a) b.
Proof. induction a as [|e a IH]; intros b s; cbn; [reflexivity|apply IH]. Qed.

Lemma no_unlink_app : forall a b, no_unlink a -> no_unlink b -> no_unlink (a ++ b).
Proof. unfold no_unlink. intros a b Ha Hb Hin. apply in_app_or in Hin. tauto. Qed.

Lemma reachable2_init : reachable2 init2.
Proof. exists []. split; [intros []|reflexivity]. Qed.

Lemma reachable2_run : forall evs s, reachable2 s -> no_unlink evs -> reachable2 (run2 s evs).
Proof.
  intros evs s (evs0 & Hn0 & ->) Hn. exists (evs0 ++ evs).
  split; [now apply no_unlink_app|symmetry; apply run2_app].
Qed.

(* exclusivity *)
Lemma Inv2_exclusive : forall s, Inv2 s ->
  length (handles2 s) <= 1 /\
  (forall h, In h (handles2 s) ->
     name_ino s = Some (h2_ino h) /\ In (h2_ino h, h2_id h) (locks s)).
Proof.
  intros s H. destruct H; cbn; (split; [lia|]); intros h Hin; try contradiction.
  destruct Hin as [<-|[]]. cbn. auto.
Qed.

Theorem C11_exclusive_under_any_interleaving : forall evs, no_unlink evs ->
  length (handles2 (run2 init2 evs)) <= 1 /\
  (forall h, In h (handles2 (run2 init2 evs)) ->
     name_ino (run2 init2 evs) = Some (h2_ino h) /\
     In (h2_ino h, h2_id h) (locks (run2 init2 evs))).
Proof.
  intros evs Hn. apply Inv2_exclusive, run2_Inv2; [apply Inv2_init|assumption].
Qed.

(* further components of the invariant, for reachable states *)
Theorem C11_2_single_inode : forall s, reachable2 s ->
  (name_ino s = None \/ name_ino s = Some 0) /\ next_ino s <= 1 /\
  (forall p, In p (pend s) -> name_ino s = Some (p_ino p)) /\
  (forall l, In l (locks s) -> exists h, In h (handles2 s) /\ l = (h2_ino h, h2_id h)) /\
  length (locks s) = length (handles2 s) /\
  (forall h, In h (handles2 s) -> 1 <= h2_refs h /\ h2_id h < next_id2 s).
Proof.
  intros s R. apply reachable2_Inv2 in R.
  destruct R as [c d n|c ps n Hps|c ps n id pid r Hps Hr Hn]; cbn.
  - repeat split; auto; try lia; intros ? [].
  - repeat split; auto; try lia; try (intros ? []).
    intros p Hp. now rewrite (pend_ok_in ps p Hps Hp).
  - repeat split; auto; try lia.
    + intros p Hp. now rewrite (pend_ok_in ps p Hps Hp).
    + intros l [<-|[]]. eexists. split; [left; reflexivity|reflexivity].
    + destruct H as [<-|[]]. exact Hr.
    + destruct H as [<-|[]]. exact Hn.
Qed.

(* who wins *)

(* (a) the second half of an open wins iff no handle is live at that moment *)
Theorem C11_2_lock_result : forall s tok p, reachable2 s ->
  find (fun q => Nat.eqb (p_tok q) tok) (pend s) = Some p ->
  snd (step2 s (E2Lock tok)) =
    match handles2 s with [] => ROpened (next_id2 s) | _ :: _ => RAlreadyOpened end.
Proof.
  intros s tok p R F. apply reachable2_Inv2 in R.
  destruct R as [c d n|c ps n Hps|c ps n id pid r Hps Hr Hn]; cbn in *.
  - discriminate.
  - rewrite F. rewrite (pend_ok_find _ _ _ Hps F). reflexivity.
  - rewrite F. rewrite (pend_ok_find _ _ _ Hps F). reflexivity.
Qed.

(* an E2Lock for a token that is not pending does nothing *)
Theorem C11_2_lock_not_pending : forall s tok,
  find (fun q => Nat.eqb (p_tok q) tok) (pend s) = None ->
  step2 s (E2Lock tok) = (s, RNone).
Proof. intros s tok F. cbn. rewrite F. reflexivity. Qed.

(* (b) likewise for the atomic open *)
Theorem C11_2_open_result : forall s pid, reachable2 s ->
  snd (step2 s (E2Open pid)) =
    match handles2 s with [] => ROpened (next_id2 s) | _ :: _ => RAlreadyOpened end.
Proof.
  intros s pid R. apply reachable2_Inv2 in R.
  destruct R as [c d n|c ps n Hps|c ps n id pid' r Hps Hr Hn]; reflexivity.
Qed.

(* the "iff" forms *)
Lemma loses_iff : forall (x : res) (hs : list handle2) n,
  x = match hs with [] => ROpened n | _ :: _ => RAlreadyOpened end ->
  (x = RAlreadyOpened <-> hs <> []) /\ (x = ROpened n <-> hs = []).
Proof. intros x hs n ->. destruct hs; repeat split; congruence. Qed.

Corollary C11_2_lock_loses_iff : forall s tok p, reachable2 s ->
  find (fun q => Nat.eqb (p_tok q) tok) (pend s) = Some p ->
  (snd (step2 s (E2Lock tok)) = RAlreadyOpened <-> handles2 s <> []) /\
  (snd (step2 s (E2Lock tok)) = ROpened (next_id2 s) <-> handles2 s = []).
Proof. intros s tok p R F. apply loses_iff, (C11_2_lock_result s tok p R F). Qed.

Corollary C11_2_open_loses_iff : forall s pid, reachable2 s ->
  (snd (step2 s (E2Open pid)) = RAlreadyOpened <-> handles2 s <> []) /\
  (snd (step2 s (E2Open pid)) = ROpened (next_id2 s) <-> handles2 s = []).
Proof. intros s pid R. apply loses_iff, (C11_2_open_result s pid R). Qed.

(* (c) a losing open changes nothing at all (the directories and the file exist already) *)
Theorem C11_2_losing_open_identity : forall s pid, reachable2 s ->
  handles2 s <> [] -> step2 s (E2Open pid) = (s, RAlreadyOpened).
Proof.
  intros s pid R H. apply reachable2_Inv2 in R.
  destruct R as [c d n|c ps n Hps|c ps n id pid' r Hps Hr Hn]; cbn in *; congruence.
Qed.

(* a losing second half only removes its pending entry *)
Theorem C11_2_losing_lock_state : forall s tok p, reachable2 s ->
  handles2 s <> [] ->
  find (fun q => Nat.eqb (p_tok q) tok) (pend s) = Some p ->
  step2 s (E2Lock tok) =
    (mkSt2 (name_ino s) (locks s) (content2 s) (dirs2 s) (handles2 s)
           (filter (fun q => negb (Nat.eqb (p_tok q) tok)) (pend s)) (next_id2 s) (next_ino s),
     RAlreadyOpened).
Proof.
  intros s tok p R H F. apply reachable2_Inv2 in R.
  destruct R as [c d n|c ps n Hps|c ps n id pid' r Hps Hr Hn]; cbn in *; try congruence.
  rewrite F. rewrite (pend_ok_find _ _ _ Hps F). reflexivity.
Qed.

(* noninterference of every loser, in one statement: whoever is told AlreadyOpened has changed
   neither the handles, nor the flocks, nor the contents, nor the binding of the name (nor the
   directories, nor the counters); only its own pending entry is gone *)
Theorem C11_2_loser_noninterference : forall s e, reachable2 s ->
  snd (step2 s e) = RAlreadyOpened ->
  let s' := fst (step2 s e) in
  handles2 s' = handles2 s /\ locks s' = locks s /\ content2 s' = content2 s /\
  name_ino s' = name_ino s /\ dirs2 s' = dirs2 s /\
  next_id2 s' = next_id2 s /\ next_ino s' = next_ino s /\
  (forall q, In q (pend s') -> In q (pend s)).
Proof.
  intros s e R Hres.
  destruct e as [p|tok p|tok|hid|hid|p|hid|]; cbn in Hres; try discriminate.
  2: { unfold open_fd in Hres. destruct (name_ino s); discriminate. }
  - (* E2Open *)
    pose proof (C11_2_open_result s p R) as E. cbn [step2] in E. rewrite Hres in E.
    destruct (handles2 s) eqn:Hh; [discriminate|].
    assert (Hne : handles2 s <> []) by (rewrite Hh; discriminate).
    rewrite (C11_2_losing_open_identity s p R Hne). cbn. rewrite Hh. repeat split; auto.
  - (* E2Lock *)
    destruct (find (fun q => Nat.eqb (p_tok q) tok) (pend s)) as [p0|] eqn:F; [|discriminate].
    pose proof (C11_2_lock_result s tok p0 R F) as E. cbn [step2] in E. rewrite F in E.
    rewrite Hres in E.
    destruct (handles2 s) eqn:Hh; [discriminate|].
    assert (Hne : handles2 s <> []) by (rewrite Hh; discriminate).
    rewrite (C11_2_losing_lock_state s tok p0 R Hne F). cbn. rewrite Hh. repeat split; auto.
    intros q Hq. apply filter_In in Hq. apply Hq.
  - destruct (find (has_id2 hid) (handles2 s)) as [h|]; [|discriminate].
    destruct (h2_refs h <=? 1); discriminate.
  - destruct (live2 hid (handles2 s)); discriminate.
Qed.

(* executing a list of events one by one *)
Lemma exec_cons : forall s e r s' x xs s'',
  step2 s e = (s', x) -> results2_from s' r = xs /\ run2 s' r = s'' ->
  results2_from s (e :: r) = x :: xs /\ run2 s (e :: r) = s''.
Proof. intros s e r s' x xs s'' E [<- <-]. cbn [results2_from run2]. now rewrite E. Qed.

(* (d) a descriptor that outlives the handle it raced with.  B opens the file while h is live, h is dropped
   (last reference), C opens and wins, then B tries to lock the descriptor it got before the
   drop: it refers to the same inode as C's, so B loses; C is then the only live handle and B's
   pending entry is gone. *)
Lemma late_locker_run : forall s h tokB pidB pidC, reachable2 s ->
  handles2 s = [h] -> h2_refs h = 1 ->
  let evs := [E2OpenFd tokB pidB; E2Drop (h2_id h); E2Open pidC; E2Lock tokB] in
  results2_from s evs = [RNone; RNone; ROpened (next_id2 s); RAlreadyOpened] /\
  run2 s evs = mkSt2 (Some 0) [(0, next_id2 s)] (content2 s + 1)%N true [mkH2 (next_id2 s) pidC 1 0]
                     (filter (fun q => negb (Nat.eqb (p_tok q) tokB)) (pend s)) (S (next_id2 s)) 1.
Proof.
  intros s h tokB pidB pidC R Hh Hr. apply reachable2_Inv2 in R.
  destruct R as [c d n|c ps n Hps|c ps n id pid' r Hps Hr' Hn]; cbn in Hh; try discriminate.
  injection Hh as <-. cbn in Hr. subst r. cbn [h2_id next_id2 content2 pend].
  eapply exec_cons; [reflexivity|].
  eapply exec_cons; [cbn; unfold has_id2; cbn; rewrite Nat.eqb_refl; reflexivity|].
  eapply exec_cons; [reflexivity|].
  eapply exec_cons; [cbn; rewrite Nat.eqb_refl; reflexivity|].
  now split.
Qed.

Theorem C11_2_late_locker_loses : forall s h tokB pidB pidC, reachable2 s ->
  handles2 s = [h] -> h2_refs h = 1 ->
  results2_from s [E2OpenFd tokB pidB; E2Drop (h2_id h); E2Open pidC; E2Lock tokB]
    = [RNone; RNone; ROpened (next_id2 s); RAlreadyOpened].
Proof. intros s h tokB pidB pidC R Hh Hr. apply (late_locker_run s h tokB pidB pidC R Hh Hr). Qed.

(* ... and C is then the only live handle, B's pending entry is gone *)
Theorem C11_2_late_locker_state : forall s h tokB pidB pidC, reachable2 s ->
  handles2 s = [h] -> h2_refs h = 1 ->
  let s' := run2 s [E2OpenFd tokB pidB; E2Drop (h2_id h); E2Open pidC; E2Lock tokB] in
  handles2 s' = [mkH2 (next_id2 s) pidC 1 0] /\ locks s' = [(0, next_id2 s)] /\
  pend s' = filter (fun q => negb (Nat.eqb (p_tok q) tokB)) (pend s).
Proof.
  intros s h tokB pidB pidC R Hh Hr. cbv zeta.
  destruct (late_locker_run s h tokB pidB pidC R Hh Hr) as [_ ->]. now split.
Qed.

(* refinement of the atomic model *)
Definition abs_h (h : handle2) : handle := mkH (h2_id h) (h2_pid h) (h2_refs h).

(* the abstraction, meant for states reachable without unlink and without pending opens *)
Definition abs (s : st2) : st :=
  mkSt (mkDir (match handles2 s with [] => None | h :: _ => Some (h2_id h) end)
              (content2 s) (dirs2 s)
              (match name_ino s with Some _ => true | None => false end))
       (map abs_h (handles2 s)) (next_id2 s).

Lemma abs_init : abs init2 = init.
Proof. reflexivity. Qed.

Lemma embed_not_unlink : forall e, embed e <> E2Unlink.
Proof. destruct e; discriminate. Qed.

Lemma no_unlink_embed : forall evs, no_unlink (map embed evs).
Proof.
  unfold no_unlink. intros evs Hin. apply in_map_iff in Hin. destruct Hin as (e & He & _).
  exact (embed_not_unlink e He).
Qed.

(* one atomic event: the refined model does the same as the atomic one *)
Lemma abs_step : forall s e, Inv2 s -> pend s = [] ->
  step (abs s) e = (abs (fst (step2 s (embed e))), snd (step2 s (embed e))) /\
  pend (fst (step2 s (embed e))) = [].
Proof.
  intros s e H Hp.
  destruct H as [c d n|c ps n Hps|c ps n id pid r Hps Hr Hn]; cbn in Hp; subst;
    destruct e as [p|hid|hid|p|hid]; cbn; try (split; reflexivity).
  - (* held, clone *)
    unfold has_id, has_id2, abs, abs_h. cbn. destruct (Nat.eqb_spec id hid); cbn; auto.
  - (* held, drop *)
    unfold find_handle, has_id, has_id2. cbn. destruct (Nat.eqb_spec id hid); cbn; auto.
    destruct (Nat.leb_spec r 1); cbn.
    + unfold release, abs, has_id, has_id2. cbn. subst. rewrite ?Nat.eqb_refl. cbn. auto.
    + unfold abs, abs_h, has_id, has_id2. cbn. subst. rewrite ?Nat.eqb_refl. cbn. auto.
  - (* held, kill *)
    unfold release_pid, abs, has_id, has_pid, has_pid2. cbn. rewrite Nat.eqb_refl.
    destruct (Nat.eqb_spec pid p); cbn; auto.
  - (* held, op *)
    unfold live, has_id, has_id2. cbn. destruct (Nat.eqb_spec id hid); cbn; auto.
Qed.

Lemma abs_results_from : forall evs s, Inv2 s -> pend s = [] ->
  results2_from s (map embed evs) = results_from (abs s) evs /\
  abs (run2 s (map embed evs)) = run (abs s) evs /\
  pend (run2 s (map embed evs)) = [].
Proof.
  induction evs as [|e r IH]; intros s H Hp; cbn [map results2_from results_from run2 run];
    [auto|].
  destruct (abs_step s e H Hp) as [E Hp'].
  rewrite E. cbn [fst snd].
  destruct (IH (fst (step2 s (embed e)))) as (A & B & C);
    [apply step2_Inv2; [assumption|apply embed_not_unlink]|assumption|].
  rewrite A. auto.
Qed.

Theorem C11_2_refines_atomic : forall evs, results2 (map embed evs) = results evs.
Proof.
  intros evs. unfold results2, results. rewrite <- abs_init.
  apply abs_results_from; [apply Inv2_init|reflexivity].
Qed.

(* the states correspond too *)
Theorem C11_2_refines_atomic_state : forall evs,
  abs (run2 init2 (map embed evs)) = run init evs /\ pend (run2 init2 (map embed evs)) = [].
Proof.
  intros evs. rewrite <- abs_init.
  destruct (abs_results_from evs init2 Inv2_init eq_refl) as (_ & A & B). auto.
Qed.

(* why the name must never be unlinked *)
Definition unlink_evs : list ev2 :=
  [E2Open 1; E2OpenFd 7 2; E2Drop 0; E2Unlink; E2Lock 7; E2Open 3].

(* B (token 7) locks the old, unlinked inode 0; C creates and locks the new inode 1 *)
Example C11_2_unlink_breaks_exclusivity :
  length (handles2 (run2 init2 unlink_evs)) = 2 /\
  handles2 (run2 init2 unlink_evs) = [mkH2 2 3 1 1; mkH2 1 2 1 0] /\
  locks (run2 init2 unlink_evs) = [(1, 2); (0, 1)] /\
  results2 unlink_evs = [ROpened 0; RNone; RNone; RNone; ROpened 1; ROpened 2].
Proof. vm_compute. repeat split; reflexivity. Qed.

(* the same events without the unlink: C loses *)
Example C11_2_without_unlink :
  results2 [E2Open 1; E2OpenFd 7 2; E2Drop 0; E2Lock 7; E2Open 3]
    = [ROpened 0; RNone; RNone; ROpened 1; RAlreadyOpened] /\
  length (handles2 (run2 init2 [E2Open 1; E2OpenFd 7 2; E2Drop 0; E2Lock 7; E2Open 3])) = 1.
Proof. vm_compute. split; reflexivity. Qed.

(* the name stays bound *)
Definition is_open (e : ev2) : bool :=
  match e with E2Open _ | E2OpenFd _ _ => true | _ => false end.

Definition bound (s : st2) : bool := match name_ino s with Some _ => true | None => false end.

Lemma open_binds : forall s e, is_open e = true -> bound (fst (step2 s e)) = true.
Proof.
  intros s e H. destruct e; try discriminate; unfold bound; cbn.
  - unfold open_fd, try_lock. destruct (name_ino s); cbn -[locked];
      destruct (locked _ _); reflexivity.
  - unfold open_fd. destruct (name_ino s); reflexivity.
Qed.

Lemma step2_keeps_bound : forall s e, e <> E2Unlink -> bound s = true ->
  bound (fst (step2 s e)) = true.
Proof.
  intros s e He H. destruct (is_open e) eqn:O; [apply open_binds, O|].
  unfold bound in *. destruct e; try discriminate; try congruence; cbn.
  - destruct (find _ (pend s)); [|exact H]. unfold try_lock. cbn -[locked].
    destruct (locked _ _); exact H.
  - exact H.
  - destruct (find _ (handles2 s)); [|exact H].
    destruct (Nat.leb _ _); exact H.
  - exact H.
  - destruct (live2 _ _); exact H.
Qed.

Lemma lockfile_from_bound : forall evs s, no_unlink evs -> bound s = true ->
  lockfile_from s evs = repeat true (length evs).
Proof.
  induction evs as [|e r IH]; intros s Hn H; cbn [lockfile_from length repeat]; [reflexivity|].
  apply no_unlink_cons in Hn. destruct Hn as [He Hr].
  pose proof (step2_keeps_bound s e He H) as H'. cbn zeta.
  fold (bound (fst (step2 s e))). rewrite H'. f_equal. apply IH; assumption.
Qed.

Lemma lockfile_from_app : forall a b s,
  lockfile_from s (a ++ b) = lockfile_from s a ++ lockfile_from (run2 s a) b.
Proof.
  induction a as [|e a IH]; intros b s; [reflexivity|].
  cbn [app lockfile_from run2]. cbn zeta. rewrite IH. reflexivity.
Qed.

Lemma lockfile_from_length : forall evs s, length (lockfile_from s evs) = length evs.
Proof.
  induction evs as [|e r IH]; intros s; [reflexivity|].
  cbn [lockfile_from length]. cbn zeta. cbn [length]. rewrite IH. reflexivity.
Qed.

(* from an open-ish event on (inclusive) every observation of the name is "bound", provided no
   unlink happens from there on (what happened before does not matter, from any state) *)
Theorem C11_2_lockfile_stays_from : forall s pre e post,
  is_open e = true -> no_unlink post ->
  lockfile_from s (pre ++ e :: post) = lockfile_from s pre ++ repeat true (S (length post)).
Proof.
  intros s pre e post He Hn. rewrite lockfile_from_app. f_equal.
  cbn [lockfile_from repeat]. cbn zeta.
  pose proof (open_binds (run2 s pre) e He) as H. unfold bound in H at 1.
  rewrite H. f_equal. apply lockfile_from_bound; assumption.
Qed.

Theorem C11_2_lockfile_stays : forall pre e post,
  no_unlink (pre ++ e :: post) -> is_open e = true ->
  forall k, length pre <= k ->
    nth_error (lockfile_from init2 (pre ++ e :: post)) k = None \/
    nth_error (lockfile_from init2 (pre ++ e :: post)) k = Some true.
Proof.
  intros pre e post Hn He k Hk.
  assert (Hp : no_unlink post).
  { intros Hin. apply Hn. apply in_or_app. right. right. exact Hin. }
  rewrite (C11_2_lockfile_stays_from init2 pre e post He Hp).
  rewrite nth_error_app2; rewrite lockfile_from_length; [|exact Hk].
  remember (k - length pre) as j. clear.
  destruct (nth_error (repeat true (S (length post))) j) as [b|] eqn:E; [|left; reflexivity].
  right. apply nth_error_In in E. apply repeat_spec in E. subst. reflexivity.
Qed.

(* before the first open-ish event the name is not bound *)
Theorem C11_2_lockfile_before_first_open : forall pre,
  (forall e, In e pre -> is_open e = false) ->
  lockfile_from init2 pre = repeat false (length pre).
Proof.
  assert (G : forall pre c d n,
    (forall e, In e pre -> is_open e = false) ->
    lockfile_from (mkSt2 None [] c d [] [] n 0) pre = repeat false (length pre)).
  { induction pre as [|e r IH]; intros c d n H; [reflexivity|].
    assert (He : is_open e = false) by (apply H; left; reflexivity).
    assert (Hr : forall x, In x r -> is_open x = false) by (intros x Hx; apply H; right; exact Hx).
    cbn [lockfile_from length repeat]. cbn zeta.
    destruct e; try discriminate; cbn; f_equal; apply IH; exact Hr. }
  intros pre H. apply G, H.
Qed.

Print Assumptions C11_exclusive_under_any_interleaving.
Print Assumptions C11_2_single_inode.
Print Assumptions C11_2_lock_result.
Print Assumptions C11_2_open_result.
Print Assumptions C11_2_lock_loses_iff.
Print Assumptions C11_2_open_loses_iff.
Print Assumptions C11_2_losing_open_identity.
Print Assumptions C11_2_losing_lock_state.
Print Assumptions C11_2_loser_noninterference.
Print Assumptions C11_2_late_locker_loses.
Print Assumptions C11_2_late_locker_state.
Print Assumptions C11_2_refines_atomic.
Print Assumptions C11_2_refines_atomic_state.
Print Assumptions C11_2_unlink_breaks_exclusivity.
Print Assumptions C11_2_lockfile_stays_from.
Print Assumptions C11_2_lockfile_stays.
Print Assumptions C11_2_lockfile_before_first_open.
