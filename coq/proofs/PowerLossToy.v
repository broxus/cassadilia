(* PowerLossToy.v -- closed, computed instances for C09 (toy hash and configuration of
   StoreHist.v: 2 operations per WAL segment, Sync mode).

   Sync mode: the third put of the toy history rolls the log over; its 17 effective calls are
         create staging, write, SYNC, mkdir, mkdir, rename into cas/, seal segment 0, sync,
         open segment 1, append the record, SYNC, unlink the unreferenced blob,
         create index.tmp, write, sync, rename to index, unlink segment 0.
       Cutting the power after n of them, for every n and the victim sets {all files},
       {segment files}, {blobs}, {} and reopening yields the old map or the new map, with intact
       blobs; with the segment files among the victims the new map appears from n = 11 on (after
       the sync of the record), otherwise from n = 10 on.  Then two power losses in a row under
       [settle], and an instance of the history theorem C09_powerloss_partial.
   Async mode (c_sync = false): the staged blob is not synced before the rename.  After the
       ACKNOWLEDGED first put, a power loss that hits the blob file leaves the key with an empty
       blob: recovery succeeds, get returns wrong bytes; with the integrity gate the open is
       refused.  So the hypothesis c_sync cfg = true of the theorems is needed. *)
From Cas Require Import History.
From CasProofs Require Import StoreHist CrashHist PowerLossHist.
Open Scope N_scope.

Definition all_files : path -> bool := fun _ => true.
Definition wal_only : path -> bool := fun p => match p with PWal _ => true | _ => false end.
Definition cas_only : path -> bool := fun p => match p with PCas _ => true | _ => false end.
Definition no_files : path -> bool := fun _ => false.

Definition toy_hl (n : nat) (v : path -> bool) : list evl :=
  [LOp (OpPut toy_k1 [toy_c1]); LOp (OpPut toy_k2 [toy_c1; toy_c2]);
   LLoss (OpPut toy_k1 [toy_c2]) n v].

(* the recovered key map (key, size) and what get returns for the two keys *)
Definition toy_final_gen (post : fs -> fs) (n : nat) (v : path -> bool)
  : option (list (bytes * N) * res serr (option bytes) * res serr (option bytes)) :=
  match reopen toyH toy_cfg empty_fs with
  | None => None
  | Some st0 =>
    match run_extl toyH toy_cfg post st0 (toy_hl n v) with
    | None => None
    | Some (hd, w) =>
      Some (map (fun e => (fst e, isize (snd e))) (km (idx (h_mem hd))),
            get toy_cfg (h_mem hd) (wfs w) toy_k1, get toy_cfg (h_mem hd) (wfs w) toy_k2)
    end
  end.

Definition toy_finall := toy_final_gen (fun y => y).

Definition toy_old := Some ([(toy_k1, 3); (toy_k2, 5)], Ok (Some toy_c1) : res serr (option bytes),
                            Ok (Some (toy_c1 ++ toy_c2)) : res serr (option bytes)).
Definition toy_new := Some ([(toy_k1, 2); (toy_k2, 5)], Ok (Some toy_c2) : res serr (option bytes),
                            Ok (Some (toy_c1 ++ toy_c2)) : res serr (option bytes)).

(* CrashHist.v has the states of the toy history after the first open (toy_st0) and after the two
   acknowledged puts (toy_st2) and the calls of the third put (toy_tr3), evaluated once; the
   tables below only cut that trace, lose and reopen.  With power losses the two puts lead to
   the same state (a VM cast: nothing is read back). *)
Definition toy_runl2 post :=
  eq_refl (Some toy_st2)
  <: run_extl toyH toy_cfg post toy_st0 [LOp toy_put1; LOp toy_put2] = Some toy_st2.

Lemma run_extl_app : forall H cfg post h1 h2 st,
  run_extl H cfg post st (h1 ++ h2)
  = match run_extl H cfg post st h1 with Some st' => run_extl H cfg post st' h2 | None => None end.
Proof.
  intros H cfg post h1 h2. induction h1 as [|e r IH]; intros st; cbn [app run_extl]; [reflexivity|].
  destruct (run_evl _ _ _ st e); [apply IH|reflexivity].
Qed.

Lemma run_extl_loss : forall cfg post st o n v,
  run_extl toyH cfg post st [LLoss o n v]
  = reopen toyH cfg (post (lose v (crash_fs n (rev (op_calls st o)) (wfs (snd st))))).
Proof. intros cfg post [hd w] o n v. cbn [run_extl run_evl]. now destruct (reopen _ _ _). Qed.

(* what toy_final_gen shows of the final state *)
Definition toy_view (o : option (handle * world)) :=
  match o with
  | None => None
  | Some (hd, w) =>
    Some (map (fun e => (fst e, isize (snd e))) (km (idx (h_mem hd))),
          get toy_cfg (h_mem hd) (wfs w) toy_k1, get toy_cfg (h_mem hd) (wfs w) toy_k2)
  end.

Lemma toy_final_gen_cut : forall post n v,
  toy_final_gen post n v
  = toy_view (reopen toyH toy_cfg (post (lose v (crash_fs n (rev toy_tr3) (wfs (snd toy_st2)))))).
Proof.
  intros post n v. unfold toy_final_gen. rewrite toy_open0.
  change (toy_hl n v) with ([LOp toy_put1; LOp toy_put2] ++ [LLoss toy_put3 n v]).
  rewrite run_extl_app, toy_runl2, run_extl_loss, toy_calls3.
  now destruct (reopen _ _ _) as [[hd w]|].
Qed.

Lemma toy_finall_cut : forall v l,
  map (fun n => toy_finall n v) l
  = map (fun n => toy_view (reopen toyH toy_cfg (lose v (crash_fs n (rev toy_tr3) (wfs (snd toy_st2))))))
        l.
Proof. intros v l. apply map_ext. intros n. apply toy_final_gen_cut. Qed.

Example toy_powerloss_all_files :
  map (fun n => toy_finall n all_files) (seq 0 19) = repeat toy_old 11 ++ repeat toy_new 8.
Proof. rewrite toy_finall_cut. vm_compute. reflexivity. Qed.

Example toy_powerloss_wal_files :
  map (fun n => toy_finall n wal_only) (seq 0 19) = repeat toy_old 11 ++ repeat toy_new 8.
Proof. rewrite toy_finall_cut. vm_compute. reflexivity. Qed.

Example toy_powerloss_blobs :
  map (fun n => toy_finall n cas_only) (seq 0 19) = repeat toy_old 10 ++ repeat toy_new 9.
Proof. rewrite toy_finall_cut. vm_compute. reflexivity. Qed.

Example toy_powerloss_no_file :
  map (fun n => toy_finall n no_files) (seq 0 19) = repeat toy_old 10 ++ repeat toy_new 9.
Proof. rewrite toy_finall_cut. vm_compute. reflexivity. Qed.

(* two power losses in a row, survivors durable ([settle]): the third put is cut after 10 calls
   (record appended, not synced) and nothing is lost; the recovery replays the record; the power
   is cut again after k calls of the next operation (a checkpoint) with all files as victims *)
Definition toy_h2 (k : nat) : list evl :=
  [LOp (OpPut toy_k1 [toy_c1]); LOp (OpPut toy_k2 [toy_c1; toy_c2]);
   LLoss (OpPut toy_k1 [toy_c2]) 10 no_files; LLoss OpCheckpoint k all_files].

Definition toy_final2 (k : nat) : option (list (bytes * N)) :=
  match reopen toyH toy_cfg empty_fs with
  | None => None
  | Some st0 =>
    match run_extl toyH toy_cfg settle st0 (toy_h2 k) with
    | None => None
    | Some (hd, w) => Some (map (fun e => (fst e, isize (snd e))) (km (idx (h_mem hd))))
    end
  end.

Definition toy_st3 : handle * world :=
  ltac:(evaluated (run_extl toyH toy_cfg settle toy_st2 [LLoss toy_put3 10 no_files])).
Definition toy_tr4 : list tev := Eval vm_compute in op_calls toy_st3 OpCheckpoint.

Definition toy_run3 :=
  eq_refl (Some toy_st3)
  <: run_extl toyH toy_cfg settle toy_st2 [LLoss toy_put3 10 no_files] = Some toy_st3.
Definition toy_calls4 := eq_refl toy_tr4 <: op_calls toy_st3 OpCheckpoint = toy_tr4.

Lemma toy_final2_cut : forall k,
  toy_final2 k
  = option_map (fun st => map (fun e => (fst e, isize (snd e))) (km (idx (h_mem (fst st)))))
      (reopen toyH toy_cfg (settle (lose all_files (crash_fs k (rev toy_tr4) (wfs (snd toy_st3)))))).
Proof.
  intros k. unfold toy_final2. rewrite toy_open0.
  change (toy_h2 k) with ([LOp toy_put1; LOp toy_put2] ++ [LLoss toy_put3 10 no_files]
                          ++ [LLoss OpCheckpoint k all_files]).
  rewrite run_extl_app, toy_runl2, run_extl_app, toy_run3, run_extl_loss, toy_calls4.
  now destruct (reopen _ _ _) as [[hd w]|].
Qed.

Example toy_two_power_losses_settled :
  map toy_final2 (seq 0 8) = repeat (Some [(toy_k1, 2); (toy_k2, 5)]) 8.
Proof. rewrite (map_ext _ _ toy_final2_cut). vm_compute. reflexivity. Qed.

(* the hypotheses of the history theorem are satisfiable, for every cut point and victim set *)
Lemma toy_nocollide_hl : forall n v, StoreInv.NoCollide toyH (flat_map evl_contents (toy_hl n v)).
Proof. intros n v. exact (toy_nocollide_h n). Qed.

Example toy_powerloss_theorem_instance : forall n v,
  exists hd0 w0 hd w' sg,
    reopen toyH toy_cfg empty_fs = Some (hd0, w0) /\
    run_extl toyH toy_cfg (fun y => y) (hd0, w0) (toy_hl n v) = Some (hd, w') /\
    allowedl toy_cfg [] (toy_hl n v) sg /\ km (idx (h_mem hd)) = StoreInv.km_of toyH sg.
Proof.
  intros n v.
  destruct (C09_powerloss_partial toyH toyH_len toyH_byte toy_cfg eq_refl eq_refl (toy_hl n v))
    as (hd0 & w0 & E0 & hd & w' & E & _ & _ & sg & Al & (L & _)).
  - reflexivity.
  - cbn. repeat split; auto.
  - apply toy_nocollide_hl.
  - vm_compute. repeat split.
  - reflexivity.
  - exists hd0, w0, hd, w', sg. split; [exact E0|]. split; [exact E|]. split; [exact Al|].
    exact (StoreInv.lv_km _ _ _ _ _ L).
Qed.

(* Async mode: the counter-example *)
Definition toy_cfg_async : config := mkConfig KBytes 2 false false false false false.
(* the same with scan_orphans_on_startup, verify_blob_integrity, fail_on_integrity_errors *)
Definition toy_cfg_async_gate : config := mkConfig KBytes 2 false false true true true.

(* put k1 c1 on a fresh store, cut the power after n effective calls, the blobs lose their
   unsynced bytes; reopen; result of the put, number of calls of the put, get k1 *)
Definition first_put_case (cfg : config) (n : nat)
  : option (out * nat * res serr (option bytes)) :=
  match reopen toyH cfg empty_fs with
  | None => None
  | Some (hd, w) =>
    let r := step toyH (Some hd) (OpPut toy_k1 [toy_c1]) w in
    let w' := snd r in
    let x := lose cas_only (crash_fs n (rev (new_trace w w')) (wfs w)) in
    match reopen toyH cfg x with
    | None => None
    | Some (hd2, w2) => Some (fst (fst r), length (new_trace w w'), get cfg (h_mem hd2) (wfs w2) toy_k1)
    end
  end.

(* Async: the put consists of 8 calls (no sync of the staged blob) and is acknowledged
   (OutUnit); after all 8 calls -- the record is synced -- a power loss that hits the blob
   leaves the key with an EMPTY blob: recovery succeeds, get returns wrong bytes *)
Example async_acknowledged_put_loses_its_blob :
  first_put_case toy_cfg_async 8 = Some (OutUnit, 8%nat, Ok (Some [])).
Proof. vm_compute. reflexivity. Qed.

(* ... and with the integrity gate the store refuses to open *)
Example async_integrity_gate_fails :
  match reopen toyH toy_cfg_async_gate empty_fs with
  | None => None
  | Some (hd, w) =>
    let w' := snd (step toyH (Some hd) (OpPut toy_k1 [toy_c1]) w) in
    let x := lose cas_only (wfs w') in
    Some (fst (open_store toyH toy_cfg_async_gate (init_world x None)))
  end = Some (Err EIntegrity).
Proof. vm_compute. reflexivity. Qed.

(* the put has run once, from the state st of the first open: only the cut, the loss and the
   second open depend on n *)
Lemma first_put_case_cut : forall cfg st n, reopen toyH cfg empty_fs = Some st ->
  first_put_case cfg n
  = option_map (fun st2 => (fst (fst (step toyH (Some (fst st)) toy_put1 (snd st))),
                            length (op_calls st toy_put1),
                            get cfg (h_mem (fst st2)) (wfs (snd st2)) toy_k1))
      (reopen toyH cfg (lose cas_only (crash_fs n (rev (op_calls st toy_put1)) (wfs (snd st))))).
Proof.
  intros cfg [hd w] n E0. unfold first_put_case. rewrite E0. cbv zeta.
  now destruct (reopen _ _ (lose _ _)) as [[hd2 w2]|].
Qed.

Definition toy_tr1 : list tev := Eval vm_compute in op_calls toy_st0 toy_put1.
Definition toy_calls1 := eq_refl toy_tr1 <: op_calls toy_st0 toy_put1 = toy_tr1.
Definition toy_out1 :=
  eq_refl OutUnit <: fst (fst (step toyH (Some (fst toy_st0)) toy_put1 (snd toy_st0))) = OutUnit.

(* Sync mode, same experiment: 9 calls (the staged blob is synced), and at every cut point the
   key is absent or has its full content *)
Example sync_put_keeps_its_blob :
  map (first_put_case toy_cfg) (seq 0 11)
  = repeat (Some (OutUnit, 9%nat, Ok None)) 8 ++ repeat (Some (OutUnit, 9%nat, Ok (Some toy_c1))) 3.
Proof.
  rewrite (map_ext _ _ (fun n => first_put_case_cut toy_cfg _ n toy_open0)), toy_calls1, toy_out1.
  vm_compute. reflexivity.
Qed.

Print Assumptions toy_powerloss_all_files.
Print Assumptions toy_powerloss_theorem_instance.
Print Assumptions async_acknowledged_put_loses_its_blob.
Print Assumptions async_integrity_gate_fails.
