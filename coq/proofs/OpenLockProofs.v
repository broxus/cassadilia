(* OpenLockProofs.v -- property C11 (exclusive ownership of a database directory) for the model
   Cas.OpenLock. *)
From Coq Require Import List NArith Bool Arith Lia.
Import ListNotations.
From Cas Require Import OpenLock.

(* The invariant: two shapes of state. *)
(*   free : nobody holds the flock and there is no live handle *)
(*   held : handle [o] holds it and is exactly the one live handle, with at least one *)
(*          reference and an id below [next_id]; the directories and the LOCK file exist. *)
Inductive Inv : st -> Prop :=
| Inv_free : forall c dm le n, Inv (mkSt (mkDir None c dm le) [] n)
| Inv_held : forall o p r c n, 1 <= r -> o < n ->
    Inv (mkSt (mkDir (Some o) c true true) [mkH o p r] n).

Lemma Inv_init : Inv init.
Proof. constructor. Qed.

Lemma step_Inv : forall s e, Inv s -> Inv (fst (step s e)).
Proof.
  intros s e I. destruct I as [c dm le n|o p r c n Hr Hn]; destruct e as [pid|hid|hid|pid|hid]; cbn.
  (* free: an open wins, everything else finds no handle *)
  - apply Inv_held; lia.
  - constructor.
  - constructor.
  - constructor.
  - constructor.
  (* held *)
  - now constructor.
  - unfold has_id. cbn. destruct (Nat.eqb o hid); constructor; lia.
  - unfold find_handle, has_id. cbn. destruct (Nat.eqb_spec o hid) as [<-|]; cbn; [|now constructor].
    destruct (Nat.leb_spec r 1); cbn; constructor; lia.
  - unfold release_pid, has_id, has_pid. cbn. rewrite Nat.eqb_refl.
    destruct (Nat.eqb p pid); cbn; now constructor.
  - unfold live, has_id. cbn. destruct (Nat.eqb o hid); now constructor.
Qed.

Lemma run_Inv : forall evs s, Inv s -> Inv (run s evs).
Proof.
  induction evs as [|e r IH]; intros s H; cbn; [assumption|].
  apply IH, step_Inv, H.
Qed.

Lemma reachable_Inv : forall s, reachable s -> Inv s.
Proof. intros s [evs ->]. apply run_Inv, Inv_init. Qed.

Lemma reachable_init : reachable init.
Proof. exists []. reflexivity. Qed.

Lemma run_app : forall a b s, run s (a ++ b) = run (run s a) b.
Proof. induction a as [|e a IH]; intros b s; cbn; [reflexivity|apply IH]. Qed.

Lemma reachable_step : forall s e, reachable s -> reachable (fst (step s e)).
Proof.
  intros s e [evs ->]. exists (evs ++ [e]). rewrite run_app. reflexivity.
Qed.

Lemma reachable_run : forall evs s, reachable s -> reachable (run s evs).
Proof.
  induction evs as [|e r IH]; intros s H; cbn; [assumption|].
  apply IH, reachable_step, H.
Qed.

(* a reachable state with a live handle h is the held shape, with h the owner *)
Lemma held_shape : forall s h, reachable s -> In h (handles s) ->
  exists c n, s = mkSt (mkDir (Some (h_id h)) c true true) [h] n /\ 1 <= h_refs h /\ h_id h < n.
Proof.
  intros s h R Hin. destruct (reachable_Inv s R) as [c dm le n|o p r c n Hr Hn]; [destruct Hin|].
  destruct Hin as [<-|[]]. exists c, n. now split.
Qed.

(* The components of the invariant, one statement each. *)

(* lock_owner = Some o  <->  exactly the handle o is live *)
Lemma Inv_owner_iff_live : forall s, reachable s -> forall o,
  lock_owner (dir s) = Some o <-> exists p r, handles s = [mkH o p r].
Proof.
  intros s R o. destruct (reachable_Inv s R) as [c dm le n|o' p r c n Hr Hn]; cbn; split.
  - discriminate.
  - intros (p & r & E). discriminate.
  - intros E. injection E as <-. now exists p, r.
  - intros (p' & r' & E). injection E as <-. reflexivity.
Qed.

Lemma Inv_unlocked_iff_no_handle : forall s, reachable s ->
  lock_owner (dir s) = None <-> handles s = [].
Proof. intros s R. destruct (reachable_Inv s R); cbn; split; (reflexivity || discriminate). Qed.

Lemma Inv_refs_pos : forall s, reachable s -> forall h, In h (handles s) -> 1 <= h_refs h.
Proof. intros s R h Hin. now destruct (held_shape s h R Hin) as (c & n & _ & Hr & _). Qed.

Lemma Inv_ids_fresh : forall s, reachable s -> forall h, In h (handles s) -> h_id h < next_id s.
Proof. intros s R h Hin. now destruct (held_shape s h R Hin) as (c & n & -> & _ & Hn). Qed.

(* a live handle is the lock owner, and it is the only handle *)
Lemma Inv_live_is_owner : forall s, reachable s -> forall h, In h (handles s) ->
  lock_owner (dir s) = Some (h_id h) /\ handles s = [h].
Proof. intros s R h Hin. destruct (held_shape s h R Hin) as (c & n & -> & _). now split. Qed.

(* while the directory is locked, staging/, cas/ and LOCK exist *)
Lemma Inv_locked_dirs : forall s, reachable s -> lock_owner (dir s) <> None ->
  dirs_made (dir s) = true /\ lock_exists (dir s) = true.
Proof. intros s R H. destruct (reachable_Inv s R); cbn in *; [congruence|now split]. Qed.

(* at most one live handle, and it is the lock owner *)
Theorem C11_at_most_one_live_reachable : forall s, reachable s ->
  length (handles s) <= 1 /\
  (forall h, In h (handles s) -> lock_owner (dir s) = Some (h_id h)).
Proof.
  intros s R. split.
  - destruct (reachable_Inv s R); cbn; lia.
  - intros h Hin. apply (Inv_live_is_owner s R h Hin).
Qed.

Theorem C11_at_most_one_live : forall evs,
  length (handles (run init evs)) <= 1 /\
  (forall h, In h (handles (run init evs)) ->
     lock_owner (dir (run init evs)) = Some (h_id h)).
Proof.
  intros evs. apply C11_at_most_one_live_reachable. exists evs. reflexivity.
Qed.

(* A losing open returns AlreadyOpened and modifies no database file (only the idempotent mkdirs
   and the truncation of the empty LOCK file).  The first form needs no reachability. *)
Theorem C11_loser_noninterference_any : forall s pid,
  lock_owner (dir s) <> None ->
  exists s', step s (EOpen pid) = (s', RAlreadyOpened) /\
    content (dir s') = content (dir s) /\ handles s' = handles s /\
    lock_owner (dir s') = lock_owner (dir s) /\ next_id s' = next_id s.
Proof.
  intros [[o c dm le] hs n] pid. cbn. destruct o as [o|]; [|congruence].
  intros _. eexists. split; [reflexivity|]. cbn. auto.
Qed.

Theorem C11_loser_noninterference : forall s pid, reachable s ->
  lock_owner (dir s) <> None ->
  exists s', step s (EOpen pid) = (s', RAlreadyOpened) /\
    content (dir s') = content (dir s) /\ handles s' = handles s /\
    lock_owner (dir s') = lock_owner (dir s).
Proof.
  intros s pid _ H. destruct (C11_loser_noninterference_any s pid H) as (s' & E & A & B & C & _).
  exists s'. auto.
Qed.

(* In a reachable state the loser changes nothing at all: the directories and LOCK exist already
   (they were made by the open of the current owner), so even the idempotent part is a no-op. *)
Theorem C11_loser_identity : forall s pid, reachable s ->
  lock_owner (dir s) <> None ->
  step s (EOpen pid) = (s, RAlreadyOpened).
Proof. intros s pid R H. destruct (reachable_Inv s R); cbn in *; [congruence|reflexivity]. Qed.

(* an open of an unlocked directory succeeds (no reachability needed), the new handle is live,
   owns the lock and has one reference *)
Theorem C11_winner_any : forall s pid,
  lock_owner (dir s) = None ->
  step s (EOpen pid) =
    (mkSt (mkDir (Some (next_id s)) (content (dir s) + 1)%N true true)
          (mkH (next_id s) pid 1 :: handles s) (S (next_id s)),
     ROpened (next_id s)).
Proof.
  intros [[o c dm le] hs n] pid. cbn. intros ->. reflexivity.
Qed.

Theorem C11_winner : forall s pid, reachable s ->
  lock_owner (dir s) = None -> exists h, snd (step s (EOpen pid)) = ROpened h.
Proof.
  intros s pid _ H. rewrite (C11_winner_any s pid H). eexists. reflexivity.
Qed.

(* the winner is the only live handle afterwards *)
Theorem C11_winner_sole : forall s pid, reachable s ->
  lock_owner (dir s) = None ->
  handles (fst (step s (EOpen pid))) = [mkH (next_id s) pid 1] /\
  lock_owner (dir (fst (step s (EOpen pid)))) = Some (next_id s).
Proof.
  intros s pid R H. rewrite (C11_winner_any s pid H). cbn.
  apply (Inv_unlocked_iff_no_handle s R) in H. rewrite H. auto.
Qed.

(* open succeeds iff the directory is not locked *)
Theorem C11_open_result : forall s pid,
  snd (step s (EOpen pid)) =
    match lock_owner (dir s) with None => ROpened (next_id s) | Some _ => RAlreadyOpened end.
Proof.
  intros [[o c dm le] hs n] pid. cbn. destruct o; reflexivity.
Qed.

(* dropping the last reference releases the lock *)
Lemma drop_last_unlocks : forall s h, reachable s ->
  In h (handles s) -> h_refs h = 1 ->
  lock_owner (dir (fst (step s (EDrop (h_id h))))) = None /\
  handles (fst (step s (EDrop (h_id h)))) = [].
Proof.
  intros s [i p r] R Hin Hr. destruct (held_shape s _ R Hin) as (c & n & -> & _).
  cbn in Hr |- *. subst r. unfold find_handle, has_id. cbn. now rewrite Nat.eqb_refl.
Qed.

Theorem C11_release_by_drop : forall s h pid, reachable s ->
  In h (handles s) -> h_refs h = 1 ->
  exists h', snd (step (fst (step s (EDrop (h_id h)))) (EOpen pid)) = ROpened h'.
Proof.
  intros s h pid R Hin Hr.
  apply C11_winner; [apply reachable_step, R|].
  apply (drop_last_unlocks s h R Hin Hr).
Qed.

(* with a clone (or an OrphanStats object) alive, dropping one reference keeps the lock *)
Lemma drop_nonlast_keeps : forall s h, reachable s ->
  In h (handles s) -> 2 <= h_refs h ->
  lock_owner (dir (fst (step s (EDrop (h_id h))))) = Some (h_id h) /\
  handles (fst (step s (EDrop (h_id h)))) = [mkH (h_id h) (h_pid h) (h_refs h - 1)].
Proof.
  intros s [i p r] R Hin Hr. destruct (held_shape s _ R Hin) as (c & n & -> & _).
  cbn in Hr |- *. unfold find_handle, has_id. cbn. rewrite Nat.eqb_refl. cbn.
  destruct (Nat.leb_spec r 1); [lia|]. cbn. now rewrite Nat.sub_1_r.
Qed.

Theorem C11_clone_keeps_lock : forall s h pid, reachable s ->
  In h (handles s) -> 2 <= h_refs h ->
  snd (step (fst (step s (EDrop (h_id h)))) (EOpen pid)) = RAlreadyOpened.
Proof.
  intros s h pid R Hin Hr. rewrite C11_open_result.
  destruct (drop_nonlast_keeps s h R Hin Hr) as [-> _]. reflexivity.
Qed.

(* a clone adds a reference, so one drop after a clone never releases the lock *)
Theorem C11_clone_then_drop_keeps_lock : forall s h pid, reachable s ->
  In h (handles s) ->
  snd (step (fst (step (fst (step s (EClone (h_id h)))) (EDrop (h_id h)))) (EOpen pid))
    = RAlreadyOpened.
Proof.
  intros s [i p r] pid R Hin. destruct (held_shape s _ R Hin) as (c & n & E & Hr & _). cbn in Hr.
  apply (C11_clone_keeps_lock _ (mkH i p (S r)) pid (reachable_step s (EClone i) R)).
  - rewrite E. cbn. unfold has_id. cbn. rewrite Nat.eqb_refl. now left.
  - cbn. lia.
Qed.

(* the death of the owner's process releases the lock (whatever the number of references) *)
Lemma kill_owner_unlocks : forall s h, reachable s ->
  In h (handles s) ->
  lock_owner (dir (fst (step s (EKill (h_pid h))))) = None /\
  handles (fst (step s (EKill (h_pid h)))) = [].
Proof.
  intros s [i p r] R Hin. destruct (held_shape s _ R Hin) as (c & n & -> & _).
  cbn. unfold release_pid, has_id, has_pid. cbn. now rewrite !Nat.eqb_refl.
Qed.

Theorem C11_release_by_kill : forall s o h pid, reachable s ->
  lock_owner (dir s) = Some o -> In h (handles s) -> h_id h = o ->
  exists h', snd (step (fst (step s (EKill (h_pid h)))) (EOpen pid)) = ROpened h'.
Proof.
  intros s o h pid R _ Hin _.
  apply C11_winner; [apply reachable_step, R|].
  apply (kill_owner_unlocks s h R Hin).
Qed.

(* the death of another process does not release the lock *)
Theorem C11_kill_other_keeps_lock : forall s h pid pid', reachable s ->
  In h (handles s) -> h_pid h <> pid' ->
  fst (step s (EKill pid')) = s /\
  snd (step (fst (step s (EKill pid'))) (EOpen pid)) = RAlreadyOpened.
Proof.
  intros s [i p r] pid pid' R Hin Hne. destruct (held_shape s _ R Hin) as (c & n & -> & _).
  cbn in Hne |- *. unfold release_pid, has_id, has_pid. cbn. rewrite Nat.eqb_refl.
  destruct (Nat.eqb_spec p pid'); [contradiction|]. now split.
Qed.

(* operations, clones and drops through an id that is not live change nothing: a handle that
   lost (never obtained) the directory cannot touch it *)
Theorem C11_dead_handle_noninterference : forall s hid,
  live hid (handles s) = false ->
  fst (step s (EOp hid)) = s /\ fst (step s (EDrop hid)) = s /\
  handles (fst (step s (EClone hid))) = handles s /\ dir (fst (step s (EClone hid))) = dir s.
Proof.
  intros s hid H. cbn. rewrite H. unfold find_handle, live in *.
  assert (F : find (has_id hid) (handles s) = None).
  { destruct (find (has_id hid) (handles s)) as [h|] eqn:E; [|reflexivity].
    apply find_some in E. destruct E as [Hin Hid].
    assert (existsb (has_id hid) (handles s) = true)
      by (apply existsb_exists; exists h; auto).
    congruence. }
  rewrite F. repeat split; try reflexivity.
  unfold upd_refs. induction (handles s) as [|a t IH]; [reflexivity|].
  cbn in *. apply orb_false_elim in H. destruct H as [Ha Ht]. rewrite Ha.
  f_equal. apply IH; [exact Ht|].
  rewrite Ha in F. exact F.
Qed.

Lemma results_from_length : forall evs s, length (results_from s evs) = length evs.
Proof. induction evs as [|e r IH]; intros s; cbn; [reflexivity|]. rewrite IH. reflexivity. Qed.

Lemma results_length : forall evs, length (results evs) = length evs.
Proof. intros. apply results_from_length. Qed.

Lemma results_from_app : forall a b s,
  results_from s (a ++ b) = results_from s a ++ results_from (run s a) b.
Proof.
  induction a as [|e a IH]; intros b s; cbn; [reflexivity|]. rewrite IH. reflexivity.
Qed.

(* the n-th result is the result of the n-th event in the state reached by the events before *)
Lemma results_nth : forall pre e post,
  nth_error (results (pre ++ e :: post)) (length pre) = Some (snd (step (run init pre) e)).
Proof.
  intros pre e post. unfold results. rewrite results_from_app.
  rewrite nth_error_app2; rewrite results_from_length; [|lia].
  rewrite Nat.sub_diag. reflexivity.
Qed.

(* an open in a run succeeds iff nobody holds the lock at that point, i.e. iff no handle is live *)
Theorem results_open_spec : forall pre pid post,
  nth_error (results (pre ++ EOpen pid :: post)) (length pre) =
    Some (match handles (run init pre) with
          | [] => ROpened (next_id (run init pre))
          | _ :: _ => RAlreadyOpened
          end).
Proof.
  intros pre pid post. rewrite results_nth, C11_open_result. f_equal.
  assert (R : reachable (run init pre)) by (exists pre; reflexivity).
  now destruct (reachable_Inv _ R).
Qed.

(* racing opens: whatever the processes, the first open wins and all the others lose *)
Lemma results_from_locked_opens : forall pids s,
  lock_owner (dir s) <> None ->
  results_from s (map EOpen pids) = repeat RAlreadyOpened (length pids).
Proof.
  induction pids as [|p r IH]; intros s H; cbn [map results_from length repeat]; [reflexivity|].
  destruct (C11_loser_noninterference_any s p H) as (s' & E & _ & _ & Ho & _).
  rewrite E. cbn [fst snd]. f_equal. apply IH. rewrite Ho. exact H.
Qed.

Theorem C11_racing_opens : forall pid pids,
  results (map EOpen (pid :: pids)) = ROpened 0 :: repeat RAlreadyOpened (length pids).
Proof.
  intros pid pids. unfold results. cbn [map results_from]. f_equal.
  apply results_from_locked_opens. cbn. discriminate.
Qed.

(* exactly one winner among racing opens *)
Theorem C11_racing_opens_one_winner : forall pid pids,
  length (filter (fun r => match r with ROpened _ => true | _ => false end)
                 (results (map EOpen (pid :: pids)))) = 1.
Proof.
  intros pid pids. rewrite C11_racing_opens. cbn. f_equal.
  induction (length pids) as [|n IH]; [reflexivity|exact IH].
Qed.

Example ex_run :
  results [EOpen 1; EOpen 2; EClone 0; EDrop 0; EOpen 2; EDrop 0; EOpen 2]
  = [ROpened 0; RAlreadyOpened; RNone; RNone; RAlreadyOpened; RNone; ROpened 1].
Proof. vm_compute. reflexivity. Qed.

Example ex_run_state :
  run init [EOpen 1; EOpen 2; EClone 0; EDrop 0; EOpen 2; EDrop 0; EOpen 2]
  = mkSt (mkDir (Some 1) 2%N true true) [mkH 1 2 1] 2.
Proof. vm_compute. reflexivity. Qed.

(* the owner is killed while a clone is alive: the lock is released all the same *)
Example ex_kill :
  results [EOpen 7; EClone 0; EOp 0; EOpen 8; EKill 8; EOpen 8; EKill 7; EOp 0; EOpen 8; EOpen 7]
  = [ROpened 0; RNone; RNone; RAlreadyOpened; RNone; RAlreadyOpened; RNone; RNone;
     ROpened 1; RAlreadyOpened].
Proof. vm_compute. reflexivity. Qed.

(* the content counter moves with the winning open and with an operation through the live handle
   only: the two losing opens, the operation through an id that was never issued and the one
   after the drop leave it alone *)
Example ex_content :
  content (dir (run init [EOpen 1; EOpen 2; EOpen 3; EOp 5; EOp 0; EDrop 0; EOp 0])) = 2%N.
Proof. vm_compute. reflexivity. Qed.

Example ex_racing : results (map EOpen [4; 4; 9; 2])
  = [ROpened 0; RAlreadyOpened; RAlreadyOpened; RAlreadyOpened].
Proof. vm_compute. reflexivity. Qed.

Print Assumptions C11_at_most_one_live.
Print Assumptions C11_loser_noninterference.
Print Assumptions C11_loser_identity.
Print Assumptions C11_winner.
Print Assumptions C11_winner_sole.
Print Assumptions C11_release_by_drop.
Print Assumptions C11_clone_keeps_lock.
Print Assumptions C11_clone_then_drop_keeps_lock.
Print Assumptions C11_release_by_kill.
Print Assumptions C11_kill_other_keeps_lock.
Print Assumptions C11_dead_handle_noninterference.
Print Assumptions results_open_spec.
Print Assumptions C11_racing_opens.
Print Assumptions C11_racing_opens_one_winner.
Print Assumptions ex_run.
