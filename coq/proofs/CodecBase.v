(* CodecBase.v -- the lemmas about theories/Base.v that every other file builds on: [do*],
   a few facts about lists ([firstn]/[skipn] of an append, [filter], [NoDup]), little-endian
   integers, checked slicing, equality and lexicographic order of byte strings.

   The file loads no extension of [lia] and changes no setting of it.  BaseProofs.v does both
   (and a setting made by a required file is in force in every file that requires it, however
   indirectly), so a file that is to stay without them takes the basic facts from here and
   requires nothing that requires BaseProofs.v: SMapProofs.v, IndexProofs.v, CodecProofs.v and
   the Conc files built on these alone. *)
From Cas Require Import Base.
Open Scope N_scope.

(* in force in every file that requires this one *)
Arguments N.add : simpl never.
Arguments N.sub : simpl never.
Arguments N.mul : simpl never.
Arguments N.div : simpl never.
Arguments N.modulo : simpl never.
Arguments N.eqb : simpl never.
Arguments N.ltb : simpl never.
Arguments N.leb : simpl never.
Arguments N.pow : simpl never.

Lemma rbind_ok {E A B} (r : res E A) (f : A -> res E B) b :
  rbind r f = Ok b -> exists a, r = Ok a /\ f a = Ok b.
Proof. destruct r as [a|e]; [now exists a | discriminate]. Qed.

Lemma firstn_app_n (n : nat) (a b : bytes) : length a = n -> firstn n (a ++ b) = a.
Proof.
  intros <-. rewrite firstn_app, firstn_all, Nat.sub_diag. apply app_nil_r.
Qed.

Lemma skipn_app_n (n : nat) (a b : bytes) : length a = n -> skipn n (a ++ b) = b.
Proof.
  intros <-. rewrite skipn_app, skipn_all, Nat.sub_diag. reflexivity.
Qed.

Lemma filter_length_le {A} (f : A -> bool) l : (length (filter f l) <= length l)%nat.
Proof.
  induction l as [|a l IH]; cbn [filter]; [apply Nat.le_refl|].
  destruct (f a); cbn [length]; [apply le_n_S, IH|apply Nat.le_le_succ_r, IH].
Qed.

Lemma filter_all {A} (f : A -> bool) l : (forall x, In x l -> f x = true) -> filter f l = l.
Proof.
  induction l as [|a l IH]; intros A1; cbn [filter]; [reflexivity|].
  rewrite (A1 a (or_introl eq_refl)). f_equal. apply IH. intros x I. apply A1. now right.
Qed.

Lemma filter_none {A} (f : A -> bool) l : (forall x, In x l -> f x = false) -> filter f l = [].
Proof.
  induction l as [|a l IH]; intros A1; cbn [filter]; [reflexivity|].
  rewrite (A1 a (or_introl eq_refl)). apply IH. intros x I. apply A1. now right.
Qed.

Lemma NoDup_map_inj_on {A B} (g : A -> B) l :
  (forall x y, In x l -> In y l -> g x = g y -> x = y) -> NoDup l -> NoDup (map g l).
Proof.
  induction l as [|a l IH]; intros Inj ND; cbn [map]; [constructor|].
  inversion ND as [|? ? N1 ND']; subst. constructor.
  - intros I. apply in_map_iff in I. destruct I as (y & E & Iy).
    assert (y = a) by (apply Inj; [now right|now left|exact E]). subst y. contradiction.
  - apply IH; [|exact ND']. intros x y Ix Iy. apply Inj; now right.
Qed.

Lemma NoDup_map_filter {A B} (g : A -> B) (t : A -> bool) l :
  NoDup (map g l) -> NoDup (map g (filter t l)).
Proof.
  induction l as [|a l IH]; intros ND; cbn [filter map]; [constructor|].
  inversion ND as [|? ? N1 ND']; subst. destruct (t a); [|now apply IH]. cbn [map].
  constructor; [|now apply IH]. intros I. apply N1. apply in_map_iff in I. destruct I as (x & E & Ix).
  apply filter_In in Ix. rewrite <- E. now apply in_map.
Qed.

Lemma NoDup_app_intro {A} (l1 l2 : list A) :
  NoDup l1 -> NoDup l2 -> (forall x, In x l1 -> ~ In x l2) -> NoDup (l1 ++ l2).
Proof.
  induction 1 as [|a l1 Na _ IH]; intros N2 D; [exact N2|]. cbn [app]. constructor.
  - rewrite in_app_iff. intros [I|I]; [exact (Na I)|exact (D a (or_introl eq_refl) I)].
  - apply IH; [exact N2|]. intros x I. apply D. now right.
Qed.

Lemma length_le_enc n : forall v, length (le_enc n v) = n.
Proof. induction n as [|n IH]; intro v; cbn [le_enc length]; [reflexivity | now rewrite IH]. Qed.

Lemma le_enc_byte n : forall v, Forall (fun b => b < 256) (le_enc n v).
Proof.
  induction n as [|n IH]; intro v; cbn [le_enc]; constructor; [|apply IH].
  apply N.mod_lt. discriminate.
Qed.

Lemma le_dec_le_enc n : forall v, le_dec (le_enc n v) = v mod 256 ^ N.of_nat n.
Proof.
  induction n as [|n IH]; intro v; cbn [le_enc le_dec].
  - symmetry. apply N.mod_1_r.
  - rewrite IH, Nat2N.inj_succ, N.pow_succ_r'.
    rewrite N.mod_mul_r; [reflexivity | discriminate | apply N.pow_nonzero; discriminate].
Qed.

Corollary le_dec_le_enc_small : forall n v,
  v < 256 ^ N.of_nat n -> le_dec (le_enc n v) = v.
Proof. intros n v H. rewrite le_dec_le_enc. now apply N.mod_small. Qed.

Lemma length_u32 v : length (u32 v) = 4%nat.
Proof. apply length_le_enc. Qed.

Lemma length_u64 v : length (u64 v) = 8%nat.
Proof. apply length_le_enc. Qed.

Lemma le_dec_u32 v : v < 2 ^ 32 -> le_dec (u32 v) = v.
Proof. apply (le_dec_le_enc_small 4). Qed.

Lemma le_dec_u64 v : v < 2 ^ 64 -> le_dec (u64 v) = v.
Proof. apply (le_dec_le_enc_small 8). Qed.

Lemma take_app (n : nat) (a b : bytes) : length a = n -> take n (a ++ b) = Some (a, b).
Proof.
  intro L. unfold take. rewrite (firstn_app_n n), (skipn_app_n n) by exact L.
  subst n. rewrite app_length, (proj2 (Nat.leb_le _ _) (Nat.le_add_r _ _)). reflexivity.
Qed.

Lemma take_some (n : nat) (bs a b : bytes) :
  take n bs = Some (a, b) -> bs = a ++ b /\ length a = n.
Proof.
  unfold take. destruct (Nat.leb_spec n (length bs)) as [L|]; [|discriminate].
  intros [= <- <-]. split; [symmetry; apply firstn_skipn | now apply firstn_length_le].
Qed.

Lemma take_none (n : nat) (bs : bytes) : (length bs < n)%nat -> take n bs = None.
Proof. intro L. unfold take. now rewrite (proj2 (Nat.leb_gt _ _) L). Qed.

Lemma take_none_inv (n : nat) (bs : bytes) : take n bs = None -> (length bs < n)%nat.
Proof.
  unfold take. destruct (Nat.leb_spec n (length bs)); [discriminate | trivial].
Qed.

Lemma takeN_app (n : N) (a b : bytes) : len a = n -> takeN n (a ++ b) = Some (a, b).
Proof.
  intros <-. unfold takeN, len. rewrite Nat2N.id, app_length, Nat2N.inj_add.
  rewrite (proj2 (N.leb_le _ _) (N.le_add_r _ _)). now apply take_app.
Qed.

Lemma takeN_some (n : N) (bs a b : bytes) :
  takeN n bs = Some (a, b) -> bs = a ++ b /\ len a = n.
Proof.
  unfold takeN. destruct (n <=? N.of_nat (length bs)); [|discriminate].
  intro T. apply take_some in T. destruct T as [-> L]. split; [reflexivity|].
  unfold len. rewrite L. apply N2Nat.id.
Qed.

Lemma takeN_none (n : N) (bs : bytes) : len bs < n -> takeN n bs = None.
Proof. intro L. unfold takeN. fold (len bs). now rewrite (proj2 (N.leb_gt _ _) L). Qed.

(* beqb decides equality *)
Lemma beqb_true_iff : forall a b, beqb a b = true <-> a = b.
Proof.
  induction a as [|x a IH]; destruct b as [|y b]; cbn [beqb];
    try (split; [discriminate | discriminate]); [tauto|].
  rewrite andb_true_iff, N.eqb_eq, IH. split.
  - intros [E1 E2]. now subst.
  - intro E. inversion E. auto.
Qed.

Lemma beqb_spec a b : reflect (a = b) (beqb a b).
Proof. apply iff_reflect. symmetry. apply beqb_true_iff. Qed.

Lemma beqb_refl a : beqb a a = true.
Proof. now apply beqb_true_iff. Qed.

Lemma beqb_false_iff a b : beqb a b = false <-> a <> b.
Proof. destruct (beqb_spec a b); split; congruence. Qed.

(* lex_cmp is a strict total order, in the form the [comparison] type gives it *)
Lemma lex_refl a : lex_cmp a a = Eq.
Proof.
  induction a as [|x a IH]; cbn [lex_cmp]; [reflexivity|]. now rewrite N.compare_refl.
Qed.

Lemma lex_eq a b : lex_cmp a b = Eq -> a = b.
Proof.
  revert b. induction a as [|x a IH]; intros [|y b]; cbn [lex_cmp]; intro H;
    try discriminate; [reflexivity|].
  destruct (N.compare_spec x y) as [->| |]; try discriminate. f_equal. now apply IH.
Qed.

Lemma lex_antisym a b : lex_cmp b a = CompOpp (lex_cmp a b).
Proof.
  revert b. induction a as [|x a IH]; intros [|y b]; cbn [lex_cmp]; try reflexivity.
  rewrite (N.compare_antisym x y). destruct (x ?= y); cbn [CompOpp]; auto.
Qed.

Lemma lex_trans a b c : lex_cmp a b = Lt -> lex_cmp b c = Lt -> lex_cmp a c = Lt.
Proof.
  revert b c. induction a as [|x a IH]; intros [|y b] [|z c]; cbn [lex_cmp]; intros H1 H2;
    try reflexivity; try discriminate.
  destruct (N.compare_spec x y) as [->|L1|]; try discriminate;
    destruct (N.compare_spec y z) as [<-|L2|]; try discriminate.
  - eapply IH; eassumption.
  - reflexivity.
  - now rewrite (proj2 (N.compare_lt_iff _ _) L1).
  - now rewrite (proj2 (N.compare_lt_iff _ _) (N.lt_trans _ _ _ L1 L2)).
Qed.

Print Assumptions takeN_app.
Print Assumptions beqb_true_iff.
