(* RestartHist.v -- C02 at the level of histories: restarts (close, then open with the same
   configuration) anywhere in a history of API calls, any number of times, are invisible. *)
From Cas Require Import History.
From CasProofs Require Import BaseProofs CodecBase CodecProofs SMapProofs IndexProofs
  StoreFS StoreInv StoreWrite StoreRead StoreHist DiskInv Recover.
From Coq Require Import ZifyBool ZifyNat ZifyN.
Open Scope N_scope.

(* a restart is the two-element sublist [OpClose; OpOpen _ false]; erasing the restarts of a
   history, and the outputs they produce *)
Fixpoint erase_restarts (ops : list op) : list op :=
  match ops with
  | [] => []
  | OpClose :: r =>
    match r with
    | OpOpen _ false :: r' => erase_restarts r'
    | _ => OpClose :: erase_restarts r
    end
  | o :: r => o :: erase_restarts r
  end.

Fixpoint strip_restarts (ops : list op) (outs : list out) : list out :=
  match ops, outs with
  | OpClose :: r, x :: t =>
    match r, t with
    | OpOpen _ false :: r', _ :: t' => strip_restarts r' t'
    | _, _ => x :: strip_restarts r t
    end
  | _ :: r, x :: t => x :: strip_restarts r t
  | _, _ => []
  end.

(* every OpOpen of the history answered OutOpened (never an error) *)
Fixpoint opens_ok (ops : list op) (outs : list out) : Prop :=
  match ops, outs with
  | [], [] => True
  | o :: r, x :: t =>
    match o with OpOpen _ _ => (exists os, x = OutOpened os) | _ => True end /\ opens_ok r t
  | _, _ => False
  end.

Definition is_read (o : op) : Prop :=
  match o with
  | OpGet _ | OpGetSize _ | OpGetRange _ _ _ | OpGetReader _ | OpIter | OpRange _ _ => True
  | _ => False
  end.

Section RestartHist.
  Variable H : bytes -> bytes.
  Hypothesis H_len : forall b, length (H b) = 32%nat.
  Hypothesis H_byte : forall b, Forall (fun x => x < 256) (H b).
  Variable cfg : config.
  Hypothesis n_pos : 0 < c_n cfg.
  Let cmp := key_cmp (c_kt cfg).

  Local Notation km_of := (km_of H).
  Local Notation NoCollide := (NoCollide H).
  Local Notation Live0 := (Live0 H cfg).
  Local Notation seg_of := (seg_of cfg).
  Local Notation DiskOk := (DiskOk H cfg).
  Local Notation Inv := (Inv H cfg).
  Local Notation spec_out := (spec_out H cfg).
  Local Notation spec_outs := (spec_outs H cfg).
  Local Notation api_op := (api_op cfg).

  (* API calls on the open handle, and restarts with the same configuration *)
  Inductive hist_r : list op -> Prop :=
  | hr_nil : hist_r []
  | hr_api : forall o r, api_op o -> hist_r r -> hist_r (o :: r)
  | hr_restart : forall r, hist_r r -> hist_r (OpClose :: OpOpen cfg false :: r).

  (* what an operation must satisfy, in the abstract state it is issued in, for its WAL record
     to fit the formats *)
  Definition op_fits_at (sg : smap bytes) (o : op) : Prop :=
    match o with
    | OpPut k chunks =>
      len k + 45 < 2 ^ 32 /\ key_valid (c_kt cfg) k = true /\ len (concat chunks) < 2 ^ 64
    | OpRemoveRange lo hi =>
      len (enc_op (RRemove (map fst (filter (fun e => in_range cmp lo hi (fst e)) sg)))) < 2 ^ 32
    | _ => True
    end.
  Fixpoint hist_fits (sg : smap bytes) (ops : list op) : Prop :=
    match ops with
    | [] => True
    | o :: r => op_fits_at sg o /\ hist_fits (spec_step cmp sg o) r
    end.

  Definition api_op_r : list op -> Prop := hist_r.

  Lemma erase_restarts_api : forall o r, api_op o ->
    erase_restarts (o :: r) = o :: erase_restarts r.
  Proof. intros o r A. destruct o; try reflexivity; contradiction. Qed.

  Lemma strip_restarts_api : forall o r x t, api_op o ->
    strip_restarts (o :: r) (x :: t) = x :: strip_restarts r t.
  Proof. intros o r x t A. destruct o; try reflexivity; contradiction. Qed.

  (* restarts do not move the abstract state: fitting may equally be stated on the erased history *)
  Lemma hist_fits_erase : forall ops, hist_r ops -> forall sg,
    hist_fits sg ops <-> hist_fits sg (erase_restarts ops).
  Proof.
    induction 1 as [|o r Ao Hr IH|r Hr IH]; intros sg.
    - tauto.
    - rewrite (erase_restarts_api o r Ao). cbn [hist_fits]. rewrite IH. tauto.
    - cbn [erase_restarts hist_fits op_fits_at spec_step]. rewrite IH. tauto.
  Qed.

  Lemma read_step : forall m os o w x m' w',
    step H (Some (mkHandle cfg m os)) o w = ((x, Some (mkHandle cfg m' os)), w') ->
    is_read o -> m' = m /\ w' = w.
  Proof.
    intros m os o w x m' w' E R. destruct o; try contradiction;
      cbn [step h_cfg h_mem h_ostats] in E; unfold bind, get_fs, ret in E; inversion E; auto.
  Qed.

  Lemma length_spec_step : forall sg o, (length (spec_step cmp sg o) <= S (length sg))%nat.
  Proof using H_len H_byte n_pos.
    intros sg o. unfold cmp. destruct o; cbn [spec_step]; try lia.
    - apply SMapProofs.length_sm_ins_le.
    - apply Nat.le_trans with (length sg); [apply SMapProofs.length_sm_del_le|apply Nat.le_succ_diag_r].
    - destruct (nonempty sg && range_panics _ lo hi); [lia|].
      pose proof (filter_length_le (fun e => negb (in_range (key_cmp (c_kt cfg)) lo hi (fst e))) sg). lia.
  Qed.

  Lemma step_inv : forall m s sg os o w,
    Inv m s sg -> wfs w = s -> wfault w = None -> api_op o ->
    NoCollide (op_contents o ++ map snd sg) -> op_fits_at sg o ->
    N.of_nat (length sg) + 1 < 2 ^ 32 -> nextv (mwal m) < 2 ^ 64 ->
    exists m' w',
      step H (Some (mkHandle cfg m os)) o w = ((spec_out sg o, Some (mkHandle cfg m' os)), w') /\
      wfault w' = None /\ Inv m' (wfs w') (spec_step cmp sg o) /\
      nextv (mwal m') <= nextv (mwal m) + 1.
  Proof.
    intros m s sg os o w IV Ws F A NC Fit Ln Lv. pose proof IV as (L & D & Wf).
    assert (RD : is_read o ->
              exists m' w',
                step H (Some (mkHandle cfg m os)) o w
                = ((spec_out sg o, Some (mkHandle cfg m' os)), w') /\
                wfault w' = None /\ Inv m' (wfs w') sg /\ nextv (mwal m') <= nextv (mwal m) + 1).
    { intros R.
      destruct (step_ok H H_len H_byte cfg n_pos m s sg os o w L Ws F A NC) as (m' & w' & E & F' & _).
      destruct (read_step _ _ _ _ _ _ _ E R) as [-> ->].
      exists m, w. split; [exact E|]. split; [exact F|]. split; [now rewrite Ws|lia]. }
    destruct o; cbn [StoreHist.api_op] in A; try contradiction;
      try (apply RD; exact I);
      cbn [step h_cfg h_mem h_ostats StoreHist.spec_out spec_step StoreHist.op_contents op_fits_at] in *.
    - (* put *)
      destruct Fit as (Lk & Vk & Lc).
      destruct (put_disk H H_len H_byte cfg n_pos m s sg k chunks w IV Ws F NC Lk Vk Lc Ln Lv)
        as (m' & w' & E & F' & IV' & Nv).
      exists m', w'. rewrite (bind_eq _ _ _ _ _ E). split; [reflexivity|].
      split; [exact F'|]. split; [exact IV'|lia].
    - (* abort *)
      destruct (abort_disk H H_len H_byte cfg n_pos m s sg k chunks w IV Ws F) as (w' & E & F' & IV').
      exists m, w'. rewrite (bind_eq _ _ _ _ _ E). split; [reflexivity|].
      split; [exact F'|]. split; [exact IV'|lia].
    - (* remove *)
      destruct (remove_disk H H_len H_byte cfg n_pos m s sg k w IV Ws F Lv)
        as (m' & w' & E & F' & IV' & Nv).
      exists m', w'. rewrite (bind_eq _ _ _ _ _ E). split; [reflexivity|].
      split; [exact F'|]. split; [exact IV'|exact Nv].
    - (* remove_range *)
      fold cmp in A.
      assert (NP : (nonempty (km (idx m)) && range_panics cmp lo hi) = false)
        by (rewrite A; apply andb_false_r).
      destruct (remove_range_disk H H_len H_byte cfg n_pos m s sg lo hi w IV Ws F NP Fit Lv)
        as (m' & w' & E & F' & IV' & Nv).
      exists m', w'. rewrite (bind_eq _ _ _ _ _ E). rewrite A, andb_false_r.
      split; [reflexivity|]. split; [exact F'|]. split; [exact IV'|exact Nv].
    - (* checkpoint *)
      destruct (checkpoint_disk H H_len H_byte cfg n_pos m s sg w IV Ws F)
        as (m' & w' & E & F' & IV' & Nv).
      exists m', w'. rewrite (bind_eq _ _ _ _ _ E). split; [reflexivity|].
      split; [exact F'|]. split; [exact IV'|lia].
  Qed.

  Lemma run_restarts : forall ops, hist_r ops -> forall m s sg os w,
    Inv m s sg -> wfs w = s -> wfault w = None ->
    NoCollide (hist_contents ops ++ map snd sg) ->
    hist_fits sg ops ->
    N.of_nat (length sg) + N.of_nat (length ops) < 2 ^ 32 ->
    nextv (mwal m) + N.of_nat (length ops) <= 2 ^ 32 ->
    exists outs m' os' w',
      run_ops H (Some (mkHandle cfg m os)) ops w = ((outs, Some (mkHandle cfg m' os')), w') /\
      wfault w' = None /\
      strip_restarts ops outs = spec_outs sg (erase_restarts ops) /\
      opens_ok ops outs /\
      Inv m' (wfs w') (fold_left (spec_step cmp) (erase_restarts ops) sg).
  Proof.
    induction 1 as [|o r Ao Hr IH|r Hr IH]; intros m s sg os w IV Ws F NC Fit Ln Lv.
    - exists [], m, os, w. split; [reflexivity|]. split; [exact F|]. split; [reflexivity|].
      split; [exact I|]. cbn [erase_restarts fold_left]. now rewrite Ws.
    - cbn [length] in Ln, Lv. destruct Fit as [Fo Fr].
      destruct (step_inv m s sg os o w IV Ws F Ao (nocollide_head H _ _ _ NC) Fo)
        as (m1 & w1 & E1 & F1 & IV1 & Nv1); try (pow_consts; lia).
      pose proof (length_spec_step sg o) as Lss.
      destruct (IH m1 (wfs w1) (spec_step cmp sg o) os w1 IV1 eq_refl F1
                  (nocollide_rest H _ _ _ _ NC (spec_step_contents cfg sg o)) Fr)
        as (outs & m2 & os2 & w2 & E2 & F2 & St2 & Op2 & IV2); try lia.
      exists (spec_out sg o :: outs), m2, os2, w2.
      split; [exact (run_ops_step H _ _ _ _ _ _ _ _ _ _ E1 E2)|]. split; [exact F2|].
      rewrite (erase_restarts_api o r Ao), (strip_restarts_api o r _ _ Ao).
      cbn [StoreHist.spec_outs fold_left opens_ok]. rewrite St2.
      split; [reflexivity|]. split; [|exact IV2]. split; [|exact Op2].
      destruct o; try exact I; contradiction.
    - cbn [length] in Ln, Lv. destruct Fit as [_ [_ Fr]]. cbn [spec_step] in Fr.
      destruct (restart_ok H H_len H_byte cfg n_pos m s sg w IV Ws F)
        as (w1 & m1 & os1 & w2 & Ec & Eo & F2 & _ & _ & _ & _ & Nv & IV2 & _).
      assert (E1 : step H (Some (mkHandle cfg m os)) OpClose w = ((OutUnit, None), w1)).
      { cbn [step h_mem]. now rewrite (bind_eq _ _ _ _ _ Ec). }
      destruct (IH m1 (wfs w2) sg os1 w2 IV2 eq_refl F2)
        as (outs & m3 & os3 & w3 & E3 & F3 & St3 & Op3 & IV3); try assumption; try lia.
      exists (OutUnit :: OutOpened os1 :: outs), m3, os3, w3.
      split; [exact (run_ops_step H _ _ _ _ _ _ _ _ _ _ E1
                       (run_ops_step H _ _ _ _ _ _ _ _ _ _ (step_open H cfg None _ _ _ _ Eo) E3))|].
      split; [exact F3|]. cbn [erase_restarts strip_restarts opens_ok].
      split; [exact St3|]. split; [|exact IV3].
      split; [exact I|]. split; [now exists os1|exact Op3].
  Qed.

  (* from any first open that establishes the invariants with next version 1 *)
  Lemma restart_transparent_from : forall ops w0 m os w1,
    open_with_recover H cfg w0 = (Ok (m, os), w1) -> wfault w1 = None ->
    Inv m (wfs w1) [] -> nextv (mwal m) = 1 -> hist_r ops ->
    NoCollide (hist_contents ops) -> hist_fits [] ops -> N.of_nat (length ops) < 2 ^ 32 - 1 ->
    exists os0 outs hd' w',
      run_ops H None (OpOpen cfg false :: ops) w0 = ((OutOpened os0 :: outs, Some hd'), w') /\
      wfault w' = None /\
      strip_restarts ops outs = spec_outs [] (erase_restarts ops) /\
      opens_ok ops outs /\ h_cfg hd' = cfg /\
      Inv (h_mem hd') (wfs w') (fold_left (spec_step cmp) (erase_restarts ops) []).
  Proof.
    intros ops w0 m os w1 E1 F1 IV1 Nv1 Hr NC Fit Ln.
    destruct (run_restarts ops Hr m (wfs w1) [] os w1 IV1 eq_refl F1)
      as (outs & m' & os' & w' & E & F' & St & Op & IV'); try assumption.
    { now rewrite app_nil_r. }
    { cbn [length]. pow_consts. lia. }
    { rewrite Nv1. pow_consts. lia. }
    exists os, outs, (mkHandle cfg m' os'), w'.
    split; [exact (run_ops_step H _ _ _ _ _ _ _ _ _ _ (step_open H cfg None _ _ _ _ E1) E)|].
    split; [exact F'|]. split; [exact St|]. split; [exact Op|]. split; [reflexivity|exact IV'].
  Qed.

  (* C02: from a fresh directory, for every history of API calls with restarts anywhere, any
     number of times: every open answers OutOpened, and the outputs of the API calls are those
     of the ordered-map specification run on the history with the restarts erased.
     Fitting hypotheses: [hist_fits] (keys accepted by the key type and short enough for
     their records, contents shorter than 2^64, range-removal records below 2^32 bytes) and
     fewer than 2^32-1 calls (so the key count and the versions stay in range). *)
  Theorem C02_restart_transparent : forall ops,
    c_pre cfg = false -> c_n cfg < 2 ^ 64 -> hist_r ops ->
    NoCollide (hist_contents ops) -> hist_fits [] ops -> N.of_nat (length ops) < 2 ^ 32 - 1 ->
    exists os0 outs hd' w',
      run_ops H None (OpOpen cfg false :: ops) (init_world empty_fs None)
      = ((OutOpened os0 :: outs, Some hd'), w') /\
      wfault w' = None /\
      strip_restarts ops outs = spec_outs [] (erase_restarts ops) /\
      opens_ok ops outs /\ h_cfg hd' = cfg /\
      Inv (h_mem hd') (wfs w') (fold_left (spec_step cmp) (erase_restarts ops) []).
  Proof.
    intros ops Pre Nfit Hr NC Fit Ln.
    destruct (open_fresh_disk H H_len H_byte cfg n_pos Pre Nfit)
      as (m & os & w1 & E1 & F1 & IV1 & _ & _ & Nv1).
    exact (restart_transparent_from ops _ m os w1 E1 F1 IV1 Nv1 Hr NC Fit Ln).
  Qed.

  Lemma erase_api : forall ops, hist_r ops -> Forall api_op (erase_restarts ops).
  Proof.
    induction 1 as [|o r Ao Hr IH|r Hr IH].
    - constructor.
    - rewrite (erase_restarts_api o r Ao). now constructor.
    - exact IH.
  Qed.

  Lemma erase_contents : forall ops, hist_r ops ->
    hist_contents (erase_restarts ops) = hist_contents ops.
  Proof.
    induction 1 as [|o r Ao Hr IH|r Hr IH].
    - reflexivity.
    - rewrite (erase_restarts_api o r Ao). cbn [hist_contents flat_map]. f_equal. exact IH.
    - exact IH.
  Qed.

  (* C02, observations: the handle at the end of a history with restarts carries the same key
     map, reference counts and statistics as the handle at the end of the history without *)
  Theorem C02_observations_equal : forall ops,
    c_pre cfg = false -> c_n cfg < 2 ^ 64 -> hist_r ops ->
    NoCollide (hist_contents ops) -> hist_fits [] ops -> N.of_nat (length ops) < 2 ^ 32 - 1 ->
    exists r1 hd1 w1 r2 hd2 w2,
      run_ops H None (OpOpen cfg false :: ops) (init_world empty_fs None) = ((r1, Some hd1), w1) /\
      run_ops H None (OpOpen cfg false :: erase_restarts ops) (init_world empty_fs None)
      = ((r2, Some hd2), w2) /\
      km (idx (h_mem hd1)) = km (idx (h_mem hd2)) /\ rc (idx (h_mem hd1)) = rc (idx (h_mem hd2)) /\
      ub (idx (h_mem hd1)) = ub (idx (h_mem hd2)) /\ tb (idx (h_mem hd1)) = tb (idx (h_mem hd2)).
  Proof.
    intros ops Pre Nfit Hr NC Fit Ln.
    destruct (C02_restart_transparent ops Pre Nfit Hr NC Fit Ln)
      as (os0 & outs & hd1 & w1 & E1 & _ & _ & _ & _ & (L1 & _)).
    destruct (C01_from_fresh H H_len H_byte cfg n_pos (erase_restarts ops) Pre (erase_api ops Hr))
      as (os2 & hd2 & w2 & E2 & _ & _ & L2 & _).
    { now rewrite erase_contents. }
    eexists _, hd1, w1, _, hd2, w2. split; [exact E1|]. split; [exact E2|].
    exact (Live0_same_index H cfg _ _ _ _ _ L1 L2).
  Qed.
End RestartHist.

Print Assumptions C02_restart_transparent.
Print Assumptions C02_observations_equal.

(* a closed, computed instance (toy hash and configuration of StoreHist.v: 2 operations per WAL
   segment, so roll-over, checkpoint and pruning all occur) *)
Definition restart : list op := [OpClose; OpOpen toy_cfg false].
Definition toy_ops_r : list op :=
  [OpPut toy_k1 [toy_c1]] ++ restart ++
  [OpGet toy_k1; OpPut toy_k2 [toy_c1; toy_c2]; OpCheckpoint] ++ restart ++ restart ++
  [OpRemove toy_k1; OpPut toy_k1 [toy_c2]] ++ restart ++
  [OpIter; OpRemoveRange Unb Unb] ++ restart ++ [OpIter].

Example toy_erase :
  erase_restarts toy_ops_r =
  [OpPut toy_k1 [toy_c1]; OpGet toy_k1; OpPut toy_k2 [toy_c1; toy_c2]; OpCheckpoint;
   OpRemove toy_k1; OpPut toy_k1 [toy_c2]; OpIter; OpRemoveRange Unb Unb; OpIter].
Proof. reflexivity. Qed.

(* the model, run from an empty directory with the restarts in place, answers the API calls
   exactly as the specification answers the history without restarts *)
Example toy_restart_run_matches_spec :
  strip_restarts toy_ops_r
    (tl (fst (fst (run_hist StoreHist.toyH empty_fs None (OpOpen toy_cfg false :: toy_ops_r)))))
  = spec_outs StoreHist.toyH toy_cfg [] (erase_restarts toy_ops_r).
Proof. vm_compute. reflexivity. Qed.

Lemma toy_hist_r : hist_r toy_cfg toy_ops_r.
Proof. repeat (first [apply hr_restart | apply hr_api; [exact I || reflexivity|] | apply hr_nil]). Qed.

Lemma toy_nocollide_r : NoCollide StoreHist.toyH (hist_contents toy_ops_r).
Proof.
  intros a b Ia Ib E. cbn in Ia, Ib.
  destruct Ia as [<-|[<-|[<-|[]]]]; destruct Ib as [<-|[<-|[<-|[]]]]; try reflexivity;
    vm_compute in E; discriminate.
Qed.

Lemma toy_hist_fits : hist_fits toy_cfg [] toy_ops_r.
Proof. vm_compute. repeat split. Qed.

(* the hypotheses of the theorem are satisfiable *)
Example toy_restart_theorem_instance :
  exists os0 outs hd' w',
    run_ops StoreHist.toyH None (OpOpen toy_cfg false :: toy_ops_r) (init_world empty_fs None)
    = ((OutOpened os0 :: outs, Some hd'), w') /\
    strip_restarts toy_ops_r outs = spec_outs StoreHist.toyH toy_cfg [] (erase_restarts toy_ops_r) /\
    opens_ok toy_ops_r outs.
Proof.
  destruct (C02_restart_transparent StoreHist.toyH StoreHist.toyH_len StoreHist.toyH_byte toy_cfg
              eq_refl toy_ops_r eq_refl)
    as (os0 & outs & hd' & w' & E & _ & St & Op & _).
  - reflexivity.
  - exact toy_hist_r.
  - exact toy_nocollide_r.
  - exact toy_hist_fits.
  - reflexivity.
  - exists os0, outs, hd', w'. split; [exact E|]. split; assumption.
Qed.

Print Assumptions toy_restart_run_matches_spec.
Print Assumptions toy_restart_theorem_instance.
