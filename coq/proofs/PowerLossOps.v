(* PowerLossOps.v -- power-loss durability in Sync mode (C09), part 2: every intermediate
   filesystem of a fault-free put / remove / remove_range / checkpoint / abort / close, issued
   in Sync mode on a handle whose relevant files are synced, survives power loss for EVERY
   victim set: recovery yields the old map or the new map.

   The crash-atomicity theorems of CrashOps.v give "old map or new map" for every intermediate
   filesystem; the logic of PowerLoss.v adds the sync status.  Only the staging part of put is
   followed through the list of its calls (put_stage_syn): there the relevant set grows (the
   blob of the new content becomes relevant when it is renamed into cas/, fully synced). *)
From Cas Require Import History.
From CasProofs Require Import BaseProofs SMapProofs StoreFS WorldRel StoreRun StoreInv CrashInv
  CrashOps PowerLoss.
Open Scope N_scope.


Section OpsTriples.
  Variable H : bytes -> bytes.
  Variable cfg : config.
  Variable C : Ctx.
  Hypothesis JpWal : forall i, cJp C (PWal i).
  Hypothesis Tmp : forall p, tmp_path p -> ~ cR C p /\ cJp C p.
  Let cmp := key_cmp (c_kt cfg).

  Local Notation R := (cR C).
  Local Notation HR := (HR C).
  Local Notation Good := (SynOn (cR C)).
  Local Notation OkGood := (fun r x => match fst r with Ok _ => SynOn (cR C) x | Err _ => True end).

  Lemma hr_remove : forall m k, (forall s b, writer (mwal m) = Some (s, b) -> b = []) ->
    HR Good (remove H cfg m k) OkGood.
  Proof.
    intros m k Hb. unfold remove. destruct (sm_get _ (km (idx m)) k); [|apply hr_ret; cbn [fst]; auto].
    eapply hr_bind; [apply (hr_log_and_apply H cfg C JpWal Tmp m _ Hb)|].
    intros [[u|e] m']; cbv beta iota; cbn [fst]; apply hr_ret; cbn [fst]; auto.
  Qed.

  Lemma hr_remove_range : forall m lo hi, (forall s b, writer (mwal m) = Some (s, b) -> b = []) ->
    HR Good (remove_range H cfg m lo hi) OkGood.
  Proof.
    intros m lo hi Hb. unfold remove_range.
    match goal with |- @PowerLoss.HR _ _ _ (if ?c then _ else _) _ => destruct c end;
      [apply hr_ret; cbn [fst]; auto|].
    destruct (keys_in_range cfg m lo hi) as [|k0 ks]; [apply hr_ret; cbn [fst]; auto|].
    eapply hr_bind; [apply (hr_log_and_apply H cfg C JpWal Tmp m _ Hb)|].
    intros [[u|e] m']; cbv beta iota; cbn [fst]; apply hr_ret; cbn [fst]; auto.
  Qed.

  Lemma hr_checkpoint : forall m, HR Good (checkpoint cfg m) (fun _ => Good).
  Proof. intros m. unfold checkpoint. now apply (hr_checkpoint_inner cfg C Tmp). Qed.

  (* abort: only the transaction's own staging file is written *)
  Lemma hr_abort : forall m k chunks, HR Good (abort m k chunks) (fun _ => Good).
  Proof.
    intros m k chunks. unfold abort.
    apply hr_bind with
      (Mid := fun rp x => Good x /\ match rp with Ok p => ~ R p /\ cJp C p | Err _ => True end).
    - unfold new_staging. eapply hr_bind; [apply hr_get_fs|]. intros s. cbv beta zeta.
      eapply hr_bind; [apply (hr_call_mono C (CCreateExcl (PStaging (nstage s)))); exact I|].
      intros [u|e]; cbv beta iota; apply hr_ret; intros x Y; (split; [exact Y|]); [|exact I].
      now apply Tmp.
    - intros [p|e]; cbv beta iota; [|apply hr_ret; intros x [Y _]; exact Y].
      apply hr_pure.
      { apply (walkm_any (fun _ => True)); [exact (fun _ => I)|prog ltac:(exact I)]. }
      intros [Np Jpp].
      assert (App : forall b, HR Good (do_call (CAppend p b)) (fun _ => Good))
        by (intros b; now apply hr_call_append_tmp).
      assert (Unl : HR Good (do_call (CUnlink p)) (fun _ => Good)) by (apply hr_call_mono; exact I).
      apply hr_bind with (Mid := fun _ => Good).
      { destruct (bw_sim 0 chunks); [apply App|apply hr_ret; auto]. }
      intros [u|e]; cbv beta iota.
      + eapply hr_bind; [exact Unl|].
        intros r. cbv beta. apply hr_bind with (Mid := fun _ => Good); [|intros ?; apply hr_ret; auto].
        destruct r as [u2|e2]; [apply hr_ret; auto|].
        destruct (concat chunks); [apply hr_ret; auto|].
        destruct (bw_sim 0 chunks); [apply hr_ret; auto|apply App].
      + unfold drop_staging. apply hr_bind with (Mid := fun _ => Good).
        * eapply hr_bind; [exact Unl|]. intros ?. apply hr_ret. auto.
        * intros ?. apply hr_ret. auto.
  Qed.

  (* close: the sync of the active segment, if there is one *)
  Lemma hr_close : forall m, (forall s b, writer (mwal m) = Some (s, b) -> b = []) ->
    HR Good (close m) (fun _ => Good).
  Proof.
    intros m Hb. unfold close. destruct (writer (mwal m)) as [[s b]|] eqn:Wr; [|apply hr_ret; auto].
    rewrite (Hb s b eq_refl). eapply hr_bind; [|intros r; apply hr_ret; exact (fun x Y => Y)].
    unfold writer_close. cbn [bw_flush]. apply hr_bind_ret. cbv beta iota.
    apply hr_seq; [apply hr_call_mono; exact I|intros _; apply hr_ret; auto|auto].
  Qed.
End OpsTriples.

Section PowerOps.
  Variable H : bytes -> bytes.
  Hypothesis H_len : forall b, length (H b) = 32%nat.
  Hypothesis H_byte : forall b, Forall (fun x => x < 256) (H b).
  Variable cfg : config.
  Hypothesis n_pos : 0 < c_n cfg.
  Hypothesis sync_on : c_sync cfg = true.          (* SyncMode::Sync *)
  Let cmp := key_cmp (c_kt cfg).

  Local Notation DX L := (L H H_len H_byte cfg n_pos) (only parsing).
  Local Notation NoCollide := (NoCollide H).
  Local Notation Inv' := (Inv' H cfg).
  Local Notation Rest := (Rest H cfg).
  Local Notation RestB := (RestB H cfg).
  Local Notation RestDB := (RestDB H cfg).
  Local Notation looked := (looked H).
  Local Notation Rel2 := (Rel2 H).
  Local Notation SyncedFor := (SyncedFor H).
  Local Notation RestSB := (RestSB H cfg).
  Local Notation CDB B sg sg' := (ctx_db H cfg B sg sg') (only parsing).

  (* the walked predicate: after power loss with ANY victim set, recovery yields the old map or
     the new map; moreover, when the victims include every segment file, the state after the
     loss is again a state of the sync-aware invariant (for the old or the new map) *)
  Definition PLD (B : N) (sg sg' : smap bytes) (x : fs) : Prop :=
    (forall victims, RestDB B sg sg' (lose victims x)) /\
    (forall victims, wal_victims victims ->
       RestSB B (lose victims x) sg \/ RestSB B (lose victims x) sg').

  Lemma pld_rest : forall B sg sg' x, PLD B sg sg' x ->
    forall victims, Rest (lose victims x) sg \/ Rest (lose victims x) sg'.
  Proof. intros B sg sg' x [P _] v. destruct (P v) as [X|X]; [left|right]; eapply restb_rest; exact X. Qed.

  Lemma pls_pld : forall B sg sg' x, PLs (CDB B sg sg') x -> PLD B sg sg' x.
  Proof.
    intros B sg sg' x [P Jx]. split; [exact P|]. intros v Hv.
    pose proof (js_lose H sg sg' x v Jx Hv) as Y.
    destruct (P v) as [X|X]; [left|right]; (split; [exact X|]);
      [exact (syncedfor_l H _ _ _ Y)|exact (syncedfor_r H _ _ _ Y)].
  Qed.

  Lemma pld_same : forall B sg x, PLD B sg sg x ->
    (forall v, RestB B (lose v x) sg) /\ (forall v, wal_victims v -> RestSB B (lose v x) sg).
  Proof.
    intros B sg x [P Q]. split; [intros v; now destruct (P v)|intros v Hv; now destruct (Q v Hv)].
  Qed.

  (* what a triple adds to a run whose crash atomicity is known *)
  Lemma run_db : forall B sg sg' {A} (m : M A) (Post : A -> fs -> Prop) w a w',
    HR (CDB B sg sg') (SynOn (Rel2 sg sg')) m Post -> wfault w = None -> m w = (a, w') ->
    Along (RestDB B sg sg') w w' -> SynOn (Rel2 sg sg') (wfs w) ->
    Walk (PLD B sg sg') w w' /\ Post a (wfs w').
  Proof.
    intros B sg sg' A m Post w a w' Hm F E K Y.
    destruct (hr_run (CDB B sg sg') m Post w a w' Hm F E K Y) as [KP Po]. split; [|exact Po].
    eapply walk_weaken; [|exact KP]. apply pls_pld.
  Qed.

  (* a state of the invariant whose relevant files are synced *)
  Lemma stab_pld : forall B sg sg' x, RestB B x sg -> SyncedFor sg x -> PLD B sg sg' x.
  Proof.
    intros B sg sg' x Rx Y.
    assert (Px : PLD B sg sg x).
    { apply pls_pld, (pls_synced (CDB B sg sg)); [now left|]. apply synced_sub; auto. }
    destruct (pld_same _ _ _ Px) as [P Q].
    split; [intros v; left; apply P|intros v Hv; left; now apply Q].
  Qed.

  (* operations that lead from sg to a map sg' within sg (removals; sg itself): the triple of the
     program, run on the walk that crash atomicity gives *)
  Lemma sync_db : forall B sg sg' {A} (p : M A) (Post : A -> fs -> Prop) w a w',
    (forall e, In e sg' -> In e sg) ->
    HR (CDB B sg sg') (SynOn (Rel2 sg sg')) p Post -> (forall x, Post a x -> SynOn (Rel2 sg sg') x) ->
    wfault w = None -> p w = (a, w') -> Along (RestDB B sg sg') w w' -> SyncedFor sg (wfs w) ->
    Walk (PLD B sg sg') w w' /\ SyncedFor sg' (wfs w').
  Proof.
    intros B sg sg' A p Post w a w' Sub Hp HPost F E K Y.
    destruct (run_db B sg sg' p _ w a w' Hp F E K (synced_sub H _ _ _ Sub Y)) as [KP Po].
    split; [exact KP|exact (syncedfor_r H _ _ _ (HPost _ Po))].
  Qed.

  Lemma sync_same : forall B sg {A} (p : M A) w a w',
    HR (CDB B sg sg) (SynOn (Rel2 sg sg)) p (fun _ => SynOn (Rel2 sg sg)) ->
    wfault w = None -> p w = (a, w') -> Along (fun x => RestB B x sg) w w' -> SyncedFor sg (wfs w) ->
    Walk (PLD B sg sg) w w' /\ SyncedFor sg (wfs w').
  Proof.
    intros B sg A p w a w' Hp F E K Y.
    apply (sync_db B sg sg p _ w a w' (fun e Ie => Ie) Hp (fun x P => P) F E); [|exact Y].
    eapply along_weaken; [|exact K]. intros x Rx. now left.
  Qed.

  (* the sync status along remove, remove_range, checkpoint, abort, close *)
  Lemma remove_sync : forall m sg k w r m' w' B,
    Inv' m (wfs w) sg -> SyncedFor sg (wfs w) -> wfault w = None ->
    remove H cfg m k w = ((Ok r, m'), w') -> Along (RestDB B sg (sm_del cmp sg k)) w w' ->
    Walk (PLD B sg (sm_del cmp sg k)) w w' /\ SyncedFor (sm_del cmp sg k) (wfs w').
  Proof.
    intros m sg k w r m' w' B IV Y F E K.
    refine (sync_db B sg _ _ _ w (Ok r, m') w' _
              (hr_remove H cfg _ (ctx_db_wal H cfg B _ _) (ctx_db_tmp H cfg B _ _) m k
                 (inv'_buf H cfg _ _ _ IV))
              (fun x P => P) F E K Y).
    intros e. apply (In_sm_del _).
  Qed.

  Lemma remove_range_sync : forall m sg lo hi w r m' w' B,
    Inv' m (wfs w) sg -> SyncedFor sg (wfs w) -> wfault w = None ->
    remove_range H cfg m lo hi w = ((Ok r, m'), w') ->
    let sg' := filter (fun e => negb (in_range cmp lo hi (fst e))) sg in
    Along (RestDB B sg sg') w w' -> Walk (PLD B sg sg') w w' /\ SyncedFor sg' (wfs w').
  Proof.
    intros m sg lo hi w r m' w' B IV Y F E sg' K.
    refine (sync_db B sg sg' _ _ w (Ok r, m') w' _
              (hr_remove_range H cfg _ (ctx_db_wal H cfg B _ _) (ctx_db_tmp H cfg B _ _) m lo hi
                 (inv'_buf H cfg _ _ _ IV))
              (fun x P => P) F E K Y).
    intros e Ie. apply filter_In in Ie. tauto.
  Qed.

  Lemma checkpoint_sync : forall m sg w a w' B, SyncedFor sg (wfs w) -> wfault w = None ->
    checkpoint cfg m w = (a, w') -> Along (fun x => RestB B x sg) w w' ->
    Walk (PLD B sg sg) w w' /\ SyncedFor sg (wfs w').
  Proof.
    intros m sg w a w' B Y F E K.
    exact (sync_same B sg _ w a w' (hr_checkpoint cfg _ (ctx_db_tmp H cfg B _ _) m) F E K Y).
  Qed.

  Lemma abort_sync : forall m sg k chunks w a w' B, SyncedFor sg (wfs w) -> wfault w = None ->
    abort m k chunks w = (a, w') -> Along (fun x => RestB B x sg) w w' ->
    Walk (PLD B sg sg) w w' /\ SyncedFor sg (wfs w').
  Proof.
    intros m sg k chunks w a w' B Y F E K.
    exact (sync_same B sg _ w a w' (hr_abort _ (ctx_db_tmp H cfg B _ _) m k chunks) F E K Y).
  Qed.

  Lemma close_sync : forall m sg w a w' B,
    Inv' m (wfs w) sg -> SyncedFor sg (wfs w) -> wfault w = None ->
    close m w = (a, w') -> Along (fun x => RestB B x sg) w w' ->
    Walk (PLD B sg sg) w w' /\ SyncedFor sg (wfs w').
  Proof.
    intros m sg w a w' B IV Y F E K.
    exact (sync_same B sg _ w a w' (hr_close _ m (inv'_buf H cfg _ _ _ IV)) F E K Y).
  Qed.

  (* put: recovery of the map after a put reads one more file at most: the blob of the new content *)
  Lemma looked_ins : forall sg k c r, looked (sm_ins cmp sg k c) r -> looked sg r \/ r = cas_path (H c).
  Proof.
    intros sg k c [] L; try (left; exact L). destruct L as (k' & c' & Ik & ->).
    apply (In_sm_ins _) in Ik. destruct Ik as [Ik|Ik]; [inversion Ik; now right|left; now exists k', c'].
  Qed.

  (* the staging part of put, from the list of its calls: the staged blob is synced BEFORE it is
     renamed into cas/ -- also when it replaces the blob of a content that is already stored --
     so the files recovery reads for sg stay synced throughout, and at the end the blob of the
     new content is synced, too *)
  Lemma put_stage_syn : forall m sg chunks w w5,
    Ran (put_stage_calls H cfg m chunks (wfs w)) w w5 -> FsWf (wfs w) -> SyncedFor sg (wfs w) ->
    Walk (fun x => FsWf x /\ SynOn (looked sg) x) w w5 /\
    SynOn (fun r => looked sg r \/ r = cas_path (H (concat chunks))) (wfs w5).
  Proof.
    intros m sg chunks w w5 R W Y0. apply syncedfor_looked in Y0.
    unfold put_stage_calls in R. cbv zeta in R. rewrite sync_on in R.
    set (c := concat chunks) in *. set (p := PStaging (nstage (wfs w))) in *.
    set (q := cas_path (H c)) in *.
    set (M := if mpre m then [] else mkdir_cas2_calls _ _ (wfs w)) in R.
    assert (Np : ~ looked sg p) by (apply (looked_not_tmp H); exact I).
    assert (HM : forall S, Forall (syn_safe S) M).
    { intros S. assert (X : Forall is_mkdir M)
        by (unfold M; destruct (mpre m); [constructor|apply Forall_app; split; apply mkdir_calls_mkdir]).
      eapply Forall_impl; [|exact X]. now intros []. }
    rewrite app_assoc in R. apply ran_app_inv in R. destruct R as (w2 & R2 & R).
    apply ran_app_inv in R. destruct R as (w3 & R3 & R). apply ran_app_inv in R.
    destruct R as (w4 & R4 & R5).
    (* create, write *)
    assert (K2 : Walk (fun x => FsWf x /\ SynOn (looked sg) x) w w2).
    { apply (ran_syn _ _ _ _ R2); [|exact W|exact Y0]. apply Forall_app. split; [repeat constructor|].
      destruct c; repeat constructor. exact Np. }
    destruct (walk_end _ _ _ K2) as [W2 Y2].
    (* sync: the staged file is synced from here on *)
    assert (K3 : Walk (fun x => FsWf x /\ SynOn (looked sg) x) w2 w3)
      by (apply (ran_syn _ _ _ _ R3); [repeat constructor|exact W2|exact Y2]).
    destruct (walk_end _ _ _ K3) as [W3 Y3]. destruct (ran_okc _ _ _ R3) as (s3 & E3 & X3).
    assert (Y3' : SynOn (fun r => looked sg r \/ r = p) (wfs w3)).
    { intros r [Rr| ->]; [now apply Y3|]. rewrite X3. apply (syn_call _ _ _ p W2 E3). now left. }
    (* the fan-out directories *)
    pose proof (ran_syn _ _ _ _ R4 (HM _) W3 Y3') as K4. destruct (walk_end _ _ _ K4) as [W4 Y4].
    (* the rename *)
    destruct (ran_okc _ _ _ R5) as (s5 & E5 & X5).
    assert (Y5 : SynOn (fun r => looked sg r \/ r = q) (wfs w5)).
    { intros r Rr. rewrite X5. apply (syn_call _ _ _ r W4 E5).
      destruct (path_eqb_spec r q) as [->|N]; [apply Y4; now right|]. right.
      destruct Rr as [Rr|Rr]; [apply Y4; now left|contradiction]. }
    split; [|exact Y5].
    eapply walk_trans; [exact K2|]. eapply walk_trans; [exact K3|]. eapply walk_trans.
    - eapply walk_weaken; [|exact K4]. intros x [Wx Yx]. split; [exact Wx|].
      intros r Rr. apply Yx. now left.
    - apply (ran_walk _ _ _ _ R5). split; [split; [exact W4|intros r Rr; apply Y4; now left]|].
      intros s1 E1. rewrite E5 in E1. inversion E1; subst s1. split; [|exact I]. rewrite <- X5.
      split; [rewrite X5; eapply apply_call_wf; eassumption|]. intros r Rr. apply Y5. now left.
  Qed.

  (* [len k + 45]: the length of the record of the put (DiskInv.len_enc_put: tag 1, key length 4,
     hash 32, size 8), which must fit the 32-bit length field of the frame *)
  Theorem put_powerloss' : forall m s sg k chunks w,
    Inv' m s sg -> SyncedFor sg s -> wfs w = s -> wfault w = None ->
    NoCollide (concat chunks :: map snd sg) ->
    len k + 45 < 2 ^ 32 -> key_valid (c_kt cfg) k = true -> len (concat chunks) < 2 ^ 64 ->
    N.of_nat (length sg) + 1 < 2 ^ 32 -> nextv (mwal m) < 2 ^ 64 ->
    exists m' w', put H cfg m k chunks w = ((Ok tt, m'), w') /\ wfault w' = None /\
                  Inv' m' (wfs w') (sm_ins cmp sg k (concat chunks)) /\
                  SyncedFor (sm_ins cmp sg k (concat chunks)) (wfs w') /\
                  nextv (mwal m') = nextv (mwal m) + 1 /\
                  Walk (PLD (nextv (mwal m) + 1) sg (sm_ins cmp sg k (concat chunks))) w w'.
  Proof.
    intros m s sg k chunks w IV Y Ws F NC Lk Vk Lc Ln Lv.
    destruct (DX put_crash_split m s sg k chunks w IV Ws F NC Lk Vk Lc Ln Lv)
      as (w5 & m' & w' & E5 & E & F5 & R5 & K5 & K & IV' & Nv).
    cbv zeta in *. subst s. set (sg' := sm_ins cmp sg k (concat chunks)) in *.
    (* staging: sg stays recoverable and its files synced; then the blob is in place, synced *)
    destruct (put_stage_syn m sg chunks w w5 R5 (proj2 (proj2 IV)) Y) as [KS Y5].
    assert (Y5' : SynOn (Rel2 sg sg') (wfs w5))
      by (intros r [Rr|Rr]; apply Y5; [now left|exact (looked_ins _ _ _ _ Rr)]).
    (* logging: the triple of log_and_apply *)
    destruct (run_db _ sg sg' (log_and_apply H cfg m _) _ w5 _ w'
                (hr_log_and_apply H cfg _ (ctx_db_wal H cfg _ sg sg') (ctx_db_tmp H cfg _ sg sg') m _
                   (inv'_buf H cfg _ _ _ IV)) F5 E (walk_along _ _ _ K) Y5') as [KP Po].
    exists m', w'. split; [now rewrite E5|]. split; [exact (walk_fault _ _ _ K)|].
    split; [exact IV'|]. split; [exact (syncedfor_r H _ _ _ Po)|]. split; [exact Nv|].
    eapply walk_trans; [|exact KP]. eapply walk_weaken; [|exact (walk_conj _ _ _ _ K5 KS)].
    intros x [Rx [_ Yx]]. apply stab_pld; [exact Rx|now apply syncedfor_looked].
  Qed.

  (* the same as a statement about every intermediate filesystem (Along), from Inv' (or Inv) *)
  Definition PL2 (sg sg' : smap bytes) (x : fs) : Prop :=
    forall victims, Rest (lose victims x) sg \/ Rest (lose victims x) sg'.
  Definition PL1 (sg : smap bytes) (x : fs) : Prop := forall victims, Rest (lose victims x) sg.

  Lemma walk_pld_along : forall B sg sg' w w', Walk (PLD B sg sg') w w' -> Along (PL2 sg sg') w w'.
  Proof.
    intros B sg sg' w w' K. eapply along_weaken; [|exact (walk_along _ _ _ K)].
    intros x Px. exact (pld_rest _ _ _ _ Px).
  Qed.

  Lemma walk_pld_along1 : forall B sg w w', Walk (PLD B sg sg) w w' -> Along (PL1 sg) w w'.
  Proof.
    intros B sg w w' K. eapply along_weaken; [|exact (walk_along _ _ _ K)].
    intros x Px v. exact (restb_rest H cfg _ _ _ (proj1 (pld_same _ _ _ Px) v)).
  Qed.

  Theorem put_powerloss : forall m s sg k chunks w,
    Inv' m s sg -> SyncedFor sg s -> wfs w = s -> wfault w = None ->
    NoCollide (concat chunks :: map snd sg) ->
    len k + 45 < 2 ^ 32 -> key_valid (c_kt cfg) k = true -> len (concat chunks) < 2 ^ 64 ->
    N.of_nat (length sg) + 1 < 2 ^ 32 -> nextv (mwal m) < 2 ^ 64 ->
    exists m' w', put H cfg m k chunks w = ((Ok tt, m'), w') /\
      Along (PL2 sg (sm_ins cmp sg k (concat chunks))) w w'.
  Proof.
    intros m s sg k chunks w IV Y Ws F NC Lk Vk Lc Ln Lv.
    destruct (put_powerloss' m s sg k chunks w IV Y Ws F NC Lk Vk Lc Ln Lv)
      as (m' & w' & E & _ & _ & _ & _ & K).
    exists m', w'. split; [exact E|exact (walk_pld_along _ _ _ _ _ K)].
  Qed.

  Theorem remove_powerloss : forall m s sg k w,
    Inv' m s sg -> SyncedFor sg s -> wfs w = s -> wfault w = None -> nextv (mwal m) < 2 ^ 64 ->
    exists r m' w', remove H cfg m k w = ((Ok r, m'), w') /\
      Along (PL2 sg (sm_del cmp sg k)) w w'.
  Proof.
    intros m s sg k w IV Y Ws F Lv.
    destruct (DX remove_crash' m s sg k w IV Ws F Lv) as (m' & w' & E & _ & _ & _ & K).
    eexists _, m', w'. split; [exact E|]. subst s.
    apply (walk_pld_along (nextv (mwal m) + 1)).
    exact (proj1 (remove_sync m sg k w _ m' w' _ IV Y F E (walk_along _ _ _ K))).
  Qed.

  Theorem remove_range_powerloss : forall m s sg lo hi w,
    Inv' m s sg -> SyncedFor sg s -> wfs w = s -> wfault w = None ->
    (nonempty (km (idx m)) && range_panics cmp lo hi) = false ->
    let inr := fun e : bytes * bytes => in_range cmp lo hi (fst e) in
    len (enc_op (RRemove (map fst (filter inr sg)))) < 2 ^ 32 -> nextv (mwal m) < 2 ^ 64 ->
    exists r m' w', remove_range H cfg m lo hi w = ((Ok r, m'), w') /\
      Along (PL2 sg (filter (fun e => negb (inr e)) sg)) w w'.
  Proof.
    intros m s sg lo hi w IV Y Ws F NP inr Lp Lv.
    destruct (DX remove_range_crash' m s sg lo hi w IV Ws F NP Lp Lv) as (m' & w' & E & _ & _ & _ & K).
    eexists _, m', w'. split; [exact E|]. subst s.
    apply (walk_pld_along (nextv (mwal m) + 1)).
    exact (proj1 (remove_range_sync m sg lo hi w _ m' w' _ IV Y F E (walk_along _ _ _ K))).
  Qed.

  Theorem checkpoint_powerloss : forall m s sg w,
    Inv' m s sg -> SyncedFor sg s -> wfs w = s -> wfault w = None ->
    exists m' w', checkpoint cfg m w = ((Ok tt, m'), w') /\ Along (PL1 sg) w w'.
  Proof.
    intros m s sg w IV Y Ws F.
    destruct (DX checkpoint_crash' m s sg w IV Ws F) as (m' & w' & E & _ & _ & _ & K).
    exists m', w'. split; [exact E|]. subst s.
    apply (walk_pld_along1 (nextv (mwal m))).
    exact (proj1 (checkpoint_sync m sg w _ w' _ Y F E (walk_along _ _ _ K))).
  Qed.

  Theorem abort_powerloss : forall m s sg k chunks w,
    Inv' m s sg -> SyncedFor sg s -> wfs w = s -> wfault w = None ->
    exists w', abort m k chunks w = ((Ok tt, m), w') /\ Along (PL1 sg) w w'.
  Proof.
    intros m s sg k chunks w IV Y Ws F.
    destruct (DX abort_crash' m s sg k chunks w IV Ws F) as (w' & E & _ & _ & K).
    exists w'. split; [exact E|]. subst s.
    apply (walk_pld_along1 (nextv (mwal m))).
    exact (proj1 (abort_sync m sg k chunks w _ w' _ Y F E (walk_along _ _ _ K))).
  Qed.

  Theorem close_powerloss : forall m s sg w,
    Inv' m s sg -> SyncedFor sg s -> wfs w = s -> wfault w = None ->
    exists w', close m w = (tt, w') /\ Along (PL1 sg) w w'.
  Proof.
    intros m s sg w IV Y Ws F.
    destruct (DX close_crash' m s sg w IV Ws F) as (w' & E & _ & _ & K).
    exists w'. split; [exact E|]. subst s.
    apply (walk_pld_along1 (nextv (mwal m))).
    exact (proj1 (close_sync m sg w _ w' _ IV Y F E (walk_along _ _ _ K))).
  Qed.
End PowerOps.

Print Assumptions put_powerloss'.
Print Assumptions put_powerloss.
Print Assumptions remove_powerloss.
Print Assumptions remove_range_powerloss.
Print Assumptions checkpoint_powerloss.
Print Assumptions abort_powerloss.
Print Assumptions close_powerloss.
