(* SettingsGate.v -- C19: the settings / format-version gate of open_with_recover / open_store
   (fault-free worlds): a wrong num_ops_per_wal, a wrong format version or an unparsable
   settings file is rejected before anything is modified; the only recorded call is the
   (idempotent) creation of the LOCK file; a rejected open is invisible to later programs;
   a matching open takes `pre` from the STORED settings; first-time creation stores the
   configured choice. *)
From Cas Require Import History.
From CasProofs Require Import StoreFS StoreRun StoreWrite StoreHist Recover WorldRel
  PreTree.
Open Scope N_scope.

Lemma set_path_same : forall l p f, lookup l p = Some f -> set_path l p f = l.
Proof.
  induction l as [|[q g] l IH]; intros p f E; cbn [lookup set_path] in *; [discriminate|].
  destruct (path_eqb p q) eqn:Q.
  - now inversion E.
  - now rewrite IH.
Qed.

Lemma with_files_same : forall s, with_files s (files s) = s.
Proof. now intros [fl ds ns]. Qed.

Lemma upd_same : forall s p f, fget s p = Some f -> upd s p f = s.
Proof. intros s p f E. unfold upd. rewrite set_path_same by exact E. apply with_files_same. Qed.

(* a directory that was opened before: both top-level directories exist, LOCK exists, empty *)
Definition gate_ready (s : fs) : Prop :=
  has_dir s [s_staging] = true /\ has_dir s [s_cas] = true /\ fget s PLock = Some (mkFile [] 0).

Definition fs_same (s s' : fs) : Prop :=
  files s' = files s /\ dirs s' = dirs s /\ nstage s' = nstage s.

Lemma fs_same_eq : forall s s', fs_same s s' <-> s' = s.
Proof.
  intros [a b c] [a' b' c']. unfold fs_same. cbn [files dirs nstage]. split.
  - intros (-> & -> & ->). reflexivity.
  - intros E. inversion E. auto.
Qed.

(* creating the LOCK file of a directory that was opened before changes nothing *)
Lemma create_lock_noop : forall s, gate_ready s -> apply_call (CCreate PLock) s = Ok s.
Proof.
  intros s (_ & _ & L). cbn [apply_call parent_ok parent_dir].
  change (with_files s (set_path (files s) PLock (mkFile [] 0))) with (upd s PLock (mkFile [] 0)).
  now rewrite upd_same.
Qed.

(* the world after the (only) recorded call of a gate-ready open *)
Definition w_locked (w : world) : world :=
  mkWorld (wfs w) (TCall (CCreate PLock) :: wtrace w) (S (wcount w)) None.

(* open_with_recover = mkdirs ; lock ; settings gate ; index load *)
Section Gate.
  Variable H : bytes -> bytes.
  Variable cfg : config.

  (* the front of open_with_recover, with what follows it as a parameter *)
  Definition open_front {A} (k : M (res serr A)) : M (res serr A) :=
    do! r <- mkdir_p [s_staging] ;;
    match r with Err _ => ret (Err EStagingDir) | Ok _ =>
    do! r <- mkdir_p [s_cas] ;;
    match r with Err _ => ret (Err ECasDir) | Ok _ =>
    do! r <- do_call (CCreate PLock) ;;
    match r with Err _ => ret (Err ELockFile) | Ok _ => k end end end.

  (* by computation: in every world, under any fault plan *)
  Lemma open_with_recover_factor : open_with_recover H cfg = open_front (open_tail H cfg).
  Proof. reflexivity. Qed.

  Lemma open_front_ready : forall {A} (k : M (res serr A)) w,
    gate_ready (wfs w) -> wfault w = None -> open_front k w = k (w_locked w).
  Proof.
    intros A k w G F. pose proof G as (D1 & D2 & L). unfold open_front.
    rewrite (bind_eq _ _ _ _ _ (mkdir_p_exists _ _ D1)).
    rewrite (bind_eq _ _ _ _ _ (mkdir_p_exists _ _ D2)).
    exact (bind_eq _ _ _ _ _ (do_call_ok _ _ _ F (create_lock_noop _ G))).
  Qed.

  (* in a directory that was opened before, open_with_recover is: record CCreate PLock
     (filesystem unchanged), then the settings gate and the index load *)
  Theorem open_gate_ready : forall w, gate_ready (wfs w) -> wfault w = None ->
    open_with_recover H cfg w = open_tail H cfg (w_locked w).
  Proof. intros w G F. rewrite open_with_recover_factor. now apply open_front_ready. Qed.

  (* the front in a fault-free world: the two directories appear (w2), then LOCK is created or
     truncated (w3) *)
  Lemma open_front_ok : forall {A} (k : M (res serr A)) w, wfault w = None ->
    exists w2 w3, open_front k w = k w3 /\ Grow w w2 /\
      has_dir (wfs w2) [s_staging] = true /\ has_dir (wfs w2) [s_cas] = true /\
      wfs w3 = upd (wfs w2) PLock (mkFile [] 0) /\ Step (eq PLock) (ev_on (eq PLock)) w2 w3.
  Proof.
    intros A k w F. unfold open_front.
    destruct (mkdir_p_ok [s_staging] w F (or_introl eq_refl)) as (w1 & E1 & G1 & D1).
    rewrite (bind_eq _ _ _ _ _ E1).
    destruct (mkdir_p_ok [s_cas] w1 (proj1 (gr_ext _ _ G1)) (or_introl eq_refl))
      as (w2 & E2 & G2 & D2).
    rewrite (bind_eq _ _ _ _ _ E2).
    destruct (call_create (eq PLock) w2 PLock (proj1 (gr_ext _ _ G2)) eq_refl eq_refl)
      as (w3 & E3 & W3 & S3).
    exists w2, w3. split; [exact (bind_eq _ _ _ _ _ E3)|].
    split; [exact (grow_trans _ _ _ G1 G2)|]. split; [exact (gr_dirs _ _ G2 _ D1)|]. now split.
  Qed.

  (* first-time creation in a fault-free world: the fan-out tree if configured (wp), then the
     settings file with the configured choice (w4) *)
  Lemma settings_gate_fresh : forall w, wfault w = None -> fget (wfs w) PSettings = None ->
    has_dir (wfs w) [s_cas] = true ->
    exists wp w4, settings_gate cfg w = (Ok (c_pre cfg), w4) /\ Grow w wp /\
      (c_pre cfg = true -> PreDirs (wfs wp)) /\
      Step (fun q => q = PSettings \/ q = PSettingsTmp)
           (ev_on (fun q => q = PSettings \/ q = PSettingsTmp)) wp w4 /\
      exists f, fget (wfs w4) PSettings = Some f /\
                fdata f = enc_settings CURRENT_DB_VERSION (c_pre cfg) (c_n cfg).
  Proof.
    intros w F G Dc. unfold settings_gate. unfold bind at 1, read_file at 1. rewrite G.
    assert (P : exists wp, (if c_pre cfg then pre_create_all else ret (Ok tt)) w = (Ok tt, wp) /\
                           Grow w wp /\ (c_pre cfg = true -> PreDirs (wfs wp))).
    { destruct (c_pre cfg).
      - destruct (pre_create_all_ok w F Dc) as (wp & E & Gp & Pp). exists wp. auto.
      - exists w. split; [reflexivity|]. split; [now apply grow_refl|discriminate]. }
    destruct P as (wp & Ep & Gp & Pp). rewrite (bind_eq _ _ _ _ _ Ep).
    destruct (atomic_write_does PSettings PSettingsTmp
                (enc_settings CURRENT_DB_VERSION (c_pre cfg) (c_n cfg)) wp
                (proj1 (gr_ext _ _ Gp)) eq_refl eq_refl) as (w4 & E4 & R4).
    rewrite (bind_eq _ _ _ _ _ E4). exists wp, w4.
    split; [reflexivity|]. split; [exact Gp|]. split; [exact Pp|]. split.
    - apply (ran_step _ _ _ _ R4), aw_calls_in; auto.
    - exact (aw_calls_holds _ _ _ _ _ (ran_okc _ _ _ R4)).
  Qed.

  Lemma read_settings : forall w f, fget (wfs w) PSettings = Some f ->
    read_file PSettings (w_locked w) = (Some (fdata f), w_locked w).
  Proof. intros w f E. unfold read_file. cbn [w_locked wfs]. now rewrite E. Qed.

  (* the gate itself, on stored settings *)
  Lemma settings_gate_stored : forall w f, fget (wfs w) PSettings = Some f ->
    settings_gate cfg (w_locked w) =
    (match dec_settings (fdata f) with
     | None => Err ESettingsParse
     | Some (ver, pre, n) =>
       if negb (ver =? CURRENT_DB_VERSION) then Err ESettingsVersion
       else if negb (n =? c_n cfg) then Err ESettingsN else Ok pre
     end, w_locked w).
  Proof.
    intros w f E. unfold settings_gate. rewrite (bind_eq _ _ _ _ _ (read_settings w f E)).
    destruct (dec_settings (fdata f)) as [[[ver pre] n]|]; [|reflexivity].
    destruct (negb (ver =? CURRENT_DB_VERSION)); [reflexivity|].
    destruct (negb (n =? c_n cfg)); reflexivity.
  Qed.

  (* the stored settings are unacceptable for cfg, with the error the gate reports *)
  Definition settings_bad (f : file) (e : serr) : Prop :=
    (exists pre n, dec_settings (fdata f) = Some (CURRENT_DB_VERSION, pre, n) /\ n <> c_n cfg /\
                   e = ESettingsN) \/
    (exists v pre n, dec_settings (fdata f) = Some (v, pre, n) /\ v <> CURRENT_DB_VERSION /\
                     e = ESettingsVersion) \/
    (dec_settings (fdata f) = None /\ e = ESettingsParse).

  (* all rejections in one statement: both entry points return the gate's error from the world
     in which only CCreate PLock has been recorded *)
  Lemma rejected_exact : forall w f e, gate_ready (wfs w) -> wfault w = None ->
    fget (wfs w) PSettings = Some f -> settings_bad f e ->
    open_with_recover H cfg w = (Err e, w_locked w) /\ open_store H cfg w = (Err e, w_locked w).
  Proof.
    intros w f e G F E B.
    assert (SG : settings_gate cfg (w_locked w) = (Err e, w_locked w)).
    { rewrite (settings_gate_stored w f E).
      destruct B as [(pre & n & -> & Nn & ->)|[(v & pre & n & -> & Nv & ->)|(-> & ->)]].
      - apply N.eqb_neq in Nn. now rewrite N.eqb_refl, Nn.
      - apply N.eqb_neq in Nv. now rewrite Nv.
      - reflexivity. }
    assert (X : open_with_recover H cfg w = (Err e, w_locked w)).
    { rewrite (open_gate_ready w G F). unfold open_tail. now rewrite (bind_eq _ _ _ _ _ SG). }
    split; [exact X|]. unfold open_store. now rewrite (bind_eq _ _ _ _ _ X).
  Qed.

  Section Rejected.
    Variables (s : fs) (w : world) (f : file).
    Hypothesis Ws : wfs w = s.
    Hypothesis Wf : wfault w = None.
    Hypothesis Gr : gate_ready s.
    Hypothesis Fs : fget s PSettings = Some f.

    (* in all three rejections (both entry points) the only recorded call is CCreate PLock,
       the filesystem is unchanged, and the rejection is one of the three settings errors *)
    Theorem C19_trace : forall e, settings_bad f e ->
      (exists w', open_with_recover H cfg w = (Err e, w') /\ wfs w' = s /\ wfault w' = None /\
                  wtrace w' = [TCall (CCreate PLock)] ++ wtrace w /\ wcount w' = S (wcount w)) /\
      (exists w', open_store H cfg w = (Err e, w') /\ wfs w' = s /\ wfault w' = None /\
                  wtrace w' = [TCall (CCreate PLock)] ++ wtrace w /\ wcount w' = S (wcount w)).
    Proof.
      intros e B. subst s. destruct (rejected_exact w f e Gr Wf Fs B) as [X Y].
      split; exists (w_locked w); (split; [assumption|]); repeat split.
    Qed.

    Theorem C19_wrong_n : forall pre n,
      dec_settings (fdata f) = Some (CURRENT_DB_VERSION, pre, n) -> n <> c_n cfg ->
      exists w', open_with_recover H cfg w = (Err ESettingsN, w') /\ wfs w' = s /\ wfault w' = None.
    Proof.
      intros pre n D Nn. destruct (C19_trace ESettingsN) as [(w' & A & B & C & _) _]; [left; exists pre, n; auto|].
      exists w'. auto.
    Qed.
    Theorem C19_wrong_n_open_store : forall pre n,
      dec_settings (fdata f) = Some (CURRENT_DB_VERSION, pre, n) -> n <> c_n cfg ->
      exists w', open_store H cfg w = (Err ESettingsN, w') /\ wfs w' = s /\ wfault w' = None.
    Proof.
      intros pre n D Nn. destruct (C19_trace ESettingsN) as [_ (w' & A & B & C & _)]; [left; exists pre, n; auto|].
      exists w'. auto.
    Qed.

    Theorem C19_wrong_version : forall v pre n,
      dec_settings (fdata f) = Some (v, pre, n) -> v <> CURRENT_DB_VERSION ->
      exists w', open_with_recover H cfg w = (Err ESettingsVersion, w') /\ wfs w' = s /\ wfault w' = None.
    Proof.
      intros v pre n D Nv.
      destruct (C19_trace ESettingsVersion) as [(w' & A & B & C & _) _]; [right; left; exists v, pre, n; auto|].
      exists w'. auto.
    Qed.
    Theorem C19_wrong_version_open_store : forall v pre n,
      dec_settings (fdata f) = Some (v, pre, n) -> v <> CURRENT_DB_VERSION ->
      exists w', open_store H cfg w = (Err ESettingsVersion, w') /\ wfs w' = s /\ wfault w' = None.
    Proof.
      intros v pre n D Nv.
      destruct (C19_trace ESettingsVersion) as [_ (w' & A & B & C & _)]; [right; left; exists v, pre, n; auto|].
      exists w'. auto.
    Qed.

    Theorem C19_unparsable : dec_settings (fdata f) = None ->
      exists w', open_with_recover H cfg w = (Err ESettingsParse, w') /\ wfs w' = s /\ wfault w' = None.
    Proof.
      intros D. destruct (C19_trace ESettingsParse) as [(w' & A & B & C & _) _]; [right; right; auto|].
      exists w'. auto.
    Qed.
    Theorem C19_unparsable_open_store : dec_settings (fdata f) = None ->
      exists w', open_store H cfg w = (Err ESettingsParse, w') /\ wfs w' = s /\ wfault w' = None.
    Proof.
      intros D. destruct (C19_trace ESettingsParse) as [_ (w' & A & B & C & _)]; [right; right; auto|].
      exists w'. auto.
    Qed.
  End Rejected.

  (* a rejected open is invisible to whatever runs next: any program that respects the filesystem
     (Resp: all store programs, whole histories) gives the same result and the same filesystem
     from two fault-free worlds with equal filesystems *)
  Theorem same_fs_same_run : forall {A} (k : M A) w w', Resp k ->
    wfs w' = wfs w -> wfault w = None -> wfault w' = None ->
    fst (k w') = fst (k w) /\ wfs (snd (k w')) = wfs (snd (k w)) /\
    wfault (snd (k w')) = None /\ wfault (snd (k w)) = None.
  Proof.
    intros A k w w' R E F F'. destruct (R w' w (conj E (conj F' F))) as (X & Y & Z & V). auto.
  Qed.

  Theorem C19_rejected_open_invisible : forall {A} (k : M A) w f e, Resp k ->
    gate_ready (wfs w) -> wfault w = None -> fget (wfs w) PSettings = Some f -> settings_bad f e ->
    (let w' := snd (open_with_recover H cfg w) in
     fst (k w') = fst (k w) /\ wfs (snd (k w')) = wfs (snd (k w))) /\
    (let w' := snd (open_store H cfg w) in
     fst (k w') = fst (k w) /\ wfs (snd (k w')) = wfs (snd (k w))).
  Proof.
    intros A k w f e R G F E B. destruct (rejected_exact w f e G F E B) as [X Y].
    rewrite X, Y. cbn [snd].
    destruct (same_fs_same_run k w (w_locked w) R eq_refl F eq_refl) as (P1 & P2 & _). auto.
  Qed.
End Gate.

Section Gate2.
  Variable H : bytes -> bytes.
  Variable cfg : config.

  (* the same for a later open with any configuration cfg2 (in particular the right one), and
     for a whole later history *)
  Theorem C19_then_correct_open : forall cfg2 w f e,
    gate_ready (wfs w) -> wfault w = None -> fget (wfs w) PSettings = Some f ->
    settings_bad cfg f e ->
    let w' := snd (open_with_recover H cfg w) in
    fst (open_with_recover H cfg2 w') = fst (open_with_recover H cfg2 w) /\
    wfs (snd (open_with_recover H cfg2 w')) = wfs (snd (open_with_recover H cfg2 w)).
  Proof.
    intros cfg2 w f e G F E B.
    exact (proj1 (C19_rejected_open_invisible H cfg (open_with_recover H cfg2) w f e
                    (resp_open_with_recover H cfg2) G F E B)).
  Qed.

  Theorem C19_then_correct_open_store : forall cfg2 w f e,
    gate_ready (wfs w) -> wfault w = None -> fget (wfs w) PSettings = Some f ->
    settings_bad cfg f e ->
    let w' := snd (open_store H cfg w) in
    fst (open_store H cfg2 w') = fst (open_store H cfg2 w) /\
    wfs (snd (open_store H cfg2 w')) = wfs (snd (open_store H cfg2 w)).
  Proof.
    intros cfg2 w f e G F E B.
    exact (proj2 (C19_rejected_open_invisible H cfg (open_store H cfg2) w f e
                    (resp_open_store H cfg2) G F E B)).
  Qed.

  Theorem C19_then_any_history : forall ops hd w f e,
    gate_ready (wfs w) -> wfault w = None -> fget (wfs w) PSettings = Some f ->
    settings_bad cfg f e ->
    let w' := snd (open_with_recover H cfg w) in
    fst (run_ops H hd ops w') = fst (run_ops H hd ops w) /\
    wfs (snd (run_ops H hd ops w')) = wfs (snd (run_ops H hd ops w)).
  Proof.
    intros ops hd w f e G F E B.
    exact (proj1 (C19_rejected_open_invisible H cfg (run_ops H hd ops) w f e
                    (resp_run_ops H ops hd) G F E B)).
  Qed.

  (* a matching open takes `pre` from the stored settings *)
  Lemma index_load_mpre : forall pre w m w',
    index_load H cfg pre w = (Ok m, w') -> mpre m = pre.
  Proof.
    intros pre w m w'. unfold index_load. unfold bind at 1. unfold get_fs at 1. cbv zeta.
    match goal with |- match ?x with _ => _ end _ = _ -> _ => destruct x as [st0|e] end;
      [|discriminate].
    match goal with |- match ?x with _ => _ end _ = _ -> _ => destruct x as [[[st hi] cnt]|e] end;
      [|discriminate].
    unfold bind at 1.
    match goal with |- (let '(_, _) := ?x in _) = _ -> _ => destruct x as [[u|e] w1] end;
      [|discriminate].
    destruct (0 <? cnt).
    - unfold bind.
      match goal with |- (let '(_, _) := checkpoint_inner ?c ?r ?m0 ?w0 in _) = _ -> _ =>
        pose proof (checkpoint_inner_mem c r m0 w0) as (_ & _ & _ & _ & _ & CK);
        destruct (checkpoint_inner c r m0 w0) as [[[u2|e2] m'] w2] end; [|discriminate].
      intros X. inversion X. subst. exact CK.
    - intros X. inversion X. reflexivity.
  Qed.

  Lemma open_load_unfold : forall pre w,
    open_load H cfg pre w =
    (let (r, w2) := index_load H cfg pre w in
     match r with
     | Err e => (Err e, w2)
     | Ok m => (Ok (m, if c_scan cfg then Some (scan_orphans H m (wfs w2) (c_verify cfg)) else None), w2)
     end).
  Proof.
    intros pre w. unfold open_load, bind. destruct (index_load H cfg pre w) as [[m|e] w2]; reflexivity.
  Qed.

  Lemma open_load_mpre : forall pre w m os w',
    open_load H cfg pre w = (Ok (m, os), w') -> mpre m = pre.
  Proof.
    intros pre w m os w'. rewrite open_load_unfold.
    destruct (index_load H cfg pre w) as [[m0|e] w2] eqn:E; [|discriminate].
    intros X. inversion X. subst. exact (index_load_mpre _ _ _ _ E).
  Qed.

  Section SameN.
    Variables (s : fs) (w : world) (f : file) (pre_stored : bool).
    Hypothesis Ws : wfs w = s.
    Hypothesis Wf : wfault w = None.
    Hypothesis Gr : gate_ready s.
    Hypothesis Fs : fget s PSettings = Some f.
    Hypothesis Dec : dec_settings (fdata f) = Some (CURRENT_DB_VERSION, pre_stored, c_n cfg).

    (* the gate is passed without touching the filesystem; what remains is the index load with
       the STORED pre (not c_pre cfg) *)
    Theorem C19_same_n_passes_gate :
      exists w1, wfs w1 = s /\ wfault w1 = None /\
                 wtrace w1 = [TCall (CCreate PLock)] ++ wtrace w /\
                 open_with_recover H cfg w = open_load H cfg pre_stored w1.
    Proof.
      subst s. exists (w_locked w). repeat split.
      rewrite (open_gate_ready H cfg w Gr Wf). unfold open_tail.
      pose proof (settings_gate_stored cfg w f Fs) as SG. rewrite Dec in SG.
      rewrite !N.eqb_refl in SG. cbn [negb] in SG.
      now rewrite (bind_eq _ _ _ _ _ SG).
    Qed.

    Theorem C19_same_n_opens_settings : forall m os w',
      open_with_recover H cfg w = (Ok (m, os), w') -> mpre m = pre_stored.
    Proof.
      intros m os w' E. destruct C19_same_n_passes_gate as (w1 & _ & _ & _ & X).
      rewrite X in E. exact (open_load_mpre _ _ _ _ _ E).
    Qed.

    Theorem C19_same_n_opens_settings_open_store : forall m os w',
      open_store H cfg w = (Ok (m, os), w') -> mpre m = pre_stored.
    Proof.
      intros m os w'. unfold open_store, bind.
      destruct (open_with_recover H cfg w) as [[[m0 os0]|e] w1] eqn:E; [|discriminate].
      pose proof (C19_same_n_opens_settings _ _ _ E) as X.
      destruct os0 as [o|].
      - destruct (c_failint cfg && _).
        + destruct (close m0 w1). discriminate.
        + intros Y. inversion Y. now subst.
      - intros Y. inversion Y. now subst.
    Qed.
  End SameN.

  (* what every successful open leaves behind (any fault plan) *)
  Lemma mkdir_p_ok_inv : forall d w u w', mkdir_p d w = (Ok u, w') -> has_dir (wfs w') d = true.
  Proof.
    intros d w u w'. unfold mkdir_p, bind, get_fs. destruct (has_dir (wfs w) d) eqn:Hd.
    - intros X. inversion X. now subst.
    - intros X. apply do_call_ok_inv in X. cbn [apply_call] in X. rewrite Hd in X.
      apply has_dir_iff.
      destruct (removelast d); [|destruct (has_dir (wfs w) (b :: l))]; inversion X;
        cbn [dirs]; apply in_or_app; right; now left.
  Qed.

  Lemma atomic_write_ok_inv : forall t tmp data w u w',
    atomic_write t tmp data w = (Ok u, w') -> holds (wfs w') t data.
  Proof.
    intros t tmp data w u w'. unfold atomic_write, bind.
    destruct (do_call (CCreate tmp) w) as [[u1|e] w1] eqn:E1; [|discriminate].
    destruct ((match data with [] => ret (Ok tt) | _ => do_call (CAppend tmp data) end) w1)
      as [[u2|e] w2] eqn:E2; [|discriminate].
    destruct (do_call (CSync tmp) w2) as [[u3|e] w3] eqn:E3; [|discriminate].
    intros E4. apply do_call_ok_inv in E1, E3, E4.
    (* the four calls took effect, one after the other *)
    apply (aw_calls_holds t tmp data (wfs w)). exists (wfs w1). split; [exact E1|].
    apply (okc_app _ _ _ (wfs w2)); [|exists (wfs w3); split; [exact E3|now exists (wfs w')]].
    destruct data; [now inversion E2|]. apply do_call_ok_inv in E2. now exists (wfs w2).
  Qed.

  (* a front that lets the open go on leaves LOCK and the two directories, and the settings file
     as it was *)
  Lemma open_front_inv : forall {A} (k : M (res serr A)) w x w', open_front k w = (Ok x, w') ->
    exists w1, k w1 = (Ok x, w') /\ gate_ready (wfs w1) /\
               forall o, fget (wfs w) PSettings = o -> fget (wfs w1) PSettings = o.
  Proof.
    intros A k w x w'. unfold open_front, bind.
    destruct (mkdir_p [s_staging] w) as [[u1|e] wa] eqn:E1; [|discriminate].
    destruct (mkdir_p [s_cas] wa) as [[u2|e] wb] eqn:E2; [|discriminate].
    destruct (do_call (CCreate PLock) wb) as [[u3|e] wc] eqn:E3; [|discriminate].
    intros X. exists wc. split; [exact X|]. split.
    - pose proof (mkdir_p_ok_inv _ _ _ _ E1) as D1. pose proof (mkdir_p_ok_inv _ _ _ _ E2) as D2.
      pose proof (pres_elim _ _ _ _ _ (pres_mkdir_p _ (fun d => has_dir_keeps _ _) [s_cas]) E2 D1) as D1b.
      apply do_call_ok_inv in E3. cbn [apply_call parent_ok parent_dir] in E3. inversion E3 as [S3].
      split; [exact D1b|]. split; [exact D2|]. exact (fget_upd_same _ _ _).
    - intros o G.
      pose proof (fun d => avoids_keeps PSettings o (CMkdir d) eq_refl) as K.
      pose proof (avoids_keeps PSettings o (CCreate PLock) eq_refl) as KL.
      apply (pres_elim _ _ _ _ _ (pres_do_call _ _ KL) E3),
        (pres_elim _ _ _ _ _ (pres_mkdir_p _ K _) E2), (pres_elim _ _ _ _ _ (pres_mkdir_p _ K _) E1), G.
  Qed.

  (* the two parts of open after the front and the calls they may issue *)
  Lemma prog_settings_gate : forall C : call -> Prop, (forall c, gate_call c = true -> C c) ->
    IsProg C (settings_gate cfg).
  Proof.
    intros C CG. unfold settings_gate.
    pose proof (prog_pre_create_all C (fun d => CG (CMkdir d) eq_refl)).
    pose proof (fun data => prog_atomic_write C PSettings PSettingsTmp data
                              (CG (CCreate PSettingsTmp) eq_refl)
                              (fun b => CG (CAppend PSettingsTmp b) eq_refl)
                              (CG (CSync PSettingsTmp) eq_refl)
                              (CG (CRename PSettingsTmp PSettings) eq_refl)).
    prog fail.
  Qed.

  Lemma prog_open_load : forall C : call -> Prop, (forall c, load_call c = true -> C c) ->
    forall pre, IsProg C (open_load H cfg pre).
  Proof. intros C CL pre. unfold open_load. pose proof (prog_index_load H cfg C CL). prog fail. Qed.

  Lemma pres_open_load : forall P : fs -> Prop, (forall c, load_call c = true -> call_keeps P c) ->
    forall pre, Pres P (open_load H cfg pre).
  Proof. intros P K pre. now apply pres_prog, prog_open_load. Qed.

  Lemma open_load_settings : forall o pre w r w', open_load H cfg pre w = (r, w') ->
    fget (wfs w) PSettings = o -> fget (wfs w') PSettings = o.
  Proof.
    intros o pre w r w' E. apply (pres_elim _ _ _ _ _ (pres_open_load _ (fun c Kc =>
      avoids_keeps _ o c (load_call_avoids PSettings c I Kc)) pre) E).
  Qed.

  (* a successful open, taken apart *)
  Lemma open_ok_inv : forall w m os w',
    open_with_recover H cfg w = (Ok (m, os), w') ->
    exists w1 pre w2, gate_ready (wfs w1) /\
      (forall o, fget (wfs w) PSettings = o -> fget (wfs w1) PSettings = o) /\
      settings_gate cfg w1 = (Ok pre, w2) /\ open_load H cfg pre w2 = (Ok (m, os), w').
  Proof.
    intros w m os w' E. rewrite open_with_recover_factor in E.
    destruct (open_front_inv _ _ _ _ E) as (w1 & E1 & R1 & G1). unfold open_tail, bind at 1 in E1.
    destruct (settings_gate cfg w1) as [[pre|e] w2] eqn:E2; [|discriminate].
    now exists w1, pre, w2.
  Qed.

  Lemma settings_gate_ok_inv : forall w1 pre w2, settings_gate cfg w1 = (Ok pre, w2) ->
    (exists f, fget (wfs w1) PSettings = Some f /\ w2 = w1 /\
               dec_settings (fdata f) = Some (CURRENT_DB_VERSION, pre, c_n cfg)) \/
    (fget (wfs w1) PSettings = None /\ pre = c_pre cfg /\
     holds (wfs w2) PSettings (enc_settings CURRENT_DB_VERSION (c_pre cfg) (c_n cfg))).
  Proof.
    intros w1 pre w2. unfold settings_gate. unfold bind at 1, read_file at 1.
    destruct (fget (wfs w1) PSettings) as [f|].
    - destruct (dec_settings (fdata f)) as [[[v p] n]|] eqn:D; [|discriminate].
      destruct (v =? CURRENT_DB_VERSION) eqn:Ev; [|discriminate].
      destruct (n =? c_n cfg) eqn:En; [|discriminate]. cbn [negb].
      intros X. inversion X. subst. apply N.eqb_eq in Ev, En. subst.
      left. exists f. auto.
    - unfold bind.
      destruct ((if c_pre cfg then pre_create_all else ret (Ok tt)) w1) as [[u|e] wa]; [|discriminate].
      destruct (atomic_write PSettings PSettingsTmp _ wa) as [[u2|e] wb] eqn:E; [|discriminate].
      intros X. inversion X. subst. right. split; [reflexivity|]. split; [reflexivity|].
      exact (atomic_write_ok_inv _ _ _ _ _ _ E).
  Qed.

  (* a successful open takes `pre` from settings that are already there (any world) *)
  Theorem open_ok_stored_flag : forall w m os w' f v pre n,
    fget (wfs w) PSettings = Some f -> dec_settings (fdata f) = Some (v, pre, n) ->
    open_with_recover H cfg w = (Ok (m, os), w') -> mpre m = pre.
  Proof.
    intros w m os w' f v pre n G D E.
    destruct (open_ok_inv _ _ _ _ E) as (w1 & pre' & w2 & _ & K1 & E2 & E3).
    pose proof (K1 _ G) as G1.
    rewrite (open_load_mpre _ _ _ _ _ E3).
    destruct (settings_gate_ok_inv _ _ _ E2) as [(f' & G' & _ & D')|(G' & _)]; congruence.
  Qed.

  (* every successful open leaves a directory that is ready for the gate *)
  Theorem open_ok_gate_ready : forall w m os w',
    open_with_recover H cfg w = (Ok (m, os), w') -> gate_ready (wfs w').
  Proof.
    intros w m os w' E. destruct (open_ok_inv _ _ _ _ E) as (w1 & pre & w2 & (D1 & D2 & L) & _ & E2 & E3).
    assert (T : forall (P : fs -> Prop), (forall c, gate_call c = true -> call_keeps P c) ->
                (forall c, load_call c = true -> call_keeps P c) -> P (wfs w1) -> P (wfs w')).
    { intros P K1 K2 X. apply (pres_elim _ _ _ _ _ (pres_open_load P K2 pre) E3).
      exact (pres_elim _ _ _ _ _ (pres_prog P _ (prog_settings_gate _ K1)) E2 X). }
    split; [|split].
    - apply (T (fun s => has_dir s [s_staging] = true)); auto using has_dir_keeps.
    - apply (T (fun s => has_dir s [s_cas] = true)); auto using has_dir_keeps.
    - apply (T (fun s => fget s PLock = Some (mkFile [] 0))); [| |exact L]; intros c Kc;
        apply avoids_keeps; [apply gate_call_avoids|apply load_call_avoids]; auto; exact I.
  Qed.

  (* ... and a settings file that agrees with the configuration and with the handle: this is the
     converse of the gate.  (c_n cfg < 2^64 is needed only for first-time creation, where the
     number is stored in 8 bytes) *)
  Theorem open_ok_settings_agree : forall w m os w', c_n cfg < 2 ^ 64 ->
    open_with_recover H cfg w = (Ok (m, os), w') ->
    exists f, fget (wfs w') PSettings = Some f /\
              dec_settings (fdata f) = Some (CURRENT_DB_VERSION, mpre m, c_n cfg).
  Proof.
    intros w m os w' Nb E. destruct (open_ok_inv _ _ _ _ E) as (w1 & pre & w2 & _ & _ & E2 & E3).
    rewrite (open_load_mpre _ _ _ _ _ E3).
    destruct (settings_gate_ok_inv _ _ _ E2) as [(f & G & -> & D)|(G & -> & f & G2 & Df)].
    - exists f. split; [exact (open_load_settings _ _ _ _ _ E3 G)|exact D].
    - exists f. split; [exact (open_load_settings _ _ _ _ _ E3 G2)|]. rewrite Df.
      apply dec_settings_enc; [|exact Nb]. unfold CURRENT_DB_VERSION. lia.
  Qed.

  (* first-time creation remembers the configured choice *)
  Theorem open_first_time_settings : forall w m os w',
    fget (wfs w) PSettings = None ->
    open_with_recover H cfg w = (Ok (m, os), w') ->
    mpre m = c_pre cfg /\
    exists f, fget (wfs w') PSettings = Some f /\
              fdata f = enc_settings CURRENT_DB_VERSION (c_pre cfg) (c_n cfg) /\
              (c_n cfg < 2 ^ 64 ->
               dec_settings (fdata f) = Some (CURRENT_DB_VERSION, c_pre cfg, c_n cfg)).
  Proof.
    intros w m os w' G0 E. destruct (open_ok_inv _ _ _ _ E) as (w1 & pre & w2 & _ & K1 & E2 & E3).
    pose proof (K1 _ G0) as G1.
    rewrite (open_load_mpre _ _ _ _ _ E3).
    destruct (settings_gate_ok_inv _ _ _ E2) as [(f & G & _)|(_ & -> & f & G2 & Df)]; [congruence|].
    split; [reflexivity|].
    exists f. split; [exact (open_load_settings _ _ _ _ _ E3 G2)|]. split; [exact Df|].
    intros Nb. rewrite Df. apply dec_settings_enc; [|exact Nb]. unfold CURRENT_DB_VERSION. lia.
  Qed.
End Gate2.

(* the gate closes the loop: open, then reopen with another setting *)
Section Reopen.
  Variable H : bytes -> bytes.
  Variables cfg cfg2 : config.

  (* after ANY successful fault-free open with cfg, an open with a different num_ops_per_wal is
     rejected and leaves the filesystem exactly as the first open left it *)
  Theorem C19_reopen_wrong_n : forall w m os w1,
    wfault w = None -> c_n cfg < 2 ^ 64 ->
    open_with_recover H cfg w = (Ok (m, os), w1) -> c_n cfg2 <> c_n cfg ->
    open_with_recover H cfg2 w1 = (Err ESettingsN, w_locked w1) /\
    open_store H cfg2 w1 = (Err ESettingsN, w_locked w1) /\
    wfs (w_locked w1) = wfs w1.
  Proof.
    intros w m os w1 F Nb E Nn.
    pose proof (resp_fault_free _ w (resp_open_with_recover H cfg) F) as F1.
    rewrite E in F1. cbn [snd] in F1.
    pose proof (open_ok_gate_ready H cfg _ _ _ _ E) as G.
    destruct (open_ok_settings_agree H cfg _ _ _ _ Nb E) as (f & Gf & D).
    destruct (rejected_exact H cfg2 w1 f ESettingsN G F1 Gf) as [X Y].
    { left. exists (mpre m), (c_n cfg). auto. }
    auto.
  Qed.

  (* ... while an open with the same num_ops_per_wal passes the gate and inherits the stored
     pre_create_cas_dirs flag of the first open, whatever cfg2 says *)
  Theorem C19_reopen_same_n : forall w m os w1 m2 os2 w2,
    wfault w = None -> c_n cfg < 2 ^ 64 ->
    open_with_recover H cfg w = (Ok (m, os), w1) -> c_n cfg2 = c_n cfg ->
    open_with_recover H cfg2 w1 = (Ok (m2, os2), w2) -> mpre m2 = mpre m.
  Proof.
    intros w m os w1 m2 os2 w2 F Nb E En E2.
    pose proof (resp_fault_free _ w (resp_open_with_recover H cfg) F) as F1.
    rewrite E in F1. cbn [snd] in F1.
    pose proof (open_ok_gate_ready H cfg _ _ _ _ E) as G.
    destruct (open_ok_settings_agree H cfg _ _ _ _ Nb E) as (f & Gf & D).
    rewrite <- En in D.
    exact (C19_same_n_opens_settings H cfg2 (wfs w1) w1 f (mpre m) eq_refl F1 G Gf D _ _ _ E2).
  Qed.
End Reopen.

(* first-time creation in an empty directory (StoreHist.open_fresh, with what it says of the settings) *)
Theorem open_fresh_settings : forall (H : bytes -> bytes) (cfg : config),
  0 < c_n cfg -> c_pre cfg = false ->
  exists m os w', open_with_recover H cfg (init_world empty_fs None) = (Ok (m, os), w') /\
    wfault w' = None /\ gate_ready (wfs w') /\ mpre m = false /\
    exists f, fget (wfs w') PSettings = Some f /\
              fdata f = enc_settings CURRENT_DB_VERSION false (c_n cfg) /\
              (c_n cfg < 2 ^ 64 -> dec_settings (fdata f) = Some (CURRENT_DB_VERSION, false, c_n cfg)).
Proof.
  intros H cfg Np Pre.
  destruct (open_fresh H cfg Np Pre) as (m & os & w' & E & F & _).
  exists m, os, w'. split; [exact E|]. split; [exact F|].
  split; [exact (open_ok_gate_ready H cfg _ _ _ _ E)|].
  destruct (open_first_time_settings H cfg (init_world empty_fs None) _ _ _ eq_refl E) as (Mp & f & G & D1 & D2).
  rewrite Pre in *. split; [exact Mp|]. exists f. auto.
Qed.

Print Assumptions set_path_same.
Print Assumptions open_gate_ready.
Print Assumptions C19_wrong_n.
Print Assumptions C19_wrong_n_open_store.
Print Assumptions C19_wrong_version.
Print Assumptions C19_wrong_version_open_store.
Print Assumptions C19_unparsable.
Print Assumptions C19_unparsable_open_store.
Print Assumptions C19_trace.
Print Assumptions C19_rejected_open_invisible.
Print Assumptions C19_then_correct_open.
Print Assumptions C19_then_correct_open_store.
Print Assumptions C19_then_any_history.
Print Assumptions C19_same_n_passes_gate.
Print Assumptions C19_same_n_opens_settings.
Print Assumptions C19_same_n_opens_settings_open_store.
Print Assumptions open_ok_gate_ready.
Print Assumptions open_ok_settings_agree.
Print Assumptions open_first_time_settings.
Print Assumptions C19_reopen_wrong_n.
Print Assumptions C19_reopen_same_n.
Print Assumptions open_fresh_settings.

(* computed examples (toy hash of StoreHist.v) *)
Definition gate_cfg2 : config := toy_cfg.                                        (* n = 2 *)
Definition gate_cfg3 : config := mkConfig KBytes 3 true false false false false. (* n = 3 *)
Definition gate_cfg2_pre : config := mkConfig KBytes 2 true true false false false. (* n = 2, pre *)

(* create with n = 2, put one key, close *)
Definition gate_w1 : world :=
  snd (run_hist toyH empty_fs None [OpOpen gate_cfg2 false; OpPut toy_k1 [toy_c1]; OpClose]).
Definition gate_s1 : fs := wfs gate_w1.

Example gate_ex_created :
  fst (run_hist toyH empty_fs None [OpOpen gate_cfg2 false; OpPut toy_k1 [toy_c1]; OpClose])
  = ([OutOpened None; OutUnit; OutUnit], None).
Proof. vm_compute. reflexivity. Qed.

Example gate_ex_ready : gate_ready gate_s1.
Proof. vm_compute. repeat split. Qed.

Example gate_ex_settings :
  option_map (fun f => dec_settings (fdata f)) (fget gate_s1 PSettings)
  = Some (Some (CURRENT_DB_VERSION, false, 2)).
Proof. vm_compute. reflexivity. Qed.

(* open with n = 3: rejected, the filesystem equals the one before, one recorded call *)
Example gate_ex_wrong_n :
  let r := run_hist toyH gate_s1 None [OpOpen gate_cfg3 false] in
  fst r = ([OutErr ESettingsN], None) /\ wfs (snd r) = gate_s1 /\
  wtrace (snd r) = [TCall (CCreate PLock)].
Proof. vm_compute. repeat split. Qed.

Example gate_ex_wrong_n_open_store :
  let r := run_hist toyH gate_s1 None [OpOpen gate_cfg3 true] in
  fst r = ([OutErr ESettingsN], None) /\ wfs (snd r) = gate_s1 /\
  wtrace (snd r) = [TCall (CCreate PLock)].
Proof. vm_compute. repeat split. Qed.

(* open with n = 2: accepted, and get returns the value *)
Example gate_ex_right_n :
  fst (fst (run_hist toyH gate_s1 None [OpOpen gate_cfg2 false; OpGet toy_k1]))
  = [OutOpened None; OutBytes (Some toy_c1)].
Proof. vm_compute. reflexivity. Qed.

(* a rejected open followed by a correct one *)
Example gate_ex_rejected_then_right :
  fst (fst (run_hist toyH gate_s1 None [OpOpen gate_cfg3 false; OpOpen gate_cfg2 true; OpGet toy_k1]))
  = [OutErr ESettingsN; OutOpened None; OutBytes (Some toy_c1)].
Proof. vm_compute. reflexivity. Qed.

(* pre_create_cas_dirs comes from the stored settings (false), not from the configuration *)
Example gate_ex_stored_pre :
  match run_hist toyH gate_s1 None [OpOpen gate_cfg2_pre false] with
  | (_, Some hd, w) => mpre (h_mem hd) = false /\ dirs (wfs w) = dirs gate_s1
  | _ => False
  end.
Proof. vm_compute. split; reflexivity. Qed.

(* a damaged settings file / another format version *)
Definition gate_s1_with (data : bytes) : fs :=
  upd gate_s1 PSettings (mkFile data (length data)).

Example gate_ex_wrong_version :
  let s := gate_s1_with (enc_settings 3 false 2) in
  let r := run_hist toyH s None [OpOpen gate_cfg2 false] in
  fst r = ([OutErr ESettingsVersion], None) /\ wfs (snd r) = s.
Proof. vm_compute. split; reflexivity. Qed.

Example gate_ex_unparsable :
  let s := gate_s1_with [1; 2; 3] in
  let r := run_hist toyH s None [OpOpen gate_cfg2 false] in
  fst r = ([OutErr ESettingsParse], None) /\ wfs (snd r) = s.
Proof. vm_compute. split; reflexivity. Qed.

(* the general theorem applies to the computed instance *)
Example gate_ex_theorem_instance :
  exists w', open_with_recover toyH gate_cfg3 (init_world gate_s1 None) = (Err ESettingsN, w') /\
             wfs w' = gate_s1 /\ wfault w' = None.
Proof.
  (* only the two computed facts about gate_s1 are used; with gate_s1 abstracted no conversion
     ever runs the history that defines it *)
  generalize gate_ex_settings gate_ex_ready. generalize gate_s1. intros s D R.
  destruct (fget s PSettings) as [f|] eqn:E; [|discriminate]. injection D as D.
  apply (C19_wrong_n toyH gate_cfg3 s (init_world s None) f eq_refl eq_refl R E false 2 D).
  discriminate.
Qed.

Print Assumptions gate_ex_wrong_n.
Print Assumptions gate_ex_right_n.
Print Assumptions gate_ex_theorem_instance.
