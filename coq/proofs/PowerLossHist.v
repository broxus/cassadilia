(* PowerLossHist.v -- power-loss durability in Sync mode (C09) at the level of single
   operations and of histories.

   powerloss_any_instant   cut the power after ANY number n of the effective calls of an API
       operation, with ANY victim set: the next open succeeds and yields a handle for the map
       before the operation or for the map after it.
   C09_powerloss_partial   histories  evl := LOp o | LRestart | LLoss o n victims
       | LLossOpen n victims  from an empty directory: every open succeeds and the final handle
       satisfies Inv' for a map in [allowedl]: acknowledged operations in order, each
       interrupted operation entirely or not at all.  The LAST event may be a power loss with
       an ARBITRARY victim set; for the earlier power losses the victim set must contain every
       segment file (wal_victims) -- see the remark at [hist_good].
   C09_powerloss_settled   the same for ARBITRARY victim sets at EVERY power loss, when what
       survives a power loss counts as durable from then on ([settle]). *)
From Cas Require Import History.
From CasProofs Require Import CodecProofs StoreFS StoreInv StoreWrite StoreHist DiskInv
  RestartHist CrashInv CrashOps CrashOpen CrashHist PowerLoss PowerLossOps PowerLossOpen.
Open Scope N_scope.


Inductive evl :=
| LOp (o : op)                                          (* an acknowledged API call *)
| LRestart                                              (* close, then open *)
| LLoss (o : op) (n : nat) (victims : path -> bool)     (* power loss during o, after n calls *)
| LLossOpen (n : nat) (victims : path -> bool).         (* kill at rest, power loss after n calls
                                                           of the recovery (n = 0: at rest) *)

Definition evl_contents (e : evl) : list bytes :=
  match e with LOp o | LLoss o _ _ => op_contents o | _ => [] end.

(* the victim sets of an event satisfy [good] *)
Definition evl_good (good : (path -> bool) -> Prop) (e : evl) : Prop :=
  match e with LLoss _ _ v | LLossOpen _ v => good v | _ => True end.

(* Every power loss but the last one must have the segment files among its victims.  Reason:
   in the model a file that is NOT a victim keeps its unsynced bytes AND stays marked as
   unsynced.  A record that was in flight at the first power loss and survived it still counts
   as unsynced at a second power loss, although the recovery in between has replayed it.  To
   follow such stale unsynced tails one would have to show that every power-loss image of every
   intermediate state of that recovery is a state of Rest again; for Rest as defined (DiskW of
   DiskInv.v) this is not even true: with num_ops_per_wal = 1 the recovery creates the segment
   of the next version, and in the image that lacks the stale record this segment lies beyond
   the segment DiskW allows (SegOk: i <= seg_of nv) -- although the real recovery of that
   image would succeed.  See [settle] below for the reading of a power loss under which the
   restriction disappears. *)
Fixpoint hist_good (good : (path -> bool) -> Prop) (h : list evl) : Prop :=
  match h with
  | [] => True
  | e :: r => (r = [] \/ evl_good good e) /\ hist_good good r
  end.
Definition hist_wal : list evl -> Prop := hist_good wal_victims.

(* An alternative reading of a power loss, closer to what happens: whatever survives a power
   loss IS on the disk, hence durable from then on.  [settle] marks every surviving byte as
   synced; with [settle] applied after each power loss the restriction on the victim sets
   disappears (C09_powerloss_settled). *)
Definition settle (s : fs) : fs :=
  with_files s (map (fun pf : path * file =>
                       (fst pf, mkFile (fdata (snd pf)) (length (fdata (snd pf))))) (files s)).

Lemma fget_settle : forall s p,
  fget (settle s) p = option_map (fun f => mkFile (fdata f) (length (fdata f))) (fget s p).
Proof.
  intros s p. unfold fget, settle. cbn [with_files files].
  induction (files s) as [|[q f] l IH]; cbn [map lookup fst snd option_map]; [reflexivity|].
  destruct (path_eqb p q); [reflexivity|exact IH].
Qed.

Lemma settle_wf : forall s, FsWf s -> FsWf (settle s).
Proof.
  intros s W. unfold FsWf, settle, paths in *. cbn [with_files files]. rewrite map_map.
  cbn [fst]. exact W.
Qed.

Lemma fdat_settle : forall s p, fdat (settle s) p = fdat s p.
Proof. intros s p. unfold fdat. rewrite fget_settle. now destruct (fget s p). Qed.

Lemma syn_settle : forall s p, syn (settle s) p.
Proof.
  intros s p f G. rewrite fget_settle in G. destruct (fget s p); [|discriminate].
  cbn [option_map] in G. inversion G. reflexivity.
Qed.

Section PowerHist.
  Variable H : bytes -> bytes.
  Hypothesis H_len : forall b, length (H b) = 32%nat.
  Hypothesis H_byte : forall b, Forall (fun x => x < 256) (H b).
  Variable cfg : config.
  Hypothesis n_pos : 0 < c_n cfg.
  Hypothesis sync_on : c_sync cfg = true.
  Let cmp := key_cmp (c_kt cfg).

  Local Notation DX L := (L H H_len H_byte cfg n_pos) (only parsing).
  Local Notation SX L := (L H H_len H_byte cfg n_pos sync_on) (only parsing).
  Local Notation NoCollide := (NoCollide H).
  Local Notation Inv' := (Inv' H cfg).
  Local Notation Rest := (Rest H cfg).
  Local Notation RestB := (RestB H cfg).
  Local Notation RestSB := (RestSB H cfg).
  Local Notation SyncedFor := (SyncedFor H).
  Local Notation spec_out := (spec_out H cfg).
  Local Notation api_op := (api_op cfg).
  Local Notation op_fits_at := (op_fits_at cfg).
  Local Notation PLD := (PLD H cfg).
  Local Notation reopen := (reopen H cfg).


  (* the sync status along an API call whose walk is known (CrashHist.step_walk) *)
  Lemma step_sync : forall m s sg os o w m' w',
    Inv' m s sg -> SyncedFor sg s -> wfs w = s -> wfault w = None -> api_op o ->
    NoCollide (op_contents o ++ map snd sg) -> op_fits_at sg o ->
    N.of_nat (length sg) + 1 < 2 ^ 32 -> nextv (mwal m) < 2 ^ 64 ->
    step H (Some (mkHandle cfg m os)) o w = ((spec_out sg o, Some (mkHandle cfg m' os)), w') ->
    Walk (RestDB H cfg (nextv (mwal m) + 1) sg (spec_step cmp sg o)) w w' ->
    Walk (PLD (nextv (mwal m) + 1) sg (spec_step cmp sg o)) w w' /\
    SyncedFor (spec_step cmp sg o) (wfs w').
  Proof.
    intros m s sg os o w m' w' IV Y Ws F A NC Fit Ln Lv E K. subst s.
    set (B := nextv (mwal m) + 1) in *.
    assert (Same : forall x, RestDB H cfg B sg sg x -> RestB B x sg) by (intros x [X|X]; exact X).
    assert (RD : is_read o -> Walk (PLD (nextv (mwal m) + 1) sg sg) w w' /\ SyncedFor sg (wfs w')).
    { intros R. destruct (read_step _ _ _ _ _ _ _ _ _ E R) as [-> ->]. split; [|exact Y].
      apply walk_refl; [exact F|]. apply (stab_pld H cfg); [|exact Y].
      eapply (DX inv'_restb); [exact IV|apply N.le_add_r]. }
    destruct o; cbn [StoreHist.api_op] in A; try contradiction; try (apply RD; exact I);
      cbn [step h_cfg h_mem h_ostats StoreHist.spec_out spec_step StoreHist.op_contents
           RestartHist.op_fits_at] in *.
    - (* put *)
      destruct Fit as (Lk & Vk & Lc).
      destruct (SX put_powerloss' m _ sg k chunks w IV Y eq_refl F NC Lk Vk Lc Ln Lv)
        as (m2 & w2 & E2 & _ & _ & Y2 & _ & K2).
      rewrite (bind_eq _ _ _ _ _ E2) in E. injection E as <- <-. now split.
    - (* abort *)
      destruct (abort m k chunks w) as [r w1] eqn:E1. rewrite (bind_eq _ _ _ _ _ E1) in E.
      inversion E; subst w1.
      apply (abort_sync H cfg m sg k chunks w r w' _ Y F E1), (along_weaken _ _ _ _ Same), walk_along, K.
    - (* remove *)
      destruct (remove H cfg m k w) as [[[b|e] m1] w1] eqn:E1; rewrite (bind_eq _ _ _ _ _ E1) in E;
        inversion E; subst w1.
      exact (remove_sync H cfg m sg k w b m1 w' _ IV Y F E1 (walk_along _ _ _ K)).
    - (* remove_range *)
      fold cmp in A. rewrite A, andb_false_r in K |- *.
      destruct (remove_range H cfg m lo hi w) as [[[b|e] m1] w1] eqn:E1;
        rewrite (bind_eq _ _ _ _ _ E1) in E; inversion E; subst w1.
      exact (remove_range_sync H cfg m sg lo hi w b m1 w' _ IV Y F E1 (walk_along _ _ _ K)).
    - (* checkpoint *)
      destruct (checkpoint cfg m w) as [r w1] eqn:E1. rewrite (bind_eq _ _ _ _ _ E1) in E.
      inversion E; subst w1.
      apply (checkpoint_sync H cfg m sg w r w' _ Y F E1), (along_weaken _ _ _ _ Same), walk_along, K.
  Qed.

  Lemma step_walk_pl : forall m s sg os o w,
    Inv' m s sg -> SyncedFor sg s -> wfs w = s -> wfault w = None -> api_op o ->
    NoCollide (op_contents o ++ map snd sg) -> op_fits_at sg o ->
    N.of_nat (length sg) + 1 < 2 ^ 32 -> nextv (mwal m) < 2 ^ 64 ->
    exists m' w',
      step H (Some (mkHandle cfg m os)) o w = ((spec_out sg o, Some (mkHandle cfg m' os)), w') /\
      wfault w' = None /\ Inv' m' (wfs w') (spec_step cmp sg o) /\
      SyncedFor (spec_step cmp sg o) (wfs w') /\
      nextv (mwal m') <= nextv (mwal m) + 1 /\
      Walk (PLD (nextv (mwal m) + 1) sg (spec_step cmp sg o)) w w'.
  Proof.
    intros m s sg os o w IV Y Ws F A NC Fit Ln Lv.
    destruct (DX step_walk m s sg os o w IV Ws F A NC Fit Ln Lv) as (m' & w' & E & F' & IV' & Nv & K).
    destruct (step_sync m s sg os o w m' w' IV Y Ws F A NC Fit Ln Lv E K) as [KP Y'].
    exists m', w'. split; [exact E|]. split; [exact F'|]. split; [exact IV'|]. split; [exact Y'|].
    split; [exact Nv|exact KP].
  Qed.

  (* C09 for one operation: cut the power after any number n of the effective calls of an API
     operation issued in Sync mode on a handle satisfying the invariant (relevant files
     synced), let ANY set of files lose their unsynced bytes: the next open succeeds and yields
     a handle for the map before the operation or for the map after it *)
  Theorem powerloss_any_instant : forall m s sg os o w n victims,
    Inv' m s sg -> SyncedFor sg s -> wfs w = s -> wfault w = None -> api_op o ->
    NoCollide (op_contents o ++ map snd sg) -> op_fits_at sg o ->
    N.of_nat (length sg) + 1 < 2 ^ 32 -> nextv (mwal m) < 2 ^ 64 ->
    let w' := snd (step H (Some (mkHandle cfg m os)) o w) in
    let x := lose victims (crash_fs n (rev (new_trace w w')) (wfs w)) in
    exists m2 os2 w2, open_with_recover H cfg (init_world x None) = (Ok (m2, os2), w2) /\
      (Inv' m2 (wfs w2) sg \/ Inv' m2 (wfs w2) (spec_step cmp sg o)).
  Proof.
    intros m s sg os o w n v IV Y Ws F A NC Fit Ln Lv. cbv zeta.
    destruct (step_walk_pl m s sg os o w IV Y Ws F A NC Fit Ln Lv) as (m1 & w1 & E1 & _ & _ & _ & _ & K).
    rewrite E1. cbn [snd].
    pose proof (along_crash_at _ w w1 n (walk_along _ _ _ K)) as [RX _].
    pose proof (inv'_nextv_pos H cfg _ _ _ IV) as Nv1.
    destruct (RX v) as [RX1|RX1];
      (destruct (DX reopen_b _ _ _ RX1) as (m2 & os2 & w2 & Eo & _ & IV2 & _); [clear - Nv1; lia|]);
      exists m2, os2, w2; (split; [exact Eo|]); [now left|now right].
  Qed.

  (* running a history with power losses *)
  Section Run.
  (* [post] is applied to the filesystem after each power loss: the identity (the model of
     theories/FS.v as it is: a surviving file stays marked as unsynced) or [settle];
     [good] is the condition on the victim sets of all power losses but the last *)
  Variable post : fs -> fs.
  Variable good : (path -> bool) -> Prop.
  Hypothesis post_any : forall B sg sg' x v, PLD B sg sg' x ->
    RestB B (post (lose v x)) sg \/ RestB B (post (lose v x)) sg'.
  Hypothesis post_good : forall B sg sg' x v, PLD B sg sg' x -> good v ->
    RestSB B (post (lose v x)) sg \/ RestSB B (post (lose v x)) sg'.

  Definition run_evl (st : handle * world) (e : evl) : option (handle * world) :=
    let '(hd, w) := st in
    match e with
    | LOp o =>
      let '((_, ohd), w') := step H (Some hd) o w in
      match ohd with Some hd' => Some (hd', w') | None => None end
    | LRestart =>
      let '(_, w1) := close (h_mem hd) w in opened cfg (open_with_recover H cfg w1)
    | LLoss o n v =>
      let w' := snd (step H (Some hd) o w) in
      reopen (post (lose v (crash_fs n (rev (new_trace w w')) (wfs w))))
    | LLossOpen n v => reopen (post (lose v (crash_open H cfg n (wfs w))))
    end.

  Fixpoint run_extl (st : handle * world) (h : list evl) : option (handle * world) :=
    match h with
    | [] => Some st
    | e :: r => match run_evl st e with Some st' => run_extl st' r | None => None end
    end.

  (* the maps a history may end in *)
  Fixpoint allowedl (sg : smap bytes) (h : list evl) (sgf : smap bytes) : Prop :=
    match h with
    | [] => sgf = sg
    | LOp o :: r => allowedl (spec_step cmp sg o) r sgf
    | LRestart :: r | LLossOpen _ _ :: r => allowedl sg r sgf
    | LLoss o _ _ :: r => allowedl sg r sgf \/ allowedl (spec_step cmp sg o) r sgf
    end.

  Fixpoint extl_fits (sg : smap bytes) (h : list evl) : Prop :=
    match h with
    | [] => True
    | LOp o :: r => api_op o /\ op_fits_at sg o /\ extl_fits (spec_step cmp sg o) r
    | LRestart :: r | LLossOpen _ _ :: r => extl_fits sg r
    | LLoss o _ _ :: r =>
      api_op o /\ op_fits_at sg o /\ extl_fits sg r /\ extl_fits (spec_step cmp sg o) r
    end.

  (* the walk of recovery, as a PLD for one map (PowerLossOpen.recovery_pld) *)
  Lemma crash_open_pld : forall B n x sg, RestSB B x sg -> 1 <= B ->
    PLD B sg sg (crash_open H cfg n x).
  Proof. exact (DX recovery_pld). Qed.

  (* the state after a power loss at a state x with PLD: the old map or the new map; its
     relevant files are synced unless the history ends here *)
  Lemma loss_state : forall (last : Prop) B sg sg' x v, PLD B sg sg' x -> last \/ good v ->
    exists sgX, (sgX = sg \/ sgX = sg') /\ RestB B (post (lose v x)) sgX /\
                (last \/ SyncedFor sgX (post (lose v x))).
  Proof.
    intros last B sg sg' x v PX [Re|Hv].
    - destruct (post_any _ _ _ _ v PX) as [RX|RX]; [exists sg|exists sg']; auto.
    - destruct (post_good _ _ _ _ v PX Hv) as [[RX YX]|[RX YX]]; [exists sg|exists sg']; auto.
  Qed.

  (* Each event needs nextv < 2 ^ 64 and raises it by at most one; the bound 2 ^ 32 on
     nextv + length h is chosen because it follows, for nextv <= 2, from the bound that the
     index imposes on the length of the history (C09_gen). *)
  Lemma run_extl_ok : forall h m os w sg,
    Inv' m (wfs w) sg -> SyncedFor sg (wfs w) -> wfault w = None -> hist_good good h ->
    NoCollide (flat_map evl_contents h ++ map snd sg) -> extl_fits sg h ->
    N.of_nat (length sg) + N.of_nat (length h) < 2 ^ 32 ->
    nextv (mwal m) + N.of_nat (length h) <= 2 ^ 32 ->
    exists hd w', run_extl (mkHandle cfg m os, w) h = Some (hd, w') /\ h_cfg hd = cfg /\
      wfault w' = None /\ exists sgf, allowedl sg h sgf /\ Inv' (h_mem hd) (wfs w') sgf.
  Proof.
    induction h as [|e r IH]; intros m os w sg IV Y F HWal NC Fit Ln Lv.
    - exists (mkHandle cfg m os), w. split; [reflexivity|]. split; [reflexivity|].
      split; [exact F|]. exists sg. split; [reflexivity|exact IV].
    - cbn [length] in Ln, Lv. cbn [flat_map] in NC. destruct HWal as [HW1 HWr].
      pose proof (inv'_nextv_pos H cfg _ _ _ IV) as Nv1.
      assert (Ln1 : N.of_nat (length sg) + 1 < 2 ^ 32) by (clear - Ln; lia).
      assert (Lv1 : nextv (mwal m) < 2 ^ 64) by (clear - Lv; pow_consts; lia).
      set (B := nextv (mwal m) + 1).
      (* the maps this event may lead to: sg itself, or sg after the operation of the event *)
      set (nexts := fun sgX => sgX = sg \/
                      exists o, evl_contents e = op_contents o /\ sgX = spec_step cmp sg o).
      (* the remaining history, from a handle for such a map obtained with at most one more
         version; its relevant files must be synced unless the history ends here.  A is what
         the caller makes of the maps allowed from there *)
      assert (Next : forall m2 os2 w2 sgX (A : smap bytes -> Prop),
                (forall sgf, allowedl sgX r sgf -> A sgf) -> nexts sgX ->
                Inv' m2 (wfs w2) sgX -> (r = [] \/ SyncedFor sgX (wfs w2)) -> wfault w2 = None ->
                nextv (mwal m2) <= B -> extl_fits sgX r ->
                exists hd w', run_extl (mkHandle cfg m2 os2, w2) r = Some (hd, w') /\ h_cfg hd = cfg /\
                  wfault w' = None /\ exists sgf, A sgf /\ Inv' (h_mem hd) (wfs w') sgf).
      { intros m2 os2 w2 sgX A HA Nx IV2 Y2 F2 Nv2 Fx.
        assert (Lx : (length sgX <= S (length sg))%nat)
          by (destruct Nx as [->|(o & _ & ->)]; [apply Nat.le_succ_diag_r|apply (DX length_spec_step)]).
        destruct r as [|e' r'] eqn:Er.
        - exists (mkHandle cfg m2 os2), w2. split; [reflexivity|]. split; [reflexivity|].
          split; [exact F2|]. exists sgX. split; [now apply HA|exact IV2].
        - destruct Y2 as [X|Y2]; [discriminate|]. rewrite <- Er in *.
          destruct (IH m2 os2 w2 sgX IV2 Y2 F2 HWr) as (hd & w' & E & Hc & F' & sgf & Al & IVf).
          + apply (nocollide_rest H _ _ _ _ NC).
            destruct Nx as [->|(o & Eo & ->)]; intros x Ix; [now right|].
            rewrite Eo. exact (spec_step_contents cfg _ _ _ Ix).
          + exact Fx.
          + clear - Ln Lx. lia.
          + clear - Lv Nv2. subst B. lia.
          + exists hd, w'. split; [exact E|]. split; [exact Hc|]. split; [exact F'|].
            exists sgf. split; [exact (HA _ Al)|exact IVf]. }
      (* after a power loss at a state x with PLD for sg and such a map sg' *)
      assert (Loss : forall sg' x v (A : smap bytes -> Prop),
                (forall sgf, allowedl sg r sgf -> A sgf) -> (forall sgf, allowedl sg' r sgf -> A sgf) ->
                nexts sg' -> PLD B sg sg' x -> (r = [] \/ good v) ->
                extl_fits sg r -> extl_fits sg' r ->
                exists hd w', match reopen (post (lose v x)) with
                              | Some st' => run_extl st' r | None => None end
                              = Some (hd, w') /\ h_cfg hd = cfg /\ wfault w' = None /\
                  exists sgf, A sgf /\ Inv' (h_mem hd) (wfs w') sgf).
      { intros sg' x v A HA HA' Nx PX HG Fr Fr'.
        destruct (loss_state _ _ _ _ _ v PX HG) as (sgX & Hx & RB & YX).
        destruct (DX reopen_b _ _ sgX RB) as (m2 & os2 & w2 & Eo & F2 & IV2 & Nv2 & Y2);
          [subst B; clear - Nv1; lia|].
        unfold CrashHist.reopen. rewrite Eo. cbn [opened].
        assert (YX' : r = [] \/ SyncedFor sgX (wfs w2)) by (destruct YX; [now left|right; auto]).
        destruct Hx as [->| ->]; [apply (Next m2 os2 w2 sg A HA)|apply (Next m2 os2 w2 sg' A HA')];
          auto. now left. }
      destruct e as [o| |o n v|n v]; cbn [extl_fits] in Fit;
        cbn [run_extl run_evl allowedl evl_good evl_contents] in *.
      + (* an acknowledged operation *)
        destruct Fit as (Ao & Fo & Fr).
        destruct (step_walk_pl m (wfs w) sg os o w IV Y eq_refl F Ao (nocollide_head H _ _ _ NC) Fo
                    Ln1 Lv1) as (m1 & w1 & E1 & F1 & IV1 & Y1 & Nv & _).
        rewrite E1. apply (Next m1 os w1 (spec_step cmp sg o)); auto.
        right. exists o. split; reflexivity.
      + (* restart *)
        destruct (DX close_crash' m (wfs w) sg w IV eq_refl F) as (w1 & Ec & F1 & RB1 & K1).
        pose proof (proj2 (close_sync H cfg m sg w tt w1 _ IV Y F Ec (walk_along _ _ _ K1))) as Y1.
        destruct (DX open_powerloss_b (nextv (mwal m)) (wfs w1) sg w1 (conj RB1 Y1) Nv1 F1 eq_refl)
          as (m2 & os2 & w2 & Eo & F2 & IV2 & Y2 & _ & Nv2 & _).
        cbn [h_mem]. rewrite Ec, Eo. cbn [opened].
        apply (Next m2 os2 w2 sg); auto; [now left|subst B; clear - Nv2; lia].
      + (* power loss during an operation *)
        destruct Fit as (Ao & Fo & Fr1 & Fr2).
        destruct (step_walk_pl m (wfs w) sg os o w IV Y eq_refl F Ao (nocollide_head H _ _ _ NC) Fo
                    Ln1 Lv1) as (m1 & w1 & E1 & _ & _ & _ & _ & K).
        rewrite E1. cbn [snd]. apply (Loss (spec_step cmp sg o)); auto.
        * right. exists o. split; reflexivity.
        * exact (along_crash_at _ w w1 n (walk_along _ _ _ K)).
      + (* kill at rest, power loss during the recovery *)
        apply (Loss sg); auto; [now left|].
        apply crash_open_pld; [split; [|exact Y]|subst B; clear - Nv1; lia].
        eapply (DX inv'_restb); [exact IV|subst B; clear; lia].
  Qed.

  Theorem C09_gen : forall h,
    c_n cfg < 2 ^ 64 -> hist_good good h ->
    NoCollide (flat_map evl_contents h) -> extl_fits [] h -> N.of_nat (length h) < 2 ^ 32 - 1 ->
    exists hd0 w0, reopen empty_fs = Some (hd0, w0) /\
    exists hd w', run_extl (hd0, w0) h = Some (hd, w') /\ h_cfg hd = cfg /\ wfault w' = None /\
      exists sg, allowedl [] h sg /\ Inv' (h_mem hd) (wfs w') sg.
  Proof.
    intros h Nfit HWal NC Fit Ln.
    destruct (DX open_powerloss_b 1 empty_fs [] (init_world empty_fs None) (restsb_empty H cfg Nfit 1)
                (N.le_refl _) eq_refl eq_refl)
      as (m & os & w1 & E1 & F1 & IV1 & Y1 & _ & Nv1 & _).
    exists (mkHandle cfg m os), w1. split; [unfold CrashHist.reopen; rewrite E1; reflexivity|].
    apply run_extl_ok; try assumption.
    - now rewrite app_nil_r.
    - cbn [length]. pow_consts. lia.
    - pow_consts. lia.
  Qed.
  End Run.

  (* C09 with the model of theories/FS.v as it is (partial, see hist_good).  From an empty
     directory, in Sync mode, for every history of API calls, restarts and POWER LOSSES -- during
     an operation at any call boundary, at rest, during the recovery -- every open succeeds and
     the final handle satisfies the handle invariant for a map in [allowedl [] h]: acknowledged
     operations applied in order, each interrupted operation applied entirely or not at all.
     The last power loss may hit ANY set of files; the earlier ones must include the segment
     files among their victims. *)
  Theorem C09_powerloss_partial : forall h,
    c_n cfg < 2 ^ 64 -> hist_wal h ->
    NoCollide (flat_map evl_contents h) -> extl_fits [] h -> N.of_nat (length h) < 2 ^ 32 - 1 ->
    exists hd0 w0, reopen empty_fs = Some (hd0, w0) /\
    exists hd w', run_extl (fun y => y) (hd0, w0) h = Some (hd, w') /\ h_cfg hd = cfg /\
      wfault w' = None /\ exists sg, allowedl [] h sg /\ Inv' (h_mem hd) (wfs w') sg.
  Proof.
    intros h. apply (C09_gen (fun y => y) wal_victims).
    - intros B sg sg' x v [P _]. apply P.
    - intros B sg sg' x v [_ Q] Hv. now apply Q.
  Qed.

  (* C09 with durable survivors: after each power loss whatever survived is marked as synced
     ([settle]).  EVERY power loss of the history may hit ANY set of files. *)
  Lemma restb_settle : forall B y sg, RestB B y sg -> RestSB B (settle y) sg.
  Proof.
    intros B y sg RB. split.
    - eapply (view_eq_restb H cfg); [exact RB|apply settle_wf; eapply restb_wf; exact RB| | |].
      + auto.
      + reflexivity.
      + intros q. apply fdat_settle.
    - repeat split; intros; apply syn_settle.
  Qed.

  Theorem C09_powerloss_settled : forall h,
    c_n cfg < 2 ^ 64 ->
    NoCollide (flat_map evl_contents h) -> extl_fits [] h -> N.of_nat (length h) < 2 ^ 32 - 1 ->
    exists hd0 w0, reopen empty_fs = Some (hd0, w0) /\
    exists hd w', run_extl settle (hd0, w0) h = Some (hd, w') /\ h_cfg hd = cfg /\
      wfault w' = None /\ exists sg, allowedl [] h sg /\ Inv' (h_mem hd) (wfs w') sg.
  Proof.
    intros h Nfit NC Fit Ln.
    apply (C09_gen settle (fun _ => True)); try assumption.
    - intros B sg sg' x v [P _]. destruct (P v) as [X|X]; [left|right]; exact (proj1 (restb_settle _ _ _ X)).
    - intros B sg sg' x v [P _] _. destruct (P v) as [X|X]; [left|right]; now apply restb_settle.
    - clear. induction h as [|e r IH]; cbn [hist_good]; [exact I|]. split; [right|exact IH].
      destruct e; exact I.
  Qed.
End PowerHist.

Print Assumptions powerloss_any_instant.
Print Assumptions C09_powerloss_partial.
Print Assumptions C09_powerloss_settled.
