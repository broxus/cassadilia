(* BaseProofs.v -- lemmas about theories/Base.v beyond the basic ones of CodecBase.v (which
   this file passes on to whoever imports it): bounds and injectivity of the little-endian
   decoder, the key orders, hex and blob paths. *)
From Cas Require Import Base.
From CasProofs Require Export CodecBase.
From Coq Require Import ZifyBool ZifyNat ZifyN.
Ltac Zify.zify_post_hook ::= Z.div_mod_to_equations.
Open Scope N_scope.

Definition wf (bs : bytes) : Prop := Forall (fun b => b < 256) bs.

Lemma Forall_firstn' {A} (P : A -> Prop) n (l : list A) :
  Forall P l -> Forall P (firstn n l).
Proof.
  intro H. rewrite <- (firstn_skipn n l) in H. apply Forall_app in H. tauto.
Qed.

Lemma Forall_skipn' {A} (P : A -> Prop) n (l : list A) :
  Forall P l -> Forall P (skipn n l).
Proof.
  intro H. rewrite <- (firstn_skipn n l) in H. apply Forall_app in H. tauto.
Qed.

Lemma le_enc_lt256 : forall n v, Forall (fun b => b < 256) (le_enc n v).
Proof. exact le_enc_byte. Qed.

Corollary le_dec_u32 : forall v, v < 2 ^ 32 -> le_dec (u32 v) = v.
Proof. exact CodecBase.le_dec_u32. Qed.

Corollary le_dec_u64 : forall v, v < 2 ^ 64 -> le_dec (u64 v) = v.
Proof. exact CodecBase.le_dec_u64. Qed.

Lemma le_enc_le_dec : forall bs : bytes,
  Forall (fun b => b < 256) bs -> le_enc (length bs) (le_dec bs) = bs.
Proof.
  induction bs as [|b r IH]; intro H; cbn [length le_enc le_dec]; [reflexivity|].
  inversion H as [|b' r' Hb Hr]; subst. rewrite (N.mul_comm 256).
  rewrite N.mod_add, N.div_add, N.mod_small, N.div_small, N.add_0_l, IH
    by (assumption || discriminate).
  reflexivity.
Qed.

Lemma le_dec_bound : forall bs : bytes,
  Forall (fun b => b < 256) bs -> le_dec bs < 256 ^ N.of_nat (length bs).
Proof.
  induction bs as [|b r IH]; intro H; cbn [length le_dec].
  - change (N.of_nat 0) with 0. rewrite N.pow_0_r. lia.
  - inversion H as [|b' r' Hb Hr]; subst. specialize (IH Hr).
    rewrite Nat2N.inj_succ, N.pow_succ_r'. set (P := 256 ^ N.of_nat (length r)) in *. lia.
Qed.

Lemma le_dec_inj : forall a b : bytes,
  length a = length b ->
  Forall (fun x => x < 256) a -> Forall (fun x => x < 256) b ->
  le_dec a = le_dec b -> a = b.
Proof.
  intros a b Hl Ha Hb E.
  rewrite <- (le_enc_le_dec a Ha), <- (le_enc_le_dec b Hb), Hl, E. reflexivity.
Qed.

Lemma take_app : forall n (a b : bytes), length a = n -> take n (a ++ b) = Some (a, b).
Proof. exact CodecBase.take_app. Qed.

Lemma take_none_iff : forall n bs, take n bs = None <-> (length bs < n)%nat.
Proof. intros n bs. split; [apply take_none_inv | apply take_none]. Qed.

Lemma takeN_app : forall n (a b : bytes), len a = n -> takeN n (a ++ b) = Some (a, b).
Proof. exact CodecBase.takeN_app. Qed.

Lemma takeN_some_inv : forall n bs h r,
  takeN n bs = Some (h, r) -> bs = h ++ r /\ len h = n.
Proof. exact takeN_some. Qed.

Lemma beqb_refl : forall a, beqb a a = true.
Proof. exact CodecBase.beqb_refl. Qed.

Lemma beqb_false_iff : forall a b, beqb a b = false <-> a <> b.
Proof. exact CodecBase.beqb_false_iff. Qed.

Lemma lex_cmp_gt_lt : forall a b, lex_cmp a b = Gt <-> lex_cmp b a = Lt.
Proof.
  intros a b. rewrite (lex_antisym a b).
  destruct (lex_cmp a b); cbn [CompOpp]; split; congruence.
Qed.

Section ByNum.
  Variable f : bytes -> Z.

  Lemma by_num_refl : forall a, by_num f a a = Eq.
  Proof. intro a. unfold by_num. rewrite Z.compare_refl. apply lex_refl. Qed.

  Lemma by_num_eq : forall a b, by_num f a b = Eq -> a = b.
  Proof.
    intros a b. unfold by_num.
    destruct (f a ?= f b)%Z; try discriminate. apply lex_eq.
  Qed.

  Lemma by_num_antisym : forall a b, by_num f b a = CompOpp (by_num f a b).
  Proof.
    intros a b. unfold by_num. rewrite (Z.compare_antisym (f a) (f b)).
    destruct (f a ?= f b)%Z; cbn [CompOpp]; auto. apply lex_antisym.
  Qed.

  Lemma by_num_trans : forall a b c,
    by_num f a b = Lt -> by_num f b c = Lt -> by_num f a c = Lt.
  Proof.
    intros a b c. unfold by_num.
    destruct (Z.compare_spec (f a) (f b)) as [E1|E1|E1]; try discriminate;
      destruct (Z.compare_spec (f b) (f c)) as [E2|E2|E2]; try discriminate; intros H1 H2.
    - rewrite E1, E2, Z.compare_refl. eapply lex_trans; eassumption.
    - now rewrite E1, (proj2 (Z.compare_lt_iff _ _) E2).
    - now rewrite <- E2, (proj2 (Z.compare_lt_iff _ _) E1).
    - now rewrite (proj2 (Z.compare_lt_iff _ _) (Z.lt_trans _ _ _ E1 E2)).
  Qed.
End ByNum.

Lemma key_cmp_refl : forall t a, key_cmp t a a = Eq.
Proof. destruct t; intro a; cbn [key_cmp]; auto using lex_refl, by_num_refl. Qed.

Lemma key_cmp_eq : forall t a b, key_cmp t a b = Eq -> a = b.
Proof. destruct t; intros a b; cbn [key_cmp]; first [apply lex_eq | apply by_num_eq]. Qed.

Lemma key_cmp_antisym : forall t a b, key_cmp t b a = CompOpp (key_cmp t a b).
Proof.
  destruct t; intros a b; cbn [key_cmp]; auto using lex_antisym, by_num_antisym.
Qed.

Lemma key_cmp_trans : forall t a b c,
  key_cmp t a b = Lt -> key_cmp t b c = Lt -> key_cmp t a c = Lt.
Proof.
  destruct t; intros a b c; cbn [key_cmp]; first [apply lex_trans | apply by_num_trans].
Qed.

Lemma key_cmp_eq_iff : forall t a b, key_cmp t a b = Eq <-> a = b.
Proof.
  intros t a b. split; [apply key_cmp_eq|]. intro E; subst. apply key_cmp_refl.
Qed.

Lemma key_cmp_gt_lt : forall t a b, key_cmp t a b = Gt <-> key_cmp t b a = Lt.
Proof.
  intros t a b. rewrite (key_cmp_antisym t a b).
  destruct (key_cmp t a b); cbn [CompOpp]; split; congruence.
Qed.

(* where [f] tells two strings apart, [by_num f] is the order of their images *)
Lemma by_num_numeric f a b : (f a = f b -> a = b) -> by_num f a b = (f a ?= f b)%Z.
Proof.
  intro Inj. unfold by_num. destruct (Z.compare_spec (f a) (f b)) as [E| |]; try reflexivity.
  rewrite (Inj E). apply lex_refl.
Qed.

Lemma key_cmp_uns_numeric : forall n (a b : bytes),
  length a = n -> length b = n ->
  Forall (fun x => x < 256) a -> Forall (fun x => x < 256) b ->
  key_cmp (KUns n) a b = N.compare (le_dec a) (le_dec b).
Proof.
  intros n a b La Lb Ha Hb. rewrite <- N2Z.inj_compare. apply (by_num_numeric unsigned_of).
  intro E. apply N2Z.inj in E. apply le_dec_inj; congruence.
Qed.

Lemma signed_of_inj : forall a b : bytes,
  length a = length b ->
  Forall (fun x => x < 256) a -> Forall (fun x => x < 256) b ->
  signed_of a = signed_of b -> a = b.
Proof.
  intros a b Hl Ha Hb E. apply le_dec_inj; try assumption. apply N2Z.inj.
  pose proof (le_dec_bound a Ha) as Ba. pose proof (le_dec_bound b Hb) as Bb.
  rewrite <- Hl in Bb. apply N2Z.inj_lt in Ba, Bb. rewrite N2Z.inj_pow, nat_N_Z in Ba, Bb.
  pose proof (N2Z.is_nonneg (le_dec a)). pose proof (N2Z.is_nonneg (le_dec b)).
  unfold signed_of in E. cbv zeta in E. rewrite <- Hl in E. change (Z.of_N 256) with 256%Z in *.
  (* nothing about the threshold w/2 matters: values on different sides of it are sent to
     different signs *)
  generalize dependent (256 ^ Z.of_nat (length a) / 2)%Z. intros hw.
  destruct (hw <=? _)%Z, (hw <=? _)%Z; lia.
Qed.

(* the signed little-endian (two's complement) numeric order on well-formed keys *)
Lemma key_cmp_sig_numeric : forall n (a b : bytes),
  length a = n -> length b = n ->
  Forall (fun x => x < 256) a -> Forall (fun x => x < 256) b ->
  key_cmp (KSig n) a b = Z.compare (signed_of a) (signed_of b).
Proof.
  intros n a b La Lb Ha Hb. apply by_num_numeric. intro E. apply signed_of_inj; congruence.
Qed.

(* a lower-case hex character: '0'..'9' or 'a'..'f' *)
Definition is_hexchar (c : byte) : Prop := (48 <= c <= 57) \/ (97 <= c <= 102).

Lemma hexdigit_is_hexchar : forall d, d < 16 -> is_hexchar (hexdigit d).
Proof.
  intros d H. unfold is_hexchar, hexdigit. destruct (N.ltb_spec d 10); lia.
Qed.

Lemma unhexdigit_hexdigit : forall d, d < 16 -> unhexdigit (hexdigit d) = Some d.
Proof.
  intros d H. unfold hexdigit, unhexdigit. destruct (N.ltb_spec d 10) as [L|L].
  - assert (E : (48 <=? 48 + d) && (48 + d <=? 57) = true) by lia.
    rewrite E. f_equal. lia.
  - assert (E1 : (48 <=? 87 + d) && (87 + d <=? 57) = false) by lia.
    assert (E2 : (97 <=? 87 + d) && (87 + d <=? 102) = true) by lia.
    rewrite E1, E2. f_equal. lia.
Qed.

Lemma hexdigit_unhexdigit_lower : forall c d,
  is_hexchar c -> unhexdigit c = Some d -> d < 16 /\ hexdigit d = c.
Proof.
  intros c d Hc. unfold unhexdigit, hexdigit.
  destruct ((48 <=? c) && (c <=? 57)) eqn:E1.
  - intro E; inversion E; subst. split; [lia|].
    destruct (N.ltb_spec (c - 48) 10); lia.
  - destruct ((97 <=? c) && (c <=? 102)) eqn:E2.
    + intro E; inversion E; subst. split; [lia|].
      destruct (N.ltb_spec (c - 87) 10); lia.
    + unfold is_hexchar in Hc. lia.
Qed.

(* the decoder yields bytes, also from upper-case digits *)
Lemma unhexdigit_lt16 : forall c d, unhexdigit c = Some d -> d < 16.
Proof.
  intros c d. unfold unhexdigit.
  destruct ((48 <=? c) && (c <=? 57)) eqn:E1; [intros X; injection X as <-; lia|]. clear E1.
  destruct ((97 <=? c) && (c <=? 102)) eqn:E2; [intros X; injection X as <-; lia|]. clear E2.
  destruct ((65 <=? c) && (c <=? 70)) eqn:E3; [intros X; injection X as <-; lia|discriminate].
Qed.

Lemma hex_dec_pairs_wf : forall h cs, hex_dec_pairs cs = Some h ->
  length cs = (2 * length h)%nat /\ Forall (fun b => b < 256) h.
Proof.
  induction h as [|x t IH]; intros cs E.
  - destruct cs as [|c1 [|c2 r]]; cbn [hex_dec_pairs] in E; [split; [reflexivity|constructor]|discriminate|].
    destruct (unhexdigit c1), (unhexdigit c2), (hex_dec_pairs r); discriminate.
  - destruct cs as [|c1 [|c2 r]]; cbn [hex_dec_pairs] in E; try discriminate.
    destruct (unhexdigit c1) as [a|] eqn:U1; [|discriminate].
    destruct (unhexdigit c2) as [b|] eqn:U2; [|discriminate].
    destruct (hex_dec_pairs r) as [t'|] eqn:R; [|discriminate].
    injection E as <- <-. destruct (IH r R) as [L F].
    apply unhexdigit_lt16 in U1. apply unhexdigit_lt16 in U2.
    split; [cbn [length]; clear - L; lia|]. constructor; [clear - U1 U2; lia|exact F].
Qed.

Lemma hex_dec_pairs_hex_enc : forall h : bytes,
  Forall (fun b => b < 256) h -> hex_dec_pairs (hex_enc h) = Some h.
Proof.
  induction h as [|b r IH]; intro H; cbn [hex_enc hex_dec_pairs]; [reflexivity|].
  inversion H as [|b' r' Hb Hr]; subst.
  rewrite !unhexdigit_hexdigit, IH, <- N.div_mod'; [reflexivity|assumption|..].
  - now apply N.mod_lt.
  - now apply N.div_lt_upper_bound.
Qed.

Lemma length_hex_enc : forall h : bytes, length (hex_enc h) = (2 * length h)%nat.
Proof.
  induction h as [|b r IH]; cbn [hex_enc length]; [reflexivity|]. rewrite IH. lia.
Qed.

Lemma hex_dec_hex_enc : forall h : bytes,
  Forall (fun b => b < 256) h -> hex_dec (length h) (hex_enc h) = Some h.
Proof.
  intros h H. unfold hex_dec. rewrite length_hex_enc, Nat.eqb_refl.
  now apply hex_dec_pairs_hex_enc.
Qed.

Lemma hex_enc_is_hexchar : forall h : bytes,
  Forall (fun b => b < 256) h -> Forall is_hexchar (hex_enc h).
Proof.
  induction h as [|b r IH]; intro H; cbn [hex_enc]; [constructor|].
  inversion H as [|b' r' Hb Hr]; subst.
  constructor; [|constructor]; try (apply hexdigit_is_hexchar; lia). now apply IH.
Qed.

Lemma hex_enc_inj : forall h1 h2 : bytes,
  Forall (fun b => b < 256) h1 -> Forall (fun b => b < 256) h2 ->
  hex_enc h1 = hex_enc h2 -> h1 = h2.
Proof.
  intros h1 h2 H1 H2 E.
  apply hex_dec_pairs_hex_enc in H1. apply hex_dec_pairs_hex_enc in H2. congruence.
Qed.

Lemma hexpath_concat : forall h : bytes,
  let x := hex_enc h in
  firstn 2 x ++ firstn 2 (skipn 2 x) ++ skipn 4 x = x.
Proof.
  intros h x. clearbody x. destruct x as [|a [|b x]]; try reflexivity.
  exact (f_equal (fun l => a :: b :: l) (firstn_skipn 2 x)).
Qed.

Lemma hexpath_shape : forall h : bytes,
  length h = 32%nat -> Forall (fun b => b < 256) h ->
  exists a b c,
    hexpath h = [a; b; c] /\
    length a = 2%nat /\ length b = 2%nat /\ length c = 60%nat /\
    Forall is_hexchar a /\ Forall is_hexchar b /\ Forall is_hexchar c.
Proof.
  intros h L H. unfold hexpath. cbv zeta.
  pose proof (length_hex_enc h) as Lx. rewrite L in Lx.
  pose proof (hex_enc_is_hexchar h H) as Hx.
  set (x := hex_enc h) in *.
  exists (firstn 2 x), (firstn 2 (skipn 2 x)), (skipn 4 x).
  split; [reflexivity|].
  repeat split.
  - rewrite firstn_length. lia.
  - rewrite firstn_length, skipn_length. lia.
  - rewrite skipn_length. lia.
  - now apply Forall_firstn'.
  - now apply Forall_firstn', Forall_skipn'.
  - now apply Forall_skipn'.
Qed.

Lemma parse_hexpath : forall (pre : list bytes) (h : bytes),
  length h = 32%nat -> Forall (fun b => b < 256) h ->
  parse_path (pre ++ hexpath h) = Some h.
Proof.
  intros pre h L H. unfold parse_path, hexpath. cbv zeta.
  rewrite rev_app_distr. cbn [rev app].
  rewrite hexpath_concat. rewrite <- L. now apply hex_dec_hex_enc.
Qed.

Lemma hexpath_inj : forall h1 h2 : bytes,
  length h1 = 32%nat -> Forall (fun b => b < 256) h1 ->
  length h2 = 32%nat -> Forall (fun b => b < 256) h2 ->
  hexpath h1 = hexpath h2 -> h1 = h2.
Proof.
  intros h1 h2 L1 H1 L2 H2 E.
  pose proof (parse_hexpath [] h1 L1 H1) as P1.
  pose proof (parse_hexpath [] h2 L2 H2) as P2.
  cbn [app] in P1, P2. rewrite E in P1. congruence.
Qed.

Print Assumptions length_le_enc.
Print Assumptions le_enc_lt256.
Print Assumptions le_dec_le_enc.
Print Assumptions le_dec_u32.
Print Assumptions le_dec_u64.
Print Assumptions le_enc_le_dec.
Print Assumptions le_dec_bound.
Print Assumptions le_dec_inj.
Print Assumptions take_app.
Print Assumptions takeN_app.
Print Assumptions beqb_true_iff.
Print Assumptions by_num_trans.
Print Assumptions key_cmp_refl.
Print Assumptions key_cmp_eq.
Print Assumptions key_cmp_antisym.
Print Assumptions key_cmp_trans.
Print Assumptions key_cmp_uns_numeric.
Print Assumptions key_cmp_sig_numeric.
Print Assumptions unhexdigit_hexdigit.
Print Assumptions hex_dec_pairs_hex_enc.
Print Assumptions length_hex_enc.
Print Assumptions hex_dec_hex_enc.
Print Assumptions hexpath_shape.
Print Assumptions parse_hexpath.
Print Assumptions hexpath_inj.
