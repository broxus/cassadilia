(* ConcInv.v -- the invariant of the concurrent model theories/Conc.v.

   [ConcInv g] is an inductive invariant of [cstep] (every thread, every micro-step), it
   holds in [init_c thr0 cas0], hence in every reachable state ([reachable_inv]).

   The clauses (record [ConcInv]):
     ci_nodup      thread ids are unique
     ci_lockI/S    g_I g = Some t  <->  t is parked at a pc that holds I ([holdsI]); same for S
     ci_R          the shared holders g_R are exactly the readers parked at GOpenL, no duplicates
     ci_SR         an exclusive holder of S excludes shared holders: g_S g <> None -> g_R g = []
                   (inductive: a reader enters g_R only when g_S is free, and S is taken
                   exclusively only when g_R is empty)
     ci_idx        IdxInv cmp (g_idx g)                                  (C12 invariant)
     ci_cas_sorted / ci_cas_named   the blob directory is sorted, every blob is stored under
                   its own hash and its content occurs in the programs or in cas0
     ci_nodangling every index entry has its blob, of the recorded size   (C04)
     ci_intents    g_byhash is exactly the number of registered, not yet released intents
                   per hash ([intents], [reg]); registered = PRen, PDropI (a failed rename whose
                   guard has not been dropped yet), WLockI/S/W (WPut), and WApplied (WPut)
                   (the release happens in the step that leaves WApplied, resp. PDropI; the
                   error exit of WUnlink releases NOTHING: the put's intent is already gone)
     ci_pc         per-thread facts [pc_ok]: commit window has its blob, the pending
                   deletions are unreferenced (and unprotected after the filter), the item
                   carried by a reader is a valid item, and for a reader parked at
                   GOpenL k it md (holding S shared) km(k) = it STILL holds -- the key map only
                   changes in WLockW steps, whose thread holds S exclusively, and then nobody
                   holds it shared (ci_SR)
     ci_accounted  every blob in the directory is referenced, or protected, or pending in
                   the un/todo list of a thread at WApplied/WUnlink, or an initial orphan,
                   or something has failed ([leaked]: some path is obstructed AND some call
                   has returned CErr) (the extra clause needed for C07 at quiescence)

   Faults: the invariant holds for ARBITRARY fault parameters [bad] (obstructed blob paths) and
   [ckbad] (failing checkpoints) of the model; it depends on bad only through pc_ok (a thread is
   parked at PDropI k h _ only when bad h) and [leaked].  The error exits write nothing
   ([step_writes]), except the step leaving PDropI, which decrements the ledger once; the failed
   unlink of a write releases I and makes the pending deletions [leaked].  A checkpoint that is
   not skipped only records last_persisted_version in the index -- also when the snapshot write
   fails -- so the key map, the refcounts and IdxInv are untouched ([edge_quiet]).

   Setting: H (hash), cmp (key order, four order hypotheses), nops, the programs thr0,
   the initial blob directory cas0 (sorted, well named) and collision freedom over the
   contents that actually occur (NoCollideC). *)
From Cas Require Import SMap Index Conc.
From CasProofs Require Import SMapProofs IndexProofs.
From CasProofs Require Export ConcStep.
From Coq Require Import List NArith Lia Bool Arith.
Import ListNotations.
Open Scope N_scope.

Definition holdsI (p : pc) : bool :=
  match p with
  | WLockS _ | WLockW _ | WApplied _ _ _ | WUnlink _ _ _ | ORead _ _ _ _ | OUnlink _ _ _ _ => true
  | _ => false
  end.
Definition holdsS (p : pc) : bool :=
  match p with WLockW _ | WCkW _ _ => true | _ => false end.

Definition holdsR (p : pc) : bool :=
  match p with GOpenL _ _ _ => true | _ => false end.

(* the lock word L is held by t iff t is parked at a pc satisfying hp *)
Definition lock_inv (L : option nat) (hp : pc -> bool) (thr : list (nat * tstate)) : Prop :=
  forall t, L = Some t <-> exists ts, tget thr t = Some ts /\ hp (t_pc ts) = true.

(* the shared holders of the state lock: exactly the threads parked at GOpenL *)
Definition R_inv (R : list nat) (thr : list (nat * tstate)) : Prop :=
  NoDup R /\ forall t, In t R <-> exists ts, tget thr t = Some ts /\ holdsR (t_pc ts) = true.

(* P holds of exactly the threads parked at a pc satisfying hp.  lock_inv L hp is held_by at
   P t := (L = Some t), the second half of R_inv R at P t := In t R: the two lemmas below serve
   both *)
Definition held_by (P : nat -> Prop) (hp : pc -> bool) (thr : list (nat * tstate)) : Prop :=
  forall t, P t <-> exists ts, tget thr t = Some ts /\ hp (t_pc ts) = true.

Lemma held_self P hp thr t ts :
  held_by P hp thr -> tget thr t = Some ts -> (P t <-> hp (t_pc ts) = true).
Proof.
  intros Hinv Ht. rewrite (Hinv t). split.
  - intros (ts0 & G & Hh). rewrite Ht in G. injection G as <-. exact Hh.
  - intros Hh. exists ts. split; assumption.
Qed.

(* thread t moves to ts': P' agrees with hp on t, and with P on the threads that stay *)
Lemma held_update P P' hp thr t ts' :
  held_by P hp thr -> (P' t <-> hp (t_pc ts') = true) -> (forall u, u <> t -> (P' u <-> P u)) ->
  held_by P' hp (tset thr t ts').
Proof.
  intros Hinv Hself Hoth u. destruct (Nat.eq_dec u t) as [->|N].
  - rewrite tget_tset_same, Hself. split.
    + intros Hh. exists ts'. split; [reflexivity|exact Hh].
    + intros (x & G & Hh). injection G as <-. exact Hh.
  - rewrite (tget_tset_other _ _ _ _ N), (Hoth u N). apply Hinv.
Qed.

(* what a step p -> p' of thread t does to a lock: acquire it (it was free), release it, or
   leave the lock word alone *)
Definition lock_step (L : option nat) (hp : pc -> bool) (p p' : pc) (t : nat) (L' : option nat)
  : Prop :=
  match hp p, hp p' with
  | false, true => L = None /\ L' = Some t
  | true, false => L' = None
  | _, _ => L' = L
  end.

Lemma lock_update L hp thr t ts ts' L' :
  lock_inv L hp thr -> tget thr t = Some ts ->
  lock_step L hp (t_pc ts) (t_pc ts') t L' -> lock_inv L' hp (tset thr t ts').
Proof.
  intros Hinv Ht Hstep. pose proof (held_self _ _ _ _ _ Hinv Ht) as Hself. cbn beta in Hself.
  unfold lock_step in Hstep.
  (* by cases on whether t held the lock before, and holds it afterwards *)
  apply (held_update _ _ _ _ _ _ Hinv); [|intros u N]; revert Hstep;
    (destruct (hp (t_pc ts)), (hp (t_pc ts')); [intros ->|intros ->|intros [-> ->]|intros ->]);
    intuition congruence.
Qed.

Definition R_step (R : list nat) (p p' : pc) (t : nat) (R' : list nat) : Prop :=
  match holdsR p, holdsR p' with
  | false, true => R' = t :: R
  | true, false => R' = filter (fun u => negb (Nat.eqb u t)) R
  | _, _ => R' = R
  end.

Lemma R_update R thr t ts ts' R' :
  R_inv R thr -> tget thr t = Some ts ->
  R_step R (t_pc ts) (t_pc ts') t R' -> R_inv R' (tset thr t ts').
Proof.
  intros [ND Hinv] Ht Hstep. pose proof (held_self _ _ _ _ _ Hinv Ht) as Hself. cbn beta in Hself.
  unfold R_step in Hstep.
  assert (X : NoDup R' /\ (In t R' <-> holdsR (t_pc ts') = true) /\
              forall u, u <> t -> (In u R' <-> In u R)).
  { destruct (holdsR (t_pc ts)), (holdsR (t_pc ts')); subst R'.
    - split; [exact ND|]. split; [exact Hself|reflexivity].
    - split; [apply NoDup_filter, ND|]. split.
      + rewrite filter_In, Nat.eqb_refl. split; [intros [_ X]; exact X|discriminate].
      + intros u N. rewrite filter_In, (proj2 (Nat.eqb_neq u t) N). cbn [negb]. tauto.
    - split; [constructor; [intros I; apply Hself in I; discriminate I|exact ND]|]. split.
      + split; [reflexivity|intros _; left; reflexivity].
      + intros u N. cbn [In]. split; [intros [E|I]; [congruence|exact I]|auto].
    - split; [exact ND|]. split; [exact Hself|reflexivity]. }
  destruct X as (ND' & Xs & Xo). split; [exact ND'|]. exact (held_update _ _ _ _ _ _ Hinv Xs Xo).
Qed.

Definition call_contents (c : ccall) : list bytes :=
  match c with KPut _ c => [c] | _ => [] end.
Definition contents (thr : list (nat * list ccall)) : list bytes :=
  flat_map (fun p => flat_map call_contents (snd p)) thr.

Lemma contents_in thr t cs k c : In (t, cs) thr -> In (KPut k c) cs -> In c (contents thr).
Proof.
  intros I1 I2. unfold contents. apply in_flat_map. exists (t, cs). split; [exact I1|].
  cbn [snd]. apply in_flat_map. exists (KPut k c). split; [exact I2|left; reflexivity].
Qed.

Lemma nil_named (H : bytes -> bytes) : forall h c : bytes, In (h, c) [] -> H c = h.
Proof. intros h c []. Qed.

Lemma rcrep_pos r cnt h : RcRep r cnt -> (sm_get lex_cmp r h <> None <-> 0 < cnt h).
Proof.
  intros [_ Hr]. unfold rc_get in Hr. rewrite Hr.
  destruct (N.eqb_spec (cnt h) 0); split; intros; try lia; congruence.
Qed.

Lemma rcrep_none r cnt h : RcRep r cnt -> (sm_get lex_cmp r h = None <-> cnt h = 0).
Proof.
  intros [_ Hr]. unfold rc_get in Hr. rewrite Hr.
  destruct (N.eqb_spec (cnt h) 0); split; intros; try lia; congruence.
Qed.

Lemma register_rep bh cnt h :
  RcRep bh cnt -> RcRep (register_hash bh h) (fun x => cnt x + b01 (beqb h x)).
Proof.
  intros R. destruct (inc_ref_rep _ _ h R) as [_ R'].
  assert (E : register_hash bh h = sm_ins lex_cmp bh h (cnt h + 1)).
  { unfold register_hash. destruct R as [_ Hr]. unfold rc_get in Hr. rewrite (Hr h).
    destruct (N.eqb_spec (cnt h) 0) as [Z|Z]; [rewrite Z|]; reflexivity. }
  rewrite E. exact R'.
Qed.

Lemma release_rep bh cnt h :
  RcRep bh cnt -> 0 < cnt h -> RcRep (release_hash bh h) (fun x => cnt x - b01 (beqb h x)).
Proof.
  intros R P. unfold release_hash. rewrite (proj2 R h : sm_get lex_cmp bh h = _).
  rewrite (proj2 (N.eqb_neq _ 0)) by lia.
  destruct (N.leb_spec (cnt h) 1) as [E1|E1].
  - apply (Repr_del _ _ _ _ R); cbn beta.
    + rewrite b01_same. replace (cnt h - 1) with 0 by lia. reflexivity.
    + intros x N. now rewrite (b01_other _ _ N), N.sub_0_r.
  - apply (Repr_ins _ _ _ _ _ R); cbn beta.
    + now rewrite b01_same, (proj2 (N.eqb_neq _ 0)) by lia.
    + intros x N. now rewrite (b01_other _ _ N), N.sub_0_r.
Qed.

Section Intents.
  Variable H : bytes -> bytes.

  (* thread parked at p has a registered, not yet released intent on hash h *)
  Definition reg (p : pc) (h : bytes) : bool :=
    match p with
    | PRen _ c _ => beqb (H c) h
    | PDropI _ h' _ => beqb h' h
    | WLockI (WPut _ h' _) | WLockS (WPut _ h' _) | WLockW (WPut _ h' _)
    | WApplied (WPut _ h' _) _ _ => beqb h' h
    | _ => false
    end.

  Fixpoint intents (l : list (nat * tstate)) (h : bytes) : N :=
    match l with
    | [] => 0
    | (_, s) :: r => b01 (reg (t_pc s) h) + intents r h
    end.

  Lemma intents_tset l t s s' h :
    tget l t = Some s ->
    intents (tset l t s') h + b01 (reg (t_pc s) h) = intents l h + b01 (reg (t_pc s') h).
  Proof.
    induction l as [|[v x] r IH]; cbn [tget tset intents]; [discriminate|].
    destruct (Nat.eqb t v) eqn:E; cbn [intents].
    - intros G; inversion G; subst. lia.
    - intros G. specialize (IH G). lia.
  Qed.

  Lemma intents_pos l t s h : tget l t = Some s -> reg (t_pc s) h = true -> 0 < intents l h.
  Proof.
    induction l as [|[v x] r IH]; cbn [tget intents]; [discriminate|].
    destruct (Nat.eqb t v) eqn:E.
    - intros G; inversion G; subst. intros ->. cbn [b01]. lia.
    - intros G R. specialize (IH G R). lia.
  Qed.

  Lemma intents_zero l h : (forall t s, In (t, s) l -> reg (t_pc s) h = false) -> intents l h = 0.
  Proof.
    induction l as [|[v x] r IH]; intros A; cbn [intents]; [reflexivity|].
    rewrite (A v x) by (left; reflexivity). rewrite IH; [reflexivity|].
    intros t s I. apply (A t s). right; exact I.
  Qed.
End Intents.

(* pending deletions announced by a pc *)
Definition pending (p : pc) (h : bytes) : Prop :=
  match p with
  | WApplied _ un _ => In h un
  | WUnlink _ todo _ => In h todo
  | _ => False
  end.

Section ConcInv.
  Variable H : bytes -> bytes.
  Variable cmp : bytes -> bytes -> comparison.
  Hypothesis cmp_refl : forall a, cmp a a = Eq.
  Hypothesis cmp_eq : forall a b, cmp a b = Eq -> a = b.
  Hypothesis cmp_antisym : forall a b, cmp b a = CompOpp (cmp a b).
  Hypothesis cmp_trans : forall a b c, cmp a b = Lt -> cmp b c = Lt -> cmp a c = Lt.
  Variable nops : N.
  Variable bad : bytes -> bool.
  Variable ckbad : bool.
  Variable thr0 : list (nat * list ccall).
  Hypothesis thr0_nodup : NoDup (map fst thr0).
  Variable cas0 : smap bytes.
  Hypothesis cas0_sorted : sorted lex_cmp cas0.
  Hypothesis cas0_named : forall h c, In (h, c) cas0 -> H c = h.

  Collection Ord := cmp_refl cmp_eq cmp_antisym cmp_trans.
  Local Notation at_cmp L := (L cmp cmp_refl cmp_eq cmp_antisym cmp_trans) (only parsing).

  (* every content that can ever reach the blob directory *)
  Definition allc : list bytes := contents thr0 ++ map snd cas0.
  Hypothesis NoCollideC : forall a b, In a allc -> In b allc -> H a = H b -> a = b.

  Definition reachable (g : cstate) : Prop :=
    exists sched, g = crun H cmp nops bad ckbad (init_c thr0 cas0) sched.

  (* the blob of hash h is in the directory, with the right name and size *)
  Definition blob_ok (cas : smap bytes) (h : bytes) (sz : N) : Prop :=
    exists c, sm_get lex_cmp cas h = Some c /\ H c = h /\ len c = sz.

  Definition valid_item (it : item) : Prop :=
    exists c, In c allc /\ H c = ihash it /\ len c = isize it.

  Definition calls_ok (cs : list ccall) : Prop :=
    forall k c, In (KPut k c) cs -> In c (contents thr0).

  (* what is known about a thread parked at p, in terms of the key map, the intent table
     and the blob directory *)
  Definition pc_ok (m : smap item) (bh : smap N) (cas : smap bytes) (p : pc) : Prop :=
    match p with
    | PReg _ c | PILock _ c | PRen _ c _ => In c (contents thr0)
    | PDropI _ h _ => bad h = true
    | WLockI (WPut _ h sz) | WLockS (WPut _ h sz) | WLockW (WPut _ h sz) => blob_ok cas h sz
    | WApplied w un _ =>
      (forall h, In h un -> count_refs m h = 0) /\
      match w with WPut _ h _ => 0 < count_refs m h | WRm _ _ => True end
    | WUnlink _ todo _ =>
      todo <> [] /\ forall h, In h todo -> count_refs m h = 0 /\ sm_get lex_cmp bh h = None
    | OUnlink h _ _ _ => count_refs m h = 0 /\ sm_get lex_cmp bh h = None
    | GLooked _ it _ | GOpen _ it _ | GReread _ it _ => valid_item it
    | GOpenL k it _ => sm_get cmp m k = Some it
    | _ => True
    end.

  (* a deletion has failed (or an intent was reverted after a failed rename): some path is
     obstructed and some call has returned an error *)
  Definition leaked (thr : list (nat * tstate)) : Prop :=
    (exists x, bad x = true) /\ exists t ts, tget thr t = Some ts /\ In CErr (t_res ts).

  Definition accounted (m : smap item) (bh : smap N) (thr : list (nat * tstate)) (h : bytes)
    : Prop :=
    0 < count_refs m h \/
    sm_get lex_cmp bh h <> None \/
    (exists t ts, tget thr t = Some ts /\ pending (t_pc ts) h) \/
    In h (map fst cas0) \/
    leaked thr.

  Record ConcInv (g : cstate) : Prop := mkConcInv {
    ci_nodup : NoDup (map fst (g_thr g));
    ci_lockI : lock_inv (g_I g) holdsI (g_thr g);
    ci_lockS : lock_inv (g_S g) holdsS (g_thr g);
    ci_R : R_inv (g_R g) (g_thr g);
    ci_SR : g_S g <> None -> g_R g = [];
    ci_idx : IdxInv cmp (g_idx g);
    ci_cas_sorted : sorted lex_cmp (g_cas g);
    ci_cas_named : forall h c, In (h, c) (g_cas g) -> H c = h /\ In c allc;
    ci_nodangling : forall k it, In (k, it) (km (g_idx g)) ->
                                 blob_ok (g_cas g) (ihash it) (isize it);
    ci_intents : RcRep (g_byhash g) (intents H (g_thr g));
    ci_pc : forall t ts, tget (g_thr g) t = Some ts ->
                         pc_ok (km (g_idx g)) (g_byhash g) (g_cas g) (t_pc ts) /\
                         calls_ok (t_calls ts);
    ci_accounted : forall h c, sm_get lex_cmp (g_cas g) h = Some c ->
                               accounted (km (g_idx g)) (g_byhash g) (g_thr g) h
  }.

  (* the key map and the intent table only matter to threads that hold I *)
  Lemma pc_ok_frame m bh m' bh' cas p :
    holdsI p = false -> holdsR p = false -> pc_ok m bh cas p -> pc_ok m' bh' cas p.
  Proof using.
    destruct p; cbn [holdsI holdsR pc_ok]; try discriminate; auto.
  Qed.

  (* the intent table alone only matters to threads that hold I *)
  Lemma pc_ok_frame_bh m bh bh' cas p :
    holdsI p = false -> pc_ok m bh cas p -> pc_ok m bh' cas p.
  Proof using.
    destruct p; cbn [holdsI pc_ok]; try discriminate; auto.
  Qed.

  Lemma blob_ok_ins cas c hx sz :
    sorted lex_cmp cas -> (forall h c, In (h, c) cas -> H c = h /\ In c allc) -> In c allc ->
    blob_ok cas hx sz -> blob_ok (sm_ins lex_cmp cas (H c) c) hx sz.
  Proof using NoCollideC.
    intros S Nm Ic (c0 & G & Hh & Hl).
    destruct (key_eq_dec hx (H c)) as [E|E].
    - subst hx. assert (c0 = c).
      { apply NoCollideC; try assumption.
        apply (lex_get_in _ _ _ S) in G. apply Nm in G. apply G. }
      subst c0. exists c. split; [apply lex_get_ins_same|]. split; assumption.
    - exists c0. split; [|split; assumption].
      rewrite lex_get_ins_other by assumption. exact G.
  Qed.

  Lemma pc_ok_ins m bh cas c p :
    sorted lex_cmp cas -> (forall h c, In (h, c) cas -> H c = h /\ In c allc) -> In c allc ->
    pc_ok m bh cas p -> pc_ok m bh (sm_ins lex_cmp cas (H c) c) p.
  Proof using NoCollideC.
    intros S Nm Ic.
    destruct p; cbn [pc_ok]; auto;
      destruct w; auto; apply blob_ok_ins; assumption.
  Qed.

  Lemma blob_ok_del cas h hx sz :
    sorted lex_cmp cas -> hx <> h -> blob_ok cas hx sz -> blob_ok (sm_del lex_cmp cas h) hx sz.
  Proof using.
    intros S N (c0 & G & Hh & Hl). exists c0. split; [|split; assumption].
    rewrite lex_get_del_other by assumption. exact G.
  Qed.

  Lemma pc_ok_del m bh cas h p :
    sorted lex_cmp cas -> (forall x, reg H p x = true -> x <> h) ->
    pc_ok m bh cas p -> pc_ok m bh (sm_del lex_cmp cas h) p.
  Proof using.
    intros S R.
    destruct p; cbn [pc_ok]; auto;
      destruct w as [k0 hx sz|]; auto; apply blob_ok_del; try assumption;
      apply R; cbn [reg]; apply beqb_refl.
  Qed.

  (* what every step does to the locks and to the pending calls *)
  Local Notation edge := (edge H cmp nops bad ckbad).

  Lemma edge_locks g t p cs p' cs' out sh : edge g t p cs p' cs' out sh ->
    lock_step (g_I g) holdsI p p' t (g_I sh) /\ lock_step (g_S g) holdsS p p' t (g_S sh) /\
    R_step (g_R g) p p' t (g_R sh).
  Proof using.
    intros E. destruct E; try (repeat split; assumption).
    destruct c as [| | | | | | | | |[|]]; repeat split.
  Qed.

  Lemma edge_SR g t p cs p' cs' out sh : edge g t p cs p' cs' out sh ->
    (g_S g <> None -> g_R g = []) -> g_S sh <> None -> g_R sh = [].
  Proof using.
    intros E SR. destruct E; try exact SR; cbn [g_S g_R set_S set_R set_index]; intros X;
      try (destruct (X eq_refl)); try assumption.
    - destruct (X FS).
    - rewrite (SR X). reflexivity.
    - rewrite (SR X). reflexivity.
    - rewrite (SR X). reflexivity.
  Qed.

  Lemma edge_calls_ok g t p cs p' cs' out sh :
    edge g t p cs p' cs' out sh -> calls_ok cs -> calls_ok cs'.
  Proof using.
    intros E C. destruct E; try exact C. intros k0 c0 I0. apply (C k0 c0). right; exact I0.
  Qed.

  (* the generic preservation lemma: thread t takes a step; the clauses about the locks and
     the pending calls hold by the three lemmas above, the others are the obligations *)
  Lemma step_general g t cs p res p' cs' out sh :
    ConcInv g -> tget (g_thr g) t = Some (mkT cs p res) -> edge g t p cs p' cs' out sh ->
    IdxInv cmp (g_idx sh) ->
    sorted lex_cmp (g_cas sh) ->
    (forall h c, In (h, c) (g_cas sh) -> H c = h /\ In c allc) ->
    (forall k it, In (k, it) (km (g_idx sh)) -> blob_ok (g_cas sh) (ihash it) (isize it)) ->
    RcRep (g_byhash sh) (fun h => intents H (g_thr g) h + b01 (reg H p' h) - b01 (reg H p h)) ->
    pc_ok (km (g_idx sh)) (g_byhash sh) (g_cas sh) p' ->
    (forall u tsu, u <> t -> tget (g_thr g) u = Some tsu ->
       pc_ok (km (g_idx g)) (g_byhash g) (g_cas g) (t_pc tsu) ->
       pc_ok (km (g_idx sh)) (g_byhash sh) (g_cas sh) (t_pc tsu)) ->
    (forall h c, sm_get lex_cmp (g_cas sh) h = Some c ->
       accounted (km (g_idx sh)) (g_byhash sh) (tset (g_thr g) t (mkT cs' p' (emit res out))) h) ->
    ConcInv (set_thr sh t (mkT cs' p' (emit res out))).
  Proof using.
    intros Inv Ht E HIdx HSo HNm HNd HRc Hself Hoth Hacc.
    destruct (edge_locks _ _ _ _ _ _ _ _ E) as (LI & LS & LR).
    destruct (ci_pc _ Inv _ _ Ht) as [_ Ct].
    unfold set_thr. rewrite (edge_thr E).
    constructor; cbn [g_idx g_bykey g_byhash g_cas g_nextv g_I g_S g_R g_thr]; try assumption.
    - rewrite (tset_fst _ _ _ _ Ht). apply (ci_nodup _ Inv).
    - apply (lock_update _ _ _ _ _ _ _ (ci_lockI _ Inv) Ht). exact LI.
    - apply (lock_update _ _ _ _ _ _ _ (ci_lockS _ Inv) Ht). exact LS.
    - apply (R_update _ _ _ _ _ _ (ci_R _ Inv) Ht). exact LR.
    - exact (edge_SR _ _ _ _ _ _ _ _ E (ci_SR _ Inv)).
    - eapply RcRep_ext; [|exact HRc]. intros h. cbn beta.
      pose proof (intents_tset H _ _ _ (mkT cs' p' (emit res out)) h Ht) as X.
      cbn [t_pc] in X. lia.
    - intros u tsu G. destruct (Nat.eq_dec u t) as [->|N].
      + rewrite tget_tset_same in G. injection G as <-.
        split; [exact Hself|exact (edge_calls_ok _ _ _ _ _ _ _ _ E Ct)].
      + rewrite (tget_tset_other _ _ _ _ N) in G.
        destruct (ci_pc _ Inv _ _ G) as [P C]. split; [|exact C].
        eapply Hoth; eassumption.
  Qed.

  Lemma accounted_step m bh thr t ts ts' m' bh' h :
    tget thr t = Some ts ->
    incl (t_res ts) (t_res ts') ->
    accounted m bh thr h ->
    (0 < count_refs m h -> accounted m' bh' (tset thr t ts') h) ->
    (sm_get lex_cmp bh h <> None -> accounted m' bh' (tset thr t ts') h) ->
    (pending (t_pc ts) h -> accounted m' bh' (tset thr t ts') h) ->
    accounted m' bh' (tset thr t ts') h.
  Proof using.
    intros Ht Hres [A|[A|[(u & tsu & G & P)|[A|(Bx & u & tsu & G & P)]]]] H1 H2 H3.
    - apply H1, A.
    - apply H2, A.
    - destruct (Nat.eq_dec u t) as [->|N].
      + rewrite Ht in G. inversion G; subst tsu. apply H3, P.
      + right; right; left. exists u, tsu. split; [|exact P].
        rewrite (tget_tset_other _ _ _ _ N). exact G.
    - right; right; right; left. exact A.
    - right; right; right; right. split; [exact Bx|].
      destruct (Nat.eq_dec u t) as [->|N].
      + rewrite Ht in G. inversion G; subst tsu. exists t, ts'.
        split; [apply tget_tset_same|apply Hres, P].
      + exists u, tsu. split; [|exact P]. rewrite (tget_tset_other _ _ _ _ N). exact G.
  Qed.

  Lemma acc_ref m bh thr h : 0 < count_refs m h -> accounted m bh thr h.
  Proof using. intros A; left; exact A. Qed.
  Lemma acc_prot m bh thr h : sm_get lex_cmp bh h <> None -> accounted m bh thr h.
  Proof using. intros A; right; left; exact A. Qed.
  Lemma acc_pend m bh thr t ts' h : pending (t_pc ts') h -> accounted m bh (tset thr t ts') h.
  Proof using.
    intros A; right; right; left. exists t, ts'. split; [apply tget_tset_same|exact A].
  Qed.
  Lemma acc_leak m bh thr t ts' x h :
    bad x = true -> In CErr (t_res ts') -> accounted m bh (tset thr t ts') h.
  Proof using.
    intros B A; right; right; right; right. split; [exists x; exact B|].
    exists t, ts'. split; [apply tget_tset_same|exact A].
  Qed.

  Lemma holds_I_iff g t ts :
    ConcInv g -> tget (g_thr g) t = Some ts -> (g_I g = Some t <-> holdsI (t_pc ts) = true).
  Proof using. intros Inv. apply (held_self _ _ _ _ _ (ci_lockI _ Inv)). Qed.

  Lemma holds_S_iff g t ts :
    ConcInv g -> tget (g_thr g) t = Some ts -> (g_S g = Some t <-> holdsS (t_pc ts) = true).
  Proof using. intros Inv. apply (held_self _ _ _ _ _ (ci_lockS _ Inv)). Qed.

  Lemma holds_R_iff g t ts :
    ConcInv g -> tget (g_thr g) t = Some ts -> (In t (g_R g) <-> holdsR (t_pc ts) = true).
  Proof using. intros Inv. apply (held_self _ _ _ _ _ (proj2 (ci_R _ Inv))). Qed.

  Lemma nobody_holds_I g u tsu :
    ConcInv g -> g_I g = None -> tget (g_thr g) u = Some tsu -> holdsI (t_pc tsu) = false.
  Proof using.
    intros Inv E G. destruct (holdsI (t_pc tsu)) eqn:Hh; [|reflexivity].
    apply (holds_I_iff g u tsu Inv G) in Hh. congruence.
  Qed.

  Lemma only_one_holds_I g t ts u tsu :
    ConcInv g -> tget (g_thr g) t = Some ts -> holdsI (t_pc ts) = true -> u <> t ->
    tget (g_thr g) u = Some tsu -> holdsI (t_pc tsu) = false.
  Proof using.
    intros Inv Ht Hh N G. destruct (holdsI (t_pc tsu)) eqn:Hu; [|reflexivity].
    apply (holds_I_iff g u tsu Inv G) in Hu. apply (holds_I_iff g t ts Inv Ht) in Hh. congruence.
  Qed.

  Lemma nobody_reads g u tsu :
    ConcInv g -> g_R g = [] -> tget (g_thr g) u = Some tsu -> holdsR (t_pc tsu) = false.
  Proof using.
    intros Inv E G. destruct (holdsR (t_pc tsu)) eqn:Hh; [|reflexivity].
    apply (holds_R_iff g u tsu Inv G) in Hh. rewrite E in Hh. destruct Hh.
  Qed.

  Lemma SR_keep g : ConcInv g -> g_S g <> None -> g_R g = [].
  Proof using. intros Inv. apply (ci_SR _ Inv). Qed.

  Lemma registered_protected g t ts h :
    ConcInv g -> tget (g_thr g) t = Some ts -> reg H (t_pc ts) h = true ->
    sm_get lex_cmp (g_byhash g) h <> None.
  Proof using.
    intros Inv Ht R. apply (rcrep_pos _ _ _ (ci_intents _ Inv)).
    eapply intents_pos; eassumption.
  Qed.

  Lemma inv_no_dangling g k it :
    ConcInv g -> sm_get cmp (km (g_idx g)) k = Some it ->
    blob_ok (g_cas g) (ihash it) (isize it).
  Proof using Ord.
    intros Inv G. apply (at_cmp get_some_In) in G. apply (ci_nodangling _ Inv _ _ G).
  Qed.

  Lemma km_valid_item g k it :
    ConcInv g -> sm_get cmp (km (g_idx g)) k = Some it -> valid_item it.
  Proof using Ord.
    intros Inv G. destruct (inv_no_dangling g k it Inv G) as (c & Gc & Hh & Hl).
    apply (lex_get_in _ _ _ (ci_cas_sorted _ Inv)) in Gc.
    exists c. split; [apply (ci_cas_named _ Inv _ _ Gc)|split; assumption].
  Qed.

  (* a blob is the only content of its name that can ever be stored *)
  Lemma stored_unique g h c x : ConcInv g -> sm_get lex_cmp (g_cas g) h = Some c ->
    In x allc -> H x = h -> x = c.
  Proof using NoCollideC.
    intros Inv G Ix Hx. apply (lex_get_in _ _ _ (ci_cas_sorted _ Inv)) in G.
    destruct (ci_cas_named _ Inv _ _ G) as [Hc Ic].
    apply NoCollideC; [exact Ix|exact Ic|congruence].
  Qed.

  (* the content found by open_blob under the hash of a valid item is the item's content *)
  Lemma open_content g it c : ConcInv g -> valid_item it ->
    sm_get lex_cmp (g_cas g) (ihash it) = Some c ->
    In c allc /\ H c = ihash it /\ len c = isize it.
  Proof using NoCollideC.
    intros Inv (c0 & Ic0 & Hh0 & Hl0) G.
    rewrite <- (stored_unique g _ c c0 Inv G Ic0 Hh0). repeat split; assumption.
  Qed.

  (* the item a key holds names a stored blob, by its hash and with its length *)
  Lemma stored_item g k it : ConcInv g -> sm_get cmp (km (g_idx g)) k = Some it ->
    exists x, sm_get lex_cmp (g_cas g) (ihash it) = Some x /\ it = mkItem (H x) (len x) /\
              forall x', In x' allc -> H x' = ihash it -> x' = x.
  Proof using Ord NoCollideC.
    intros Inv G. destruct (inv_no_dangling g k it Inv G) as (x & Gc & Hh & Hl).
    exists x. split; [exact Gc|]. split; [destruct it as [h sz]; cbn [ihash isize] in *; congruence|].
    intros x'. apply (stored_unique g); assumption.
  Qed.

  Lemma not_ref_prot g h :
    ConcInv g -> referenced g h || protects g h = false ->
    count_refs (km (g_idx g)) h = 0 /\ sm_get lex_cmp (g_byhash g) h = None.
  Proof using.
    intros Inv E. apply orb_false_iff in E. destruct E as [E1 E2].
    unfold referenced in E1. unfold protects in E2. split.
    - destruct (ci_idx _ Inv) as (_ & _ & Hr & _). rewrite Hr in E1.
      destruct (N.eqb_spec (count_refs (km (g_idx g)) h) 0); [assumption|discriminate].
    - destruct (sm_get lex_cmp (g_byhash g) h); [discriminate|reflexivity].
  Qed.

  (* the steps that write the intent table, the blob directory or the key map (unlinking
     an orphan whose path is obstructed writes nothing); every other step changes at most lock
     words and the persisted version *)
  Definition step_writes (p p' : pc) : bool :=
    match p, p' with
    | PILock _ _, _ | PRen _ _ _, WLockI _ | PDropI _ _ _, _ | WLockW _, _ | WApplied _ _ _, _
    | WUnlink _ _ _, WReleased _ _ | WUnlink _ _ _, WUnlink _ _ _ => true
    | OUnlink h _ _ _, _ => negb (bad h)
    | _, _ => false
    end.

  Lemma edge_quiet g t p cs p' cs' out sh : edge g t p cs p' cs' out sh -> step_writes p p' = false ->
    g_byhash sh = g_byhash g /\ g_cas sh = g_cas g /\ km (g_idx sh) = km (g_idx g) /\
    (IdxInv cmp (g_idx g) -> IdxInv cmp (g_idx sh)) /\
    (forall h, reg H p' h = reg H p h) /\
    (forall h, pending p h -> (exists x, bad x = true) /\ out = Some CErr).
  Proof using.
    (* a rule whose step does not write changes at most lock words and the persisted version,
       which the first four clauses do not see (an obstructed orphan is not unlinked:
       unlink_orphan_cas); it neither registers nor releases an intent; and it drops pending
       deletions only at E_unlink_fail, which returns CErr, the path being obstructed *)
    intros E W.
    destruct E; try discriminate W.
    all: try (apply negb_false_iff in W; apply unlink_orphan_cas in Uo; rewrite W in Uo; subst cas').
    all: split; [reflexivity|].
    all: split; [reflexivity|].
    all: split; [reflexivity|].
    all: split; [exact (fun X => X)|].
    all: split; [|try solve [intros ? []]].
    all: try (intros; reflexivity).
    - destruct c as [| | | | | | | | |[|]]; reflexivity.
    - intros x _. split; [exists h; exact Bd|reflexivity].
  Qed.

  Lemma edge_quiet_ok g t p cs p' cs' out sh :
    ConcInv g -> edge g t p cs p' cs' out sh -> step_writes p p' = false ->
    pc_ok (km (g_idx g)) (g_byhash g) (g_cas g) p -> calls_ok cs ->
    pc_ok (km (g_idx g)) (g_byhash g) (g_cas g) p'.
  Proof using Ord.
    intros Inv E W Pt Ct. destruct E; try discriminate W; cbn [pc_ok] in Pt |- *; try exact I;
      try exact Pt.
    - destruct c as [k c| | | | | | | | |[|]]; try exact I. apply (Ct k c). left; reflexivity.
    - exact Bd.
    - eapply km_valid_item; eassumption.
    - exact Gk.
    - apply not_ref_prot; assumption.
  Qed.

  Lemma quiet_inv g t cs p res p' cs' out sh :
    ConcInv g -> tget (g_thr g) t = Some (mkT cs p res) ->
    edge g t p cs p' cs' out sh -> step_writes p p' = false ->
    ConcInv (set_thr sh t (mkT cs' p' (emit res out))).
  Proof using Ord.
    intros Inv Ht E W. destruct (ci_pc _ Inv _ _ Ht) as [Pt Ct].
    destruct (edge_quiet _ _ _ _ _ _ _ _ E W) as (Ebh & Ecas & Ekm & Eidx & Ereg & Epend).
    apply (step_general _ _ _ _ _ _ _ _ _ Inv Ht E); rewrite ?Ebh, ?Ecas, ?Ekm.
    - apply Eidx, (ci_idx _ Inv).
    - apply (ci_cas_sorted _ Inv).
    - apply (ci_cas_named _ Inv).
    - apply (ci_nodangling _ Inv).
    - eapply RcRep_ext; [|apply (ci_intents _ Inv)]. intros h. cbn beta. rewrite Ereg. lia.
    - exact (edge_quiet_ok _ _ _ _ _ _ _ _ Inv E W Pt Ct).
    - intros u tsu _ _ P. exact P.
    - intros h c G.
      eapply accounted_step; [exact Ht|apply emit_incl|apply (ci_accounted _ Inv _ _ G)| | |].
      + apply acc_ref.
      + apply acc_prot.
      + intros P. destruct (Epend h P) as [[x Bx] ->].
        apply (acc_leak _ _ _ _ _ x); [exact Bx|]. apply in_elt.
  Qed.

  (* steps that change the intent table only; they are made by the holder of I, or with I
     free: what is known of the other threads does not mention the table *)
  Lemma step_ledger g t cs p res p' cs' out sh :
    ConcInv g -> tget (g_thr g) t = Some (mkT cs p res) -> edge g t p cs p' cs' out sh ->
    g_idx sh = g_idx g -> g_cas sh = g_cas g ->
    g_I g = None \/ holdsI p = true ->
    RcRep (g_byhash sh) (fun h => intents H (g_thr g) h + b01 (reg H p' h) - b01 (reg H p h)) ->
    pc_ok (km (g_idx g)) (g_byhash sh) (g_cas g) p' ->
    (forall h, sm_get lex_cmp (g_byhash g) h <> None \/ pending p h ->
               accounted (km (g_idx g)) (g_byhash sh)
                         (tset (g_thr g) t (mkT cs' p' (emit res out))) h) ->
    ConcInv (set_thr sh t (mkT cs' p' (emit res out))).
  Proof using.
    intros Inv Ht E Eidx Ecas Hold RR Pself Hacc.
    apply (step_general _ _ _ _ _ _ _ _ _ Inv Ht E); rewrite ?Eidx, ?Ecas; try assumption.
    - apply (ci_idx _ Inv).
    - apply (ci_cas_sorted _ Inv).
    - apply (ci_cas_named _ Inv).
    - apply (ci_nodangling _ Inv).
    - intros u tsu N G P. eapply pc_ok_frame_bh; [|exact P]. destruct Hold as [E0|Hh].
      + eapply nobody_holds_I; eassumption.
      + apply (only_one_holds_I g t _ u tsu Inv Ht); assumption.
    - intros h c G.
      eapply accounted_step; [exact Ht|apply emit_incl|apply (ci_accounted _ Inv _ _ G)| | |].
      + apply acc_ref.
      + intros A. apply Hacc. left; exact A.
      + intros A. apply Hacc. right; exact A.
  Qed.

  (* WApplied: release the intent, filter the unreferenced hashes *)
  Lemma step_wapplied g t cs res w un rolled p' sh :
    ConcInv g -> tget (g_thr g) t = Some (mkT cs (WApplied w un rolled) res) ->
    edge g t (WApplied w un rolled) cs p' cs None sh ->
    let bh' := wbh w (g_byhash g) in
    let un' := filter (unprot_in bh') un in
    g_idx sh = g_idx g -> g_cas sh = g_cas g -> g_byhash sh = bh' ->
    (un' = [] /\ p' = WReleased w rolled) \/ (un' <> [] /\ p' = WUnlink w un' rolled) ->
    ConcInv (set_thr sh t (mkT cs p' res)).
  Proof using.
    intros Inv Ht E bh' un' Eidx Ecas Ebh Hcase.
    destruct (ci_pc _ Inv _ _ Ht) as [[Pun Pw] _].
    assert (Hreg' : forall x, reg H p' x = false).
    { intros x. destruct Hcase as [(_ & ->)|(_ & ->)]; reflexivity. }
    assert (RR : RcRep bh' (fun x => intents H (g_thr g) x - b01 (reg H (WApplied w un rolled) x))).
    { unfold bh'. destruct w as [k h sz|ks r]; cbn [wbh reg].
      - apply release_rep; [apply (ci_intents _ Inv)|].
        apply (intents_pos H _ _ _ _ Ht). apply beqb_refl.
      - eapply RcRep_ext; [|apply (ci_intents _ Inv)]. intros x. cbn [b01]. lia. }
    apply (step_ledger _ _ _ _ _ _ _ _ _ Inv Ht E Eidx Ecas); rewrite ?Ebh.
    - right; reflexivity.
    - eapply RcRep_ext; [|exact RR]. intros x. cbn beta. rewrite Hreg'. cbn [b01]. lia.
    - destruct Hcase as [(_ & ->)|(NE & ->)]; cbn [pc_ok]; [exact I|].
      split; [exact NE|]. intros h Hin. apply filter_In in Hin. destruct Hin as [Hin Hf].
      split; [apply Pun, Hin|]. unfold unprot_in in Hf.
      destruct (sm_get lex_cmp bh' h); [discriminate|reflexivity].
    - (* a hash left unprotected by the release is referenced (the put's own), or stays
         pending if it was *)
      intros h A. destruct (sm_get lex_cmp bh' h) eqn:E0; [apply acc_prot; congruence|].
      destruct A as [A|Hin].
      + apply acc_ref.
        apply (rcrep_none _ _ _ RR) in E0. apply (rcrep_pos _ _ _ (ci_intents _ Inv)) in A.
        destruct w as [k hw sz|ks r]; cbn [reg] in E0.
        * destruct (beqb hw h) eqn:B; cbn [b01] in E0; [|lia].
          apply beqb_true_iff in B. subst hw. exact Pw.
        * cbn [b01] in E0. lia.
      + cbn [pending] in Hin.
        assert (Hin' : In h un').
        { apply filter_In. split; [exact Hin|]. unfold unprot_in. rewrite E0. reflexivity. }
        destruct Hcase as [(E' & _)|(_ & ->)].
        * rewrite E' in Hin'. destruct Hin'.
        * apply acc_pend. exact Hin'.
  Qed.

  (* unlinking an unreferenced, unprotected blob (WUnlink and OUnlink) *)
  Lemma step_unlink g t cs p res p' cs' out sh h :
    ConcInv g -> tget (g_thr g) t = Some (mkT cs p res) -> edge g t p cs p' cs' out sh ->
    g_idx sh = g_idx g -> g_byhash sh = g_byhash g -> g_cas sh = sm_del lex_cmp (g_cas g) h ->
    count_refs (km (g_idx g)) h = 0 -> sm_get lex_cmp (g_byhash g) h = None ->
    (forall x, reg H p x = false) -> (forall x, reg H p' x = false) ->
    pc_ok (km (g_idx g)) (g_byhash g) (sm_del lex_cmp (g_cas g) h) p' ->
    (forall x, x <> h -> pending p x -> pending p' x) ->
    ConcInv (set_thr sh t (mkT cs' p' (emit res out))).
  Proof using.
    intros Inv Ht E Eidx Ebh Ecas Hun Hup Hr Hr' Pself Hpend.
    pose proof (ci_cas_sorted _ Inv) as S.
    apply (step_general _ _ _ _ _ _ _ _ _ Inv Ht E); rewrite ?Eidx, ?Ebh, ?Ecas.
    - apply (ci_idx _ Inv).
    - apply lex_sorted_del, S.
    - intros x c I. apply In_sm_del in I. apply (ci_cas_named _ Inv _ _ I).
    - intros k it I. apply blob_ok_del; [exact S| |apply (ci_nodangling _ Inv _ _ I)].
      intros E0. apply count_pos_in in I. rewrite E0 in I. lia.
    - eapply RcRep_ext; [|apply (ci_intents _ Inv)]. intros x. cbn beta.
      rewrite Hr, Hr'. cbn [b01]. lia.
    - exact Pself.
    - intros u tsu N G P. apply pc_ok_del; [exact S| |exact P].
      intros x R E0. subst x.
      apply (registered_protected g u tsu h Inv G R). exact Hup.
    - intros x c G.
      assert (N : x <> h).
      { intros ->. rewrite lex_get_del_same in G by exact S. discriminate. }
      rewrite lex_get_del_other in G by assumption.
      eapply accounted_step; [exact Ht|apply emit_incl|apply (ci_accounted _ Inv _ _ G)| | |].
      + apply acc_ref.
      + apply acc_prot.
      + intros P. apply acc_pend. apply Hpend; assumption.
  Qed.

  Definition in_window (p : pc) (w : wkind) : Prop :=
    p = WLockI w \/ p = WLockS w \/ p = WLockW w.

  Lemma window_respects g t ts w :
    ConcInv g -> tget (g_thr g) t = Some ts -> in_window (t_pc ts) w ->
    op_respects_sizes (g_idx g) (wop w).
  Proof using.
    intros Inv Ht W. destruct w as [k h sz|ks r]; cbn [wop op_respects_sizes]; [|exact I].
    destruct (ci_pc _ Inv _ _ Ht) as [Pt _].
    assert (B : blob_ok (g_cas g) h sz).
    { destruct W as [E|[E|E]]; rewrite E in Pt; exact Pt. }
    intros k' i Ii Eh. destruct B as (c & G & _ & Hl).
    destruct (ci_nodangling _ Inv _ _ Ii) as (c' & G' & _ & Hl').
    rewrite Eh, G in G'. inversion G'; subst c'. congruence.
  Qed.

  (* the steps that write, rule by rule *)
  Theorem cstep_inv g t g' : ConcInv g -> cstep H cmp nops bad ckbad g t = Some g' -> ConcInv g'.
  Proof using Ord NoCollideC.
    intros Inv St. destruct (cstep_tget St) as [[cs p res] Ht].
    destruct (cstep_spec Ht St) as (p' & cs' & out & sh & E & ->). cbn [t_pc t_calls t_res] in E |- *.
    destruct (step_writes p p') eqn:W; [|exact (quiet_inv _ _ _ _ _ _ _ _ _ Inv Ht E W)].
    destruct (ci_pc _ Inv _ _ Ht) as [Pt Ct]. cbn [t_pc] in Pt.
    pose proof (ci_cas_sorted _ Inv) as S. pose proof (ci_intents _ Inv) as RI.
    pose proof E as E'. destruct E; try discriminate W; cbn [pc_ok] in Pt.
    - (* E_ilock: the intent is registered *)
      pose proof (register_rep _ _ (H c) RI) as RR.
      apply (step_ledger _ _ _ _ _ _ _ _ _ Inv Ht E'); try reflexivity.
      + left; exact FI.
      + eapply RcRep_ext; [|exact RR]. intros h. cbn [reg b01]. lia.
      + exact Pt.
      + intros h [A|[]]. apply acc_prot.
        apply (rcrep_pos _ _ _ RR). apply (rcrep_pos _ _ _ RI) in A. cbn beta. lia.
    - (* E_ren: the blob appears under its canonical name *)
      assert (Ic : In c allc) by (apply in_or_app; left; exact Pt).
      pose proof (ci_cas_named _ Inv) as Nm.
      apply (step_general _ _ _ _ _ _ _ _ _ Inv Ht E'); cbn [g_idx g_byhash g_cas set_cas].
      + apply (ci_idx _ Inv).
      + apply lex_sorted_ins, S.
      + intros h c0 I0. apply In_sm_ins in I0. destruct I0 as [I0|I0]; [|apply Nm, I0].
        inversion I0; subst. split; [reflexivity|exact Ic].
      + intros k0 it I0. apply blob_ok_ins; try assumption. apply (ci_nodangling _ Inv _ _ I0).
      + eapply RcRep_ext; [|exact RI]. intros h. cbn [reg b01]. lia.
      + exists c. split; [apply lex_get_ins_same|split; reflexivity].
      + intros u tsu _ G P. apply pc_ok_ins; assumption.
      + intros h c0 G. destruct (key_eq_dec h (H c)) as [->|N].
        * apply acc_prot. apply (registered_protected g t _ (H c) Inv Ht), beqb_refl.
        * rewrite lex_get_ins_other in G by assumption.
          eapply accounted_step;
            [exact Ht|apply emit_incl|apply (ci_accounted _ Inv _ _ G)|apply acc_ref|apply acc_prot|].
          intros [].
    - (* E_drop: the uncommitted intent is reverted (IntentGuard::drop) *)
      assert (RR : RcRep (release_hash (g_byhash g) h)
                         (fun x => intents H (g_thr g) x - b01 (reg H (PDropI k h repl) x))).
      { apply release_rep; [exact RI|]. apply (intents_pos H _ _ _ _ Ht), beqb_refl. }
      apply (step_ledger _ _ _ _ _ _ _ _ _ Inv Ht E'); cbn [g_byhash set_intents]; try reflexivity.
      + left; exact FI.
      + eapply RcRep_ext; [|exact RR]. intros x. cbn [reg b01]. lia.
      + intros x _.
        destruct (sm_get lex_cmp (release_hash (g_byhash g) h) x) eqn:E0; [apply acc_prot; congruence|].
        apply (acc_leak _ _ _ _ _ h); [exact Pt|]. apply in_elt.
    - (* E_apply: append + apply *)
      assert (Hresp : op_respects_sizes (g_idx g) (wop w)).
      { apply (window_respects g t _ w Inv Ht). right; right; reflexivity. }
      destruct (at_cmp C12_apply (g_idx g) (wop w) (ci_idx _ Inv) Hresp)
        as (s2 & un2 & E2 & Inv' & K & _ & _ & HI).
      rewrite Ap in E2. inversion E2; subst s2 un2. clear E2.
      apply (step_general _ _ _ _ _ _ _ _ _ Inv Ht E');
        cbn [g_idx g_byhash g_cas set_S set_index].
      + exact Inv'.
      + exact S.
      + apply (ci_cas_named _ Inv).
      + intros k0 it I0. rewrite K in I0. destruct w as [k h sz|ks r]; cbn [wop km_expected] in I0.
        * apply In_sm_ins in I0. destruct I0 as [I0|I0]; [|apply (ci_nodangling _ Inv _ _ I0)].
          inversion I0; subst. exact Pt.
        * apply In_fold_del in I0. apply (ci_nodangling _ Inv _ _ I0).
      + eapply RcRep_ext; [|exact RI]. intros h. destruct w; cbn [reg b01]; lia.
      + cbn [pc_ok]. split.
        * intros h Hin. apply HI in Hin. apply Hin.
        * destruct w as [k h sz|ks r]; [|exact I].
          change h with (ihash (mkItem h sz)). apply count_pos_in with (k := k).
          rewrite K. apply (at_cmp get_some_In), (at_cmp get_ins_same).
      + (* the other threads hold neither I nor S: what they know does not mention the key map *)
        intros u tsu N G P. eapply pc_ok_frame; [| |exact P].
        * apply (only_one_holds_I g t _ u tsu Inv Ht); [reflexivity|assumption..].
        * apply (nobody_reads g u tsu Inv); [|exact G]. apply (ci_SR _ Inv).
          rewrite (proj2 (holds_S_iff g t _ Inv Ht) eq_refl). discriminate.
      + intros h c G.
        eapply accounted_step; [exact Ht|apply emit_incl|apply (ci_accounted _ Inv _ _ G)| | |].
        * intros A. destruct (N.eq_dec (count_refs (km idx') h) 0) as [Z|Z].
          -- apply acc_pend. apply HI. split; assumption.
          -- apply acc_ref. lia.
        * apply acc_prot.
        * intros [].
    - apply (step_wapplied _ _ _ _ _ _ _ _ _ Inv Ht E'); try reflexivity.
      left. split; [exact Fl|reflexivity].
    - apply (step_wapplied _ _ _ _ _ _ _ _ _ Inv Ht E'); try reflexivity.
      right. split; [exact Fl|reflexivity].
    - (* E_unlink_last *)
      destruct (proj2 Pt h (or_introl eq_refl)) as [Hun Hup].
      apply (step_unlink _ _ _ _ _ _ _ _ _ h Inv Ht E' eq_refl eq_refl eq_refl Hun Hup);
        try (intros; reflexivity).
      intros x N [->|[]]. congruence.
    - (* E_unlink *)
      destruct (proj2 Pt h (or_introl eq_refl)) as [Hun Hup].
      apply (step_unlink _ _ _ _ _ _ _ _ _ h Inv Ht E' eq_refl eq_refl eq_refl Hun Hup);
        try (intros; reflexivity).
      + split; [discriminate|]. intros x Hx. apply (proj2 Pt). right; exact Hx.
      + intros x N [->|Hx]; [congruence|exact Hx].
    (* E_ounlink_last, E_ounlink: the path is not obstructed; a blob that is missing is unlinked
       all the same, the directory does not change *)
    - apply negb_true_iff in W. apply unlink_orphan_cas in Uo. rewrite W in Uo. subst cas'.
      destruct Pt as [Hun Hup].
      apply (step_unlink _ _ _ _ _ _ _ _ _ h Inv Ht E' eq_refl eq_refl eq_refl Hun Hup);
        try (intros; reflexivity).
      intros x _ [].
    - apply negb_true_iff in W. apply unlink_orphan_cas in Uo. rewrite W in Uo. subst cas'.
      destruct Pt as [Hun Hup].
      apply (step_unlink _ _ _ _ _ _ _ _ _ h Inv Ht E' eq_refl eq_refl eq_refl Hun Hup);
        try (intros; reflexivity).
      intros x _ [].
  Qed.

  Theorem init_inv : ConcInv (init_c thr0 cas0).
  Proof using thr0_nodup cas0_sorted cas0_named.
    unfold init_c. constructor; cbn [g_idx g_bykey g_byhash g_cas g_nextv g_I g_S g_R g_thr].
    - rewrite map_map. cbn [fst]. exact thr0_nodup.
    - intros t. split; [discriminate|]. intros (ts & G & Hh).
      apply tget_init in G. destruct G as (cs & _ & ->). discriminate.
    - intros t. split; [discriminate|]. intros (ts & G & Hh).
      apply tget_init in G. destruct G as (cs & _ & ->). discriminate.
    - split; [constructor|]. intros t. split; [intros []|]. intros (ts & G & Hh).
      apply tget_init in G. destruct G as (cs & _ & ->). discriminate.
    - reflexivity.
    - apply C12_empty.
    - exact cas0_sorted.
    - intros h c I. split; [apply cas0_named, I|].
      unfold allc. apply in_or_app. right. apply in_map_iff. exists (h, c). split; [reflexivity|exact I].
    - intros k it [].
    - split; [exact I|]. intros h. rewrite intents_zero; [reflexivity|].
      intros t s I. apply in_map_iff in I. destruct I as ([u cs] & E & _).
      inversion E; subst. reflexivity.
    - intros t ts G. apply tget_init in G. destruct G as (cs & Ics & ->). cbn [t_pc t_calls pc_ok].
      split; [exact I|]. intros k c Ic. eapply contents_in; eassumption.
    - intros h c G. right; right; right; left.
      apply (lex_get_in _ _ _ cas0_sorted) in G.
      apply in_map_iff. exists (h, c). split; [reflexivity|exact G].
  Qed.

  Lemma crun_inv sched g : ConcInv g -> ConcInv (crun H cmp nops bad ckbad g sched).
  Proof using Ord NoCollideC.
    intros Inv. apply crun_ind; [exact Inv|]. intros s t g' I0 St. exact (cstep_inv _ t g' I0 St).
  Qed.

  Theorem reachable_inv g : reachable g -> ConcInv g.
  Proof using Ord NoCollideC thr0_nodup cas0_sorted cas0_named.
    intros [sched ->]. apply crun_inv, init_inv.
  Qed.

  Lemma reachable_init : reachable (init_c thr0 cas0).
  Proof using. exists []. reflexivity. Qed.

  Lemma reachable_step g t g' : reachable g -> cstep H cmp nops bad ckbad g t = Some g' -> reachable g'.
  Proof using.
    intros [sched ->] E. exists (sched ++ [t]). rewrite crun_snoc, E. reflexivity.
  Qed.

  (* induction over the reachable states; the step case knows that the state it leaves is
     reachable *)
  Lemma reachable_ind (P : cstate -> Prop) :
    P (init_c thr0 cas0) ->
    (forall g t g', reachable g -> P g -> cstep H cmp nops bad ckbad g t = Some g' -> P g') ->
    forall g, reachable g -> P g.
  Proof using.
    intros P0 PS g [sched ->].
    apply (crun_ind H cmp nops bad ckbad (fun g => reachable g /\ P g)).
    - split; [apply reachable_init|exact P0].
    - intros s t g' [R Pg] St. split; [eapply reachable_step; eassumption|eapply PS; eassumption].
  Qed.

  (* the same for a property of the single threads: it holds of every thread before it takes
     its first call, and the thread that moves keeps it *)
  Lemma reachable_thread_ind (Q : tstate -> Prop) :
    (forall cs, Q (mkT cs Idle [])) ->
    (forall g t ts p' cs' out sh, reachable g ->
       (forall u tsu, tget (g_thr g) u = Some tsu -> Q tsu) -> tget (g_thr g) t = Some ts ->
       edge g t (t_pc ts) (t_calls ts) p' cs' out sh ->
       Q (mkT cs' p' (emit (t_res ts) out))) ->
    forall g, reachable g -> forall t ts, tget (g_thr g) t = Some ts -> Q ts.
  Proof using.
    intros Q0 QS. apply (reachable_ind (fun g => forall t ts, tget (g_thr g) t = Some ts -> Q ts)).
    - intros t ts G. apply tget_init in G. destruct G as (cs & _ & ->). apply Q0.
    - intros g u g' R Pg St t ts' G. destruct (Nat.eq_dec t u) as [->|N].
      + destruct (cstep_tget St) as [ts Ht].
        destruct (cstep_spec Ht St) as (p' & cs' & out & sh & E & ->).
        cbn [set_thr g_thr] in G. rewrite tget_tset_same in G. injection G as <-.
        eapply QS; eassumption.
      + rewrite (cstep_other St N) in G. exact (Pg _ _ G).
  Qed.

End ConcInv.

Print Assumptions cstep_inv.
Print Assumptions init_inv.
Print Assumptions reachable_inv.
