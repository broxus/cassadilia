(* RangeProofs.v -- get_range / read_blob_range / read_loop (theories/Range.v) return exactly
   the bytes [min s L, min e L) of the blob, for every short-read behaviour [chunk]. *)
From Cas Require Import Base Range.
From Coq Require Import ZifyBool ZifyNat ZifyN.
Open Scope N_scope.

Lemma skipn_skipn_add {A} (x y : nat) (l : list A) :
  skipn x (skipn y l) = skipn (y + x) l.
Proof.
  revert l; induction y as [|y IH]; intro l; [reflexivity|].
  destruct l as [|a l]; cbn [skipn Nat.add].
  - now rewrite skipn_nil.
  - apply IH.
Qed.

(* one (possibly short) read of [m <= r] bytes followed by reading the rest *)
Lemma firstn_step {A} : forall (t : list A) (m r : nat),
  (m <= r)%nat ->
  firstn m t ++ firstn (r - length (firstn m t)) (skipn (length (firstn m t)) t)
  = firstn r t.
Proof.
  induction t as [|x t IH]; intros m r H.
  - destruct m; destruct r; reflexivity.
  - destruct m as [|m].
    + cbn [firstn length skipn app]. now rewrite Nat.sub_0_r.
    + destruct r as [|r]; [lia|].
      cbn [firstn length skipn app Nat.sub]. f_equal. apply IH. lia.
Qed.

Lemma firstn_pos_nil {A} : forall (t : list A) (m : nat),
  (1 <= m)%nat -> firstn m t = [] -> t = [].
Proof.
  intros t m H E. destruct t as [|x t]; [reflexivity|].
  destruct m as [|m]; [lia|]. discriminate.
Qed.

Lemma slice_spec : forall (content : bytes) s e,
  slice content s e =
  firstn (N.to_nat (N.min e (len content) - N.min s (len content)))
         (skipn (N.to_nat (N.min s (len content))) content).
Proof. reflexivity. Qed.

(* holds for all s e; when e < s both sides are 0 *)
Lemma slice_length : forall (content : bytes) s e,
  length (slice content s e)
  = N.to_nat (N.min e (len content) - N.min s (len content)).
Proof.
  intros content s e. rewrite slice_spec, firstn_length, skipn_length.
  unfold len. lia.
Qed.

Lemma slice_length_le : forall (content : bytes) s e,
  s <= e ->
  length (slice content s e)
  = N.to_nat (N.min e (len content) - N.min s (len content)).
Proof. intros content s e _. apply slice_length. Qed.

Lemma slice_inside : forall (content : bytes) s e,
  s <= e -> e <= len content ->
  slice content s e = firstn (N.to_nat (e - s)) (skipn (N.to_nat s) content).
Proof.
  intros content s e H1 H2. rewrite slice_spec.
  rewrite (N.min_l e), (N.min_l s) by lia. reflexivity.
Qed.

Lemma slice_beyond : forall (content : bytes) s e,
  len content <= s -> slice content s e = [].
Proof.
  intros content s e H. rewrite slice_spec.
  replace (N.min e (len content) - N.min s (len content)) with 0 by lia.
  reflexivity.
Qed.

Section Proofs.
  Variable chunk : N -> N -> N.

  (* a single read_at returns a prefix of what is available, non-empty unless nothing is *)
  Lemma read_at_eq : forall (file : bytes) off want,
    read_at chunk file off want =
    firstn (Nat.min (N.to_nat (N.max 1 (chunk off want))) (N.to_nat want))
           (skipn (N.to_nat off) file).
  Proof. intros file off want. unfold read_at. cbv zeta. apply firstn_firstn. Qed.

  (* fuel >= remaining suffices: every iteration that does not stop consumes >= 1 byte *)
  Theorem read_loop_spec : forall fuel (file : bytes) off remaining acc,
    (N.to_nat remaining <= fuel)%nat ->
    read_loop chunk fuel file off remaining acc
    = acc ++ firstn (N.to_nat remaining) (skipn (N.to_nat off) file).
  Proof.
    induction fuel as [|fuel IH]; intros file off remaining acc Hf.
    - cbn [read_loop]. replace (N.to_nat remaining) with 0%nat by lia.
      cbn [firstn]. now rewrite app_nil_r.
    - cbn [read_loop]. destruct (N.eqb_spec remaining 0) as [E|E].
      + subst. cbn [N.to_nat firstn]. now rewrite app_nil_r.
      + cbv zeta. rewrite read_at_eq.
        set (t := skipn (N.to_nat off) file).
        set (m := Nat.min (N.to_nat (N.max 1 (chunk off remaining))) (N.to_nat remaining)).
        assert (Hm1 : (1 <= m)%nat) by (unfold m; lia).
        assert (Hm2 : (m <= N.to_nat remaining)%nat) by (unfold m; lia).
        destruct (firstn m t) as [|g0 gs] eqn:G.
        * apply firstn_pos_nil in G; [|exact Hm1]. rewrite G, firstn_nil.
          now rewrite app_nil_r.
        * assert (Hg1 : (1 <= length (firstn m t))%nat) by (rewrite G; cbn [length]; lia).
          rewrite <- G.
          assert (Hg : (length (firstn m t) <= m)%nat) by apply firstn_le_length.
          rewrite IH by (unfold len; lia).
          rewrite <- app_assoc. f_equal.
          unfold len. rewrite N2Nat.inj_sub, N2Nat.inj_add, !Nat2N.id, <- skipn_skipn_add. fold t.
          apply firstn_step. exact Hm2.
  Qed.

  Corollary read_loop_spec_lt : forall fuel (file : bytes) off remaining acc,
    (N.to_nat remaining < fuel)%nat ->
    read_loop chunk fuel file off remaining acc
    = acc ++ firstn (N.to_nat remaining) (skipn (N.to_nat off) file).
  Proof. intros. apply read_loop_spec. lia. Qed.

  Lemma read_blob_range_ok : forall (file : bytes) s e,
    s <= e ->
    read_blob_range chunk file s e
    = (RBytes (firstn (N.to_nat (e - s)) (skipn (N.to_nat s) file)), e - s).
  Proof.
    intros file s e H. unfold read_blob_range.
    assert (E1 : (e <? s) = false) by lia. rewrite E1. cbv zeta.
    destruct (N.eqb_spec (e - s) 0) as [E|E].
    - rewrite E. reflexivity.
    - rewrite read_loop_spec by lia. reflexivity.
  Qed.

  Lemma read_blob_range_invalid : forall (file : bytes) s e,
    e < s -> read_blob_range chunk file s e = (RInvalidRange, 0).
  Proof.
    intros file s e H. unfold read_blob_range.
    assert (E1 : (e <? s) = true) by lia. now rewrite E1.
  Qed.

  (* the recorded size may be smaller than the file *)
  Theorem get_range_isize_full : forall isize (file : bytes) s e,
    isize <= len file -> s <= e ->
    get_range chunk isize file s e
    = (RBytes (slice (firstn (N.to_nat isize) file) s e),
       if isize <=? s then 0 else N.min e isize - s).
  Proof.
    intros isize file s e Hi Hse. unfold get_range.
    assert (Hl : len (firstn (N.to_nat isize) file) = isize).
    { unfold len in *. rewrite firstn_length. lia. }
    destruct (N.leb_spec isize s) as [L|L].
    - rewrite slice_beyond by (rewrite Hl; exact L). reflexivity.
    - rewrite read_blob_range_ok by lia. f_equal. f_equal.
      rewrite slice_spec, Hl, (N.min_l s isize) by lia.
      rewrite skipn_firstn_comm, firstn_firstn. f_equal. lia.
  Qed.

  Theorem get_range_isize : forall isize (file : bytes) s e,
    isize <= len file -> s <= e ->
    fst (get_range chunk isize file s e)
    = RBytes (slice (firstn (N.to_nat isize) file) s e).
  Proof.
    intros isize file s e Hi Hse. now rewrite get_range_isize_full.
  Qed.

  (* C17: a well-formed range returns exactly the slice *)

  Theorem C17_range_full : forall (content : bytes) s e,
    s <= e ->
    get_range chunk (len content) content s e
    = (RBytes (slice content s e),
       if len content <=? s then 0 else N.min e (len content) - s).
  Proof.
    intros content s e H.
    rewrite get_range_isize_full by lia.
    unfold len. rewrite Nat2N.id, firstn_all. reflexivity.
  Qed.

  Theorem C17_range : forall (content : bytes) s e,
    let L := len content in
    s <= e ->
    exists alloc,
      get_range chunk L content s e = (RBytes (slice content s e), alloc) /\
      alloc <= L /\ (alloc = 0 \/ alloc = N.min e L - s).
  Proof.
    intros content s e L H. subst L.
    exists (if len content <=? s then 0 else N.min e (len content) - s).
    split; [now apply C17_range_full|].
    destruct (N.leb_spec (len content) s); lia.
  Qed.

  (* the allocation request is the number of bytes returned *)
  Corollary C17_alloc_exact : forall (content : bytes) s e,
    s <= e ->
    snd (get_range chunk (len content) content s e)
    = N.of_nat (length (slice content s e)).
  Proof.
    intros content s e H. rewrite C17_range_full by exact H. cbn [snd].
    rewrite slice_length. destruct (N.leb_spec (len content) s); lia.
  Qed.

  (* C17: inverted ranges *)

  Theorem C17_reject_full : forall (content : bytes) s e,
    e < s -> s < len content ->
    get_range chunk (len content) content s e = (RInvalidRange, 0).
  Proof.
    intros content s e H1 H2. unfold get_range.
    assert (E : (len content <=? s) = false) by lia. rewrite E.
    now rewrite read_blob_range_invalid by lia.
  Qed.

  Theorem C17_reject : forall (content : bytes) s e,
    e < s -> s < len content ->
    fst (get_range chunk (len content) content s e) = RInvalidRange.
  Proof. intros content s e H1 H2. now rewrite C17_reject_full. Qed.

  (* an inverted range that starts at or after the end is NOT rejected: empty result *)
  Theorem C17_inverted_beyond : forall (content : bytes) s e,
    e < s -> len content <= s ->
    get_range chunk (len content) content s e = (RBytes [], 0).
  Proof.
    intros content s e H1 H2. unfold get_range.
    assert (E : (len content <=? s) = true) by lia. now rewrite E.
  Qed.

  (* complete case analysis of get_range on a consistent blob *)
  Theorem C17_total : forall (content : bytes) s e,
    fst (get_range chunk (len content) content s e)
    = if (e <? s) && (s <? len content) then RInvalidRange
      else RBytes (slice content s e).
  Proof.
    intros content s e.
    destruct (N.ltb_spec e s) as [H1|H1]; cbn [andb].
    - destruct (N.ltb_spec s (len content)) as [H2|H2].
      + now apply C17_reject.
      + rewrite C17_inverted_beyond, slice_beyond by assumption. reflexivity.
    - now rewrite C17_range_full.
  Qed.
End Proofs.

Example range_ex1 :
  get_range (fun _ _ => 2) 5 [1;2;3;4;5] 1 10 = (RBytes [2;3;4;5], 4).
Proof. vm_compute. reflexivity. Qed.

Example range_ex2 :   (* kernel returns 1 byte at a time, even when asked for "0" *)
  get_range (fun _ _ => 0) 5 [1;2;3;4;5] 1 4 = (RBytes [2;3;4], 3).
Proof. vm_compute. reflexivity. Qed.

Example range_ex3 :   (* inverted range inside the blob *)
  get_range (fun _ _ => 2) 5 [1;2;3;4;5] 3 1 = (RInvalidRange, 0).
Proof. vm_compute. reflexivity. Qed.

Example range_ex4 :   (* inverted range starting beyond the end: empty, not rejected *)
  get_range (fun _ _ => 2) 5 [1;2;3;4;5] 7 1 = (RBytes [], 0).
Proof. vm_compute. reflexivity. Qed.

Example range_ex5 :   (* offset-dependent short reads *)
  get_range (fun off want => if N.even off then 3 else 1) 7 [10;20;30;40;50;60;70] 2 100
  = (RBytes [30;40;50;60;70], 5).
Proof. vm_compute. reflexivity. Qed.

Example slice_ex : slice [1;2;3;4;5] 1 10 = [2;3;4;5].
Proof. vm_compute. reflexivity. Qed.

Print Assumptions read_loop_spec.
Print Assumptions C17_range.
Print Assumptions C17_range_full.
Print Assumptions C17_alloc_exact.
Print Assumptions C17_reject.
Print Assumptions C17_inverted_beyond.
Print Assumptions C17_total.
Print Assumptions slice_length.
Print Assumptions get_range_isize.
Print Assumptions range_ex1.
