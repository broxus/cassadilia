(* StoreRead.v -- the read path of the store model: under the invariant Live0 every read
   returns what the abstract ordered map says (C01, read side), and the identity of a blob
   depends only on the concatenated content (C18). *)
From Cas Require Import History.
From CasProofs Require Import BaseProofs SMapProofs IndexProofs RangeProofs StoreFS StoreInv StoreWrite.
From Coq Require Import ZifyBool ZifyNat ZifyN.
Open Scope N_scope.

Section StoreRead.
  Variable H : bytes -> bytes.
  Hypothesis H_len : forall b, length (H b) = 32%nat.
  Hypothesis H_byte : forall b, Forall (fun x => x < 256) (H b).
  Variable cfg : config.
  Hypothesis n_pos : 0 < c_n cfg.
  Let cmp := key_cmp (c_kt cfg).

  Local Notation KX L :=
    (L cmp (key_cmp_refl _) (key_cmp_eq _) (key_cmp_antisym _) (key_cmp_trans _)) (only parsing).
  Local Notation item_of := (item_of H).
  Local Notation km_of := (km_of H).
  Local Notation NoCollide := (NoCollide H).
  Local Notation Live0 := (Live0 H cfg).

  (* what the reads use of the invariant *)
  Record ReadView (m : mem) (s : fs) (sg : smap bytes) : Prop := mkReadView {
    rv_sorted : sorted cmp sg;
    rv_km : km (idx m) = km_of sg;
    rv_cas : forall k c, In (k, c) sg -> exists f, fget s (cas_path (H c)) = Some f /\ fdata f = c
  }.

  Lemma Live0_view : forall m s sg, Live0 m s sg -> ReadView m s sg.
  Proof. intros m s sg [L1 L2 _ _ L5 _ _ _]. now constructor. Qed.

  Lemma blob_of_view : forall m s sg k c, ReadView m s sg -> sm_get cmp sg k = Some c ->
    blob_of s (H c) = Some c.
  Proof.
    intros m s sg k c [Ssg _ Hcas] G.
    apply (KX get_in _ _ _ Ssg) in G. destruct (Hcas k c G) as (f & Gf & Df).
    unfold blob_of. now rewrite Gf, Df.
  Qed.

  Lemma get_view : forall m s sg k, ReadView m s sg -> get cfg m s k = Ok (sm_get cmp sg k).
  Proof.
    intros m s sg k V. unfold get. fold cmp. rewrite (rv_km _ _ _ V), (km_of_get H cfg).
    fold cmp. destruct (sm_get cmp sg k) as [c|] eqn:G; cbn [option_map]; [|reflexivity].
    cbn [StoreInv.item_of ihash]. now rewrite (blob_of_view m s sg k c V G).
  Qed.

  Lemma get_size_view : forall m s sg k, ReadView m s sg ->
    get_size cfg m k = option_map len (sm_get cmp sg k).
  Proof.
    intros m s sg k V. unfold get_size. fold cmp. rewrite (rv_km _ _ _ V), (km_of_get H cfg).
    fold cmp. destruct (sm_get cmp sg k); reflexivity.
  Qed.

  Lemma get_range_view : forall m s sg k a b, ReadView m s sg ->
    get_range_api cfg m s k a b =
    match sm_get cmp sg k with
    | None => Ok None
    | Some c => if (b <? a) && (a <? len c) then Err EInvalidRange
                else Ok (Some (slice c a b))
    end.
  Proof.
    intros m s sg k a b V. unfold get_range_api. fold cmp.
    rewrite (rv_km _ _ _ V), (km_of_get H cfg). fold cmp.
    destruct (sm_get cmp sg k) as [c|] eqn:G; cbn [option_map]; [|reflexivity].
    cbn [StoreInv.item_of ihash isize].
    destruct (N.leb_spec (len c) a) as [La|La].
    - rewrite slice_beyond by exact La.
      replace (a <? len c) with false by lia. now rewrite andb_false_r.
    - replace (a <? len c) with true by lia. rewrite andb_true_r.
      destruct (N.ltb_spec b a) as [Lb|Lb].
      + replace (N.min b (len c) <? a) with true by lia. reflexivity.
      + replace (N.min b (len c) <? a) with false by lia.
        rewrite (blob_of_view m s sg k c V G), C17_total.
        replace (b <? a) with false by lia. reflexivity.
  Qed.

  Lemma range_iter_view : forall m s sg lo hi, ReadView m s sg ->
    (nonempty (km (idx m)) && range_panics cmp lo hi) = false ->
    range_iter cfg m lo hi = Ok (km_of (filter (fun e => in_range cmp lo hi (fst e)) sg)).
  Proof.
    intros m s sg lo hi V NP. unfold range_iter. fold cmp. rewrite NP.
    rewrite (rv_km _ _ _ V), (km_of_filter H (in_range cmp lo hi)). reflexivity.
  Qed.

  Theorem get_spec : forall m s sg k, Live0 m s sg ->
    get cfg m s k = Ok (sm_get cmp sg k).
  Proof. intros m s sg k L. exact (get_view m s sg k (Live0_view _ _ _ L)). Qed.

  Theorem get_size_spec : forall m s sg k, Live0 m s sg ->
    get_size cfg m k = option_map len (sm_get cmp sg k).
  Proof. intros m s sg k L. exact (get_size_view m s sg k (Live0_view _ _ _ L)). Qed.

  Theorem get_range_spec : forall m s sg k a b, Live0 m s sg ->
    get_range_api cfg m s k a b =
    match sm_get cmp sg k with
    | None => Ok None
    | Some c => if (b <? a) && (a <? len c) then Err EInvalidRange
                else Ok (Some (slice c a b))
    end.
  Proof. intros m s sg k a b L. exact (get_range_view m s sg k a b (Live0_view _ _ _ L)). Qed.

  Theorem range_iter_spec : forall m s sg lo hi, Live0 m s sg ->
    (nonempty (km (idx m)) && range_panics cmp lo hi) = false ->
    range_iter cfg m lo hi = Ok (km_of (filter (fun e => in_range cmp lo hi (fst e)) sg)).
  Proof. intros m s sg lo hi L. exact (range_iter_view m s sg lo hi (Live0_view _ _ _ L)). Qed.

  Theorem blobs_spec : forall m s sg h c, Live0 m s sg ->
    (rc_get (rc (idx m)) h = Some c <-> c = count_refs (km_of sg) h /\ 0 < c).
  Proof.
    intros m s sg h c L. rewrite <- (lv_km _ _ _ _ _ L).
    apply (C12_counts_exact cmp), (lv_idx _ _ _ _ _ L).
  Qed.

  Theorem blobs_known_iff_referenced : forall m s sg h, Live0 m s sg ->
    (rc_get (rc (idx m)) h <> None <-> exists k c, In (k, c) sg /\ H c = h).
  Proof.
    intros m s sg h L.
    rewrite (C12_known_iff_referenced cmp _ (lv_idx _ _ _ _ _ L)), (lv_km _ _ _ _ _ L). split.
    - intros (k & i & Ik & E). apply (In_km_of H) in Ik. destruct Ik as (c & Ic & ->).
      now exists k, c.
    - intros (k & c & Ic & E). exists k, (item_of c). split; [|exact E].
      apply (In_km_of H). now exists c.
  Qed.

  Theorem stats_spec : forall m s sg, Live0 m s sg ->
    ub (idx m) = N.of_nat (length (rc (idx m))).
  Proof.
    intros m s sg L.
    apply (C12_ub_is_rc_length cmp), (lv_idx _ _ _ _ _ L).
  Qed.

  (* C18: the identity (hash, length) recorded for a key after put, and the blob stored under
     that hash, depend only on the concatenation of the chunks *)
  Theorem C18_put_identity : forall m s sg k chunks w,
    Live0 m s sg -> wfs w = s -> wfault w = None ->
    NoCollide (concat chunks :: map snd sg) ->
    exists m' w', put H cfg m k chunks w = ((Ok tt, m'), w') /\
      sm_get cmp (km (idx m')) k = Some (mkItem (H (concat chunks)) (len (concat chunks))) /\
      exists f, fget (wfs w') (cas_path (H (concat chunks))) = Some f /\ fdata f = concat chunks.
  Proof.
    intros m s sg k chunks w L Ws F NC.
    destruct (put_spec H H_len H_byte cfg n_pos m s sg k chunks w L Ws F NC)
      as (m' & w' & E & _ & _ & L' & _).
    exists m', w'. split; [exact E|]. fold cmp in L'. split.
    - rewrite (lv_km _ _ _ _ _ L'), (km_of_get H cfg). fold cmp.
      now rewrite (KX get_ins_same).
    - destruct L' as [Ssg' _ _ _ Hcas' _ _ _]. apply (Hcas' k).
      apply (KX get_in _ _ _ Ssg'). apply (KX get_ins_same).
  Qed.

  Corollary C18_chunking_irrelevant : forall m s sg k chunks1 chunks2 w,
    Live0 m s sg -> wfs w = s -> wfault w = None ->
    NoCollide (concat chunks1 :: map snd sg) -> concat chunks1 = concat chunks2 ->
    exists m1 w1 m2 w2,
      put H cfg m k chunks1 w = ((Ok tt, m1), w1) /\ put H cfg m k chunks2 w = ((Ok tt, m2), w2) /\
      sm_get cmp (km (idx m1)) k = sm_get cmp (km (idx m2)) k /\
      blob_of (wfs w1) (H (concat chunks1)) = Some (concat chunks1) /\
      blob_of (wfs w2) (H (concat chunks1)) = Some (concat chunks1).
  Proof.
    intros m s sg k chunks1 chunks2 w L Ws F NC E.
    destruct (C18_put_identity m s sg k chunks1 w L Ws F NC) as (m1 & w1 & E1 & G1 & f1 & B1 & D1).
    rewrite E in NC.
    destruct (C18_put_identity m s sg k chunks2 w L Ws F NC) as (m2 & w2 & E2 & G2 & f2 & B2 & D2).
    exists m1, w1, m2, w2. split; [exact E1|]. split; [exact E2|]. split.
    - rewrite G1, G2, E. reflexivity.
    - unfold blob_of. rewrite B1, D1, E, B2, D2. now split.
  Qed.
End StoreRead.

Print Assumptions get_spec.
Print Assumptions get_size_spec.
Print Assumptions get_range_spec.
Print Assumptions range_iter_spec.
Print Assumptions blobs_spec.
Print Assumptions C18_put_identity.
Print Assumptions C18_chunking_irrelevant.
