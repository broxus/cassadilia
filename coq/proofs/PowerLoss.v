(* PowerLoss.v -- power-loss durability in Sync mode (property C09), part 1: the model of power
   loss ([lose] of theories/FS.v), the sync-aware invariant RestS, the key lemma lose_rest,
   and a relative program logic for "every intermediate filesystem survives power loss".

   In the order of the file:
   [lose] and [syn x p] (the file at p, if any, is entirely covered by its last sync), and what a
       call does to the sync status.
   The two facts everything rests on, for any predicate P that only looks at the data of a
       set R of paths ([Closed R P]):
         lose_closed    P x, R synced in x                  ==> P (lose v x) for every v
         lose_inflight  P x0, R synced in x0, x = x0 + one append (to any file), P x
                                                              ==> P (lose v x) for every v
       (the unsynced bytes can only be the ones of that single append: losing them gives the
       data of x0, keeping them the data of x).
   A Hoare-style logic [HR] RELATIVE to a crash-atomicity result: given that every
       intermediate filesystem of a run satisfies P0 (the theorems of CrashOps.v/CrashOpen.v),
       it remains to follow the sync status of the files through the program; the rules are
       about sync status only.  The walked predicate [PLs]: P0 holds after power loss with every
       victim set, and a property J of single states (used for: the relevant files other than
       segments are synced and no segment is marked synced beyond its end -- so that a power
       loss that hits all segment files leads back into RestS).  Triples for all building
       blocks of the store.
   [SyncedFor sg x]: the files recovery relies upon -- settings, snapshot, every segment,
       the blob of every content of sg -- are synced;  RestS x sg := Rest x sg /\ SyncedFor sg x.
       lose_rest : RestS x sg -> forall victims, Rest (lose victims x) sg   (and RestS again). *)
From Cas Require Import History.
From CasProofs Require Import StoreFS WorldRel StoreRun DiskInv CrashInv.
Open Scope N_scope.


(* lose *)
Definition lost (v : path -> bool) (p : path) (f : file) : file :=
  if v p then mkFile (firstn (fsynced f) (fdata f)) (fsynced f) else f.

Lemma lookup_lose : forall (v : path -> bool) l p,
  lookup (map (fun pf : path * file =>
                 if v (fst pf)
                 then (fst pf, mkFile (firstn (fsynced (snd pf)) (fdata (snd pf))) (fsynced (snd pf)))
                 else pf) l) p
  = option_map (lost v p) (lookup l p).
Proof.
  intros v. induction l as [|[q f] l IH]; intros p; cbn [map lookup fst snd]; [reflexivity|].
  destruct (v q) eqn:Vq; cbn [lookup];
    (destruct (path_eqb_spec p q) as [->|N]; [|apply IH]); cbn [option_map]; unfold lost;
    now rewrite Vq.
Qed.

Lemma fget_lose : forall v x p, fget (lose v x) p = option_map (lost v p) (fget x p).
Proof. intros v x p. unfold fget, lose. cbn [with_files files]. apply lookup_lose. Qed.

Lemma paths_lose : forall v x, paths (files (lose v x)) = paths (files x).
Proof.
  intros v x. unfold lose, paths. cbn [with_files files]. rewrite map_map. apply map_ext.
  intros [q f]. cbn [fst snd]. now destruct (v q).
Qed.

Lemma lose_wf : forall v x, FsWf x -> FsWf (lose v x).
Proof. intros v x W. unfold FsWf. now rewrite paths_lose. Qed.

Lemma lose_dirs : forall v x, dirs (lose v x) = dirs x.
Proof. reflexivity. Qed.

Lemma lose_nstage : forall v x, nstage (lose v x) = nstage x.
Proof. reflexivity. Qed.

(* the file at p, if there is one, is entirely covered by its last sync *)
Definition syn (x : fs) (p : path) : Prop :=
  forall f, fget x p = Some f -> fsynced f = length (fdata f).
Definition SynOn (S : path -> Prop) (x : fs) : Prop := forall q, S q -> syn x q.

Lemma lose_fdat_syn : forall v x p, syn x p -> fdat (lose v x) p = fdat x p.
Proof.
  intros v x p S. unfold fdat. rewrite fget_lose. destruct (fget x p) as [f|] eqn:G; [|reflexivity].
  cbn [option_map]. unfold lost. destruct (v p); [|reflexivity]. cbn [fdata].
  now rewrite (S f G), firstn_all.
Qed.

Lemma lose_fdat_keep : forall v x p, v p = false -> fdat (lose v x) p = fdat x p.
Proof.
  intros v x p E. unfold fdat. rewrite fget_lose. destruct (fget x p) as [f|]; [|reflexivity].
  cbn [option_map]. unfold lost. now rewrite E.
Qed.

Lemma lose_fdat_victim : forall v x p f, v p = true -> fget x p = Some f ->
  fdat (lose v x) p = Some (firstn (fsynced f) (fdata f)).
Proof.
  intros v x p f E G. unfold fdat. rewrite fget_lose, G. cbn [option_map]. unfold lost.
  now rewrite E.
Qed.

Lemma lose_fdat_none : forall v x p, fdat x p = None -> fdat (lose v x) p = None.
Proof.
  intros v x p G. apply fdat_none in G. apply fdat_none. now rewrite fget_lose, G.
Qed.

Lemma lose_syn : forall v x p, syn x p -> syn (lose v x) p.
Proof.
  intros v x p S f G. rewrite fget_lose in G. destruct (fget x p) as [g|] eqn:Gg; [|discriminate].
  cbn [option_map] in G. inversion G; subst f. unfold lost. destruct (v p); [|now apply S].
  cbn [fsynced fdata]. now rewrite (S g Gg), firstn_all.
Qed.

Lemma synon_weaken : forall (S S' : path -> Prop) x, (forall q, S' q -> S q) ->
  SynOn S x -> SynOn S' x.
Proof. intros S S' x I0 Y q Sq. apply Y, I0, Sq. Qed.

(* sync status after a call *)
Lemma syn_upd : forall x p f0 r, (r = p -> fsynced f0 = length (fdata f0)) ->
  (r <> p -> syn x r) -> syn (upd x p f0) r.
Proof.
  intros x p f0 r Hp Hr f G. rewrite fget_upd in G.
  destruct (path_eqb_spec r p) as [E|N]; [inversion G; subst f; now apply Hp|now apply (Hr N)].
Qed.

Lemma syn_del : forall x p r, FsWf x -> (r <> p -> syn x r) -> syn (del x p) r.
Proof.
  intros x p r W Hr f G. destruct (path_eqb_spec r p) as [->|N].
  - rewrite fget_del_same in G by exact W. discriminate.
  - rewrite fget_del_other in G by exact N. now apply (Hr N).
Qed.

Lemma syn_call : forall c x x' r, FsWf x -> apply_call c x = Ok x' ->
  match c with
  | CAppend p _ => r <> p /\ syn x r
  | CRename p q => if path_eqb r q then syn x p else (r = p \/ syn x r)
  | CSync p => r = p \/ syn x r
  | _ => syn x r
  end -> syn x' r.
Proof.
  intros c x x' r W E Hc. apply apply_call_eff in E. destruct c.
  - destruct E as (_ & ->). exact Hc.
  - subst x'. now apply syn_upd.
  - destruct E as (_ & ->). now apply (syn_upd x p (mkFile [] 0)).
  - subst x'. destruct (fget x p); [exact Hc|now apply syn_upd].
  - destruct E as (g & _ & ->). destruct Hc as [N S]. now apply syn_upd.
  - destruct E as (g & _ & ->). apply syn_upd; [reflexivity|]. intros N. now destruct Hc.
  - destruct E as (g & Gp & ->). intros f G. rewrite fget_ren in G. destruct (path_eqb r q).
    + inversion G; subst f. now apply Hc.
    + revert f G. apply syn_del; [exact W|]. intros N. now destruct Hc.
  - destruct E as (_ & ->). now apply syn_del.
Qed.

(* calls that leave the files of S synced: all but an append to, or a rename onto, a file of S *)
Definition syn_safe (S : path -> Prop) (c : call) : Prop :=
  match c with CAppend p _ => ~ S p | CRename _ q => ~ S q | _ => True end.

Lemma syn_safe_keeps : forall S c, syn_safe S c -> call_keeps (fun x => FsWf x /\ SynOn S x) c.
Proof.
  intros S c Hc x x' [W Y] E. split; [eapply apply_call_wf; eassumption|].
  intros r Sr. apply (syn_call c x x' r W E). specialize (Y r Sr).
  destruct c; try exact Y; cbn [syn_safe] in Hc.
  - split; [intros ->; contradiction|exact Y].
  - now right.
  - destruct (path_eqb_spec r q) as [->|N]; [contradiction|now right].
Qed.

(* ... along a run given as the list of its calls *)
Lemma ran_syn : forall S cs w w', Ran cs w w' -> Forall (syn_safe S) cs ->
  FsWf (wfs w) -> SynOn S (wfs w) -> Walk (fun x => FsWf x /\ SynOn S x) w w'.
Proof.
  intros S cs w w' R Hc W Y. apply (ran_walk _ cs w w' R), thru_keeps; [now split|].
  eapply Forall_impl; [|exact Hc]. apply syn_safe_keeps.
Qed.

(* calls that never make a synced file unsynced *)
Definition mono_call (c : call) : Prop :=
  match c with CAppend _ _ | CRename _ _ => False | _ => True end.

Lemma mono_safe : forall S c, mono_call c -> syn_safe S c.
Proof. intros S [] M; try exact I; contradiction. Qed.

Lemma synon_mono : forall c S x x', mono_call c -> FsWf x -> apply_call c x = Ok x' ->
  SynOn S x -> SynOn S x'.
Proof.
  intros c S x x' M W E Y. exact (proj2 (syn_safe_keeps S c (mono_safe S c M) x x' (conj W Y) E)).
Qed.

(* predicates that only look at the data of a set of paths *)
Definition Closed (R : path -> Prop) (P : fs -> Prop) : Prop :=
  forall x y, P x -> FsWf y -> nstage y = nstage x ->
    (forall d, In d (dirs x) -> In d (dirs y)) ->
    (forall i, fdat x (PStaging i) = None -> fdat y (PStaging i) = None) ->
    (forall q, R q -> fdat y q = fdat x q) -> P y.

Lemma closed_mono : forall (R R' : path -> Prop) P, (forall q, R q -> R' q) ->
  Closed R P -> Closed R' P.
Proof. intros R R' P I0 C x y Px W N D St A. apply (C x y); auto. Qed.

Lemma closed_or : forall R (P Q : fs -> Prop), Closed R P -> Closed R Q ->
  Closed R (fun x => P x \/ Q x).
Proof.
  intros R P Q CP CQ x y [Px|Qx] W N D St A; [left; eapply CP|right; eapply CQ]; eauto.
Qed.

(* all of R synced: power loss changes nothing P looks at *)
Lemma lose_closed : forall R (P : fs -> Prop) x, Closed R P -> FsWf x -> P x -> SynOn R x ->
  forall v, P (lose v x).
Proof.
  intros R P x C W Px Y v. apply (C x (lose v x) Px).
  - now apply lose_wf.
  - reflexivity.
  - auto.
  - intros i. apply lose_fdat_none.
  - intros q Rq. apply lose_fdat_syn, Y, Rq.
Qed.

(* one append in flight on top of a fully synced state: losing the appended bytes gives the
   data of the state before, keeping them the data of the state after *)
Lemma lose_inflight : forall R (P : fs -> Prop) x0 x' p b, Closed R P ->
  FsWf x0 -> FsWf x' -> P x0 -> SynOn R x0 -> apply_call (CAppend p b) x0 = Ok x' -> P x' ->
  forall v, P (lose v x').
Proof.
  intros R P x0 x' p b C W0 W' P0 Y E P' v. apply apply_call_eff in E.
  destruct E as (g & Gp & E').
  assert (Go : forall q, q <> p -> fget x' q = fget x0 q).
  { intros q N. rewrite E'. now apply (fget_upd_other x0 p). }
  assert (Gs : fget x' p = Some (mkFile (fdata g ++ b) (fsynced g))).
  { rewrite E'. apply (fget_upd_same x0 p). }
  assert (Meta : nstage x' = nstage x0 /\ dirs x' = dirs x0) by (rewrite E'; now split).
  destruct Meta as [Ns Dd].
  assert (SO : forall q, R q -> q <> p -> syn x' q).
  { intros q Rq N f G. rewrite Go in G by exact N. now apply (Y q Rq). }
  destruct (v p) eqn:Vp.
  - apply (C x0 (lose v x') P0).
    + now apply lose_wf.
    + exact Ns.
    + intros d. change (dirs (lose v x')) with (dirs x'). rewrite Dd. auto.
    + intros i G. apply lose_fdat_none. apply fdat_none. apply fdat_none in G.
      destruct (path_eqb_spec (PStaging i) p) as [X|N]; [rewrite X in G; congruence|].
      now rewrite Go.
    + intros q Rq. destruct (path_eqb_spec q p) as [->|N].
      * rewrite (lose_fdat_victim v x' p _ Vp Gs). cbn [fsynced fdata].
        rewrite (Y p Rq g Gp), firstn_app, firstn_all, Nat.sub_diag. cbn [firstn].
        rewrite app_nil_r. symmetry. apply fdat_some. now exists g.
      * rewrite lose_fdat_syn by now apply SO. apply fdat_of_fget. now apply Go.
  - apply (C x' (lose v x') P').
    + now apply lose_wf.
    + reflexivity.
    + auto.
    + intros i. apply lose_fdat_none.
    + intros q Rq. destruct (path_eqb_spec q p) as [->|N].
      * now apply lose_fdat_keep.
      * apply lose_fdat_syn. now apply SO.
Qed.

(* walks: conjunction, splitting *)
Definition TT : fs -> Prop := fun _ => True.

Lemma along_split : forall P w w1 w2, Along P w w2 -> Walk TT w w1 -> Walk TT w1 w2 ->
  Along P w w1 /\ Along P w1 w2.
Proof.
  intros P w w1 w2 (F2 & tr & E & A) (F1 & t1 & E1 & R1 & _) (_ & t2 & E2 & R2 & _).
  rewrite E2, E1, app_assoc in E. apply app_inv_tail in E. subst tr.
  rewrite rev_app_distr in A. split.
  - split; [exact F1|]. exists t1. split; [exact E1|]. intros n Ln.
    specialize (A n). rewrite firstn_app, rev_length in A.
    replace (n - length t1)%nat with 0%nat in A by lia. cbn [firstn] in A. rewrite app_nil_r in A.
    apply A. rewrite app_length. lia.
  - split; [exact F2|]. exists t2. split; [exact E2|]. intros n Ln.
    specialize (A (length t1 + n)%nat). rewrite firstn_app, replay_app, rev_length in A.
    rewrite (firstn_all2 (rev t1)) in A by (rewrite rev_length; lia). rewrite R1 in A.
    replace (length t1 + n - length t1)%nat with n in A by lia.
    apply A. rewrite app_length. lia.
Qed.

Lemma along_end : forall P w w', Along P w w' -> Walk TT w w' -> P (wfs w').
Proof.
  intros P w w' (_ & tr & E & A) (_ & t1 & E1 & R1 & _). rewrite E1 in E.
  apply app_inv_tail in E. subst t1. rewrite <- R1.
  specialize (A (length tr) (Nat.le_refl _)). now rewrite <- rev_length, firstn_all in A.
Qed.

Lemma along_start : forall P w w', Along P w w' -> P (wfs w).
Proof. intros P w w' (_ & tr & _ & A). apply (A 0%nat). lia. Qed.

Lemma along_walk : forall P w w', Along P w w' -> Runs w w' -> Walk P w w'.
Proof.
  intros P w w' (F & tr & E & A) (_ & t1 & E1 & R1). rewrite E in E1. apply app_inv_tail in E1.
  subst t1. split; [exact F|]. exists tr. now split.
Qed.

Lemma along_conj : forall (P Q : fs -> Prop) w w', Along P w w' -> Walk Q w w' ->
  Along (fun x => P x /\ Q x) w w'.
Proof.
  intros P Q w w' (F & tr & E & A) (_ & t1 & E1 & _ & A1). rewrite E in E1.
  apply app_inv_tail in E1. subst t1. split; [exact F|]. exists tr. split; [exact E|].
  intros n Ln. split; [now apply A|now apply A1].
Qed.

Lemma walk_conj : forall (P Q : fs -> Prop) w w', Walk P w w' -> Walk Q w w' ->
  Walk (fun x => P x /\ Q x) w w'.
Proof.
  intros P Q w w' KP KQ.
  exact (along_walk _ _ _ (along_conj _ _ _ _ (walk_along _ _ _ KP) KQ) (walk_runs _ _ _ KP)).
Qed.

(* every program of the monad extends the trace faithfully *)
Definition Faithful {A} (m : M A) : Prop := WalkM TT m.

(* the relative logic *)
(* what the logic is instantiated with:
   P0  what crash atomicity gives for every intermediate state of the run,
   R   the paths P0 looks at,
   J   an additional property of single states to carry along (e.g. True, or "the relevant
       files other than segments are synced, no segment is synced beyond its end"),
   Jp  the files an append may be in flight on. *)
Record Ctx := mkCtx {
  cP0 : fs -> Prop;
  cR : path -> Prop;
  cJ : fs -> Prop;
  cJp : path -> Prop;
  cHC : Closed cR cP0;
  cHW : forall x, cP0 x -> FsWf x;
  cHJ : forall x, FsWf x -> SynOn cR x -> cJ x;
  cHJa : forall p b x x', cJp p -> FsWf x -> SynOn cR x ->
                          apply_call (CAppend p b) x = Ok x' -> cJ x'
}.

Section Logic.
  Variable C : Ctx.
  Local Notation P0 := (cP0 C).
  Local Notation R := (cR C).
  Local Notation J := (cJ C).
  Local Notation Jp := (cJp C).

  (* the goal: P0 survives power loss, for every victim set (and J holds) *)
  Definition PLs (x : fs) : Prop := (forall v, P0 (lose v x)) /\ J x.

  Lemma pls_synced : forall x, P0 x -> SynOn R x -> PLs x.
  Proof.
    intros x Px Y. split.
    - intros v. eapply lose_closed; eauto; [apply (cHC C)|now apply (cHW C)].
    - apply (cHJ C); [now apply (cHW C)|exact Y].
  Qed.

  (* [HR Pre m Post]: m extends the trace faithfully, and IF every intermediate state of m's
     run from w satisfies P0, the start survives power loss and satisfies Pre, THEN every
     intermediate state survives power loss and the result satisfies Post *)
  Definition HR {A} (Pre : fs -> Prop) (m : M A) (Post : A -> fs -> Prop) : Prop :=
    forall w, wfault w = None ->
      Walk TT w (snd (m w)) /\
      (Along P0 w (snd (m w)) -> PLs (wfs w) -> Pre (wfs w) ->
       Along PLs w (snd (m w)) /\ Post (fst (m w)) (wfs (snd (m w)))).

  Lemma hr_faithful : forall {A} Pre (m : M A) Post, HR Pre m Post -> Faithful m.
  Proof. intros A Pre m Post Hm w F _. exact (proj1 (Hm w F)). Qed.

  Lemma hr_ret : forall {A} (Pre : fs -> Prop) (a : A) (Post : A -> fs -> Prop),
    (forall x, Pre x -> Post a x) -> HR Pre (ret a) Post.
  Proof.
    intros A Pre a Post Hp w F. cbn [ret fst snd]. split; [now apply walk_refl|].
    intros _ Iw Pw. split; [now apply along_refl|now apply Hp].
  Qed.

  Lemma hr_bind : forall {A B} Pre (m : M A) Mid (f : A -> M B) Post,
    HR Pre m Mid -> (forall a, HR (Mid a) (f a) Post) -> HR Pre (bind m f) Post.
  Proof.
    intros A B Pre m Mid f Post Hm Hf w F. unfold bind. specialize (Hm w F).
    destruct (m w) as [a w1] eqn:E. cbn [fst snd] in Hm. destruct Hm as [T1 C1].
    pose proof (walk_fault _ _ _ T1) as F1. destruct (Hf a w1 F1) as [T2 C2].
    split; [exact (walk_trans _ _ _ _ T1 T2)|]. intros AL Iw Pw.
    destruct (along_split _ _ _ _ AL T1 T2) as [AL1 AL2].
    destruct (C1 AL1 Iw Pw) as [AI1 M1].
    destruct (C2 AL2 (along_end _ _ _ AI1 T1) M1) as [AI2 Po].
    split; [|exact Po]. eapply along_trans; [exact (walk_runs _ _ _ T1)|exact AI1|exact AI2].
  Qed.

  Lemma hr_bind_ret : forall {A B} Pre (a : A) (f : A -> M B) Post,
    HR Pre (f a) Post -> HR Pre (bind (ret a) f) Post.
  Proof. intros A B Pre a f Post Hf w F. exact (Hf w F). Qed.

  Lemma hr_conseq : forall {A} (Pre Pre' : fs -> Prop) (m : M A) (Post Post' : A -> fs -> Prop),
    (forall x, Pre' x -> Pre x) -> (forall a x, Post a x -> Post' a x) ->
    HR Pre m Post -> HR Pre' m Post'.
  Proof.
    intros A Pre Pre' m Post Post' I1 I2 Hm w F. destruct (Hm w F) as [T C0]. split; [exact T|].
    intros AL Iw Pw. destruct (C0 AL Iw (I1 _ Pw)) as [AI Po]. split; [exact AI|now apply I2].
  Qed.

  Lemma hr_pre : forall {A} (Pre Pre' : fs -> Prop) (m : M A) Post,
    (forall x, Pre' x -> Pre x) -> HR Pre m Post -> HR Pre' m Post.
  Proof. intros A Pre Pre' m Post I1. apply hr_conseq; auto. Qed.

  Lemma hr_post : forall {A} Pre (m : M A) (Post Post' : A -> fs -> Prop),
    (forall a x, Post a x -> Post' a x) -> HR Pre m Post -> HR Pre m Post'.
  Proof. intros A Pre m Post Post' I2. apply hr_conseq; auto. Qed.

  Lemma hr_pure : forall {A} (phi : Prop) Pre (m : M A) Post, Faithful m ->
    (phi -> HR Pre m Post) -> HR (fun x => Pre x /\ phi) m Post.
  Proof.
    intros A phi Pre m Post Fm Hm w F. split; [now apply Fm|]. intros AL Iw [Pw Hphi].
    exact (proj2 (Hm Hphi w F) AL Iw Pw).
  Qed.

  Lemma hr_false : forall {A} (m : M A) Post, Faithful m -> HR (fun _ => False) m Post.
  Proof. intros A m Post Fm w F. split; [now apply Fm|]. intros _ _ []. Qed.

  Lemma hr_get_fs : forall Pre, HR Pre get_fs (fun _ x => Pre x).
  Proof.
    intros Pre w F. cbn [get_fs fst snd]. split; [now apply walk_refl|].
    intros _ Iw Pw. split; [now apply along_refl|exact Pw].
  Qed.

  Lemma hr_read_file : forall Pre p, HR Pre (read_file p) (fun _ x => Pre x).
  Proof.
    intros Pre p w F. cbn [read_file fst snd]. split; [now apply walk_refl|].
    intros _ Iw Pw. split; [now apply along_refl|exact Pw].
  Qed.

  Lemma hr_call : forall c (Pre : fs -> Prop) (Post : res errno unit -> fs -> Prop),
    (forall x x', FsWf x -> P0 x -> PLs x -> Pre x -> apply_call c x = Ok x' -> P0 x' ->
                  PLs x' /\ Post (Ok tt) x') ->
    (forall x e, Pre x -> apply_call c x = Err e -> Post (Err e) x) ->
    HR Pre (do_call c) Post.
  Proof.
    intros c Pre Post HOk HErr w F.
    assert (T : Walk TT w (snd (do_call c w))) by (apply walkm_do_call; [intros s s' _ _; exact I|exact F|exact I]).
    split; [exact T|]. intros AL Iw Pw.
    destruct (apply_call c (wfs w)) as [s'|e] eqn:Ea;
      [pose proof (do_call_ok c w s' F Ea) as Ed|pose proof (do_call_err c w e Ea) as Ed];
      rewrite Ed in *; cbn [fst snd] in *.
    2: split; [now apply along_refl|now apply HErr].
    pose proof (along_start _ _ _ AL) as Px. pose proof (along_end _ _ _ AL T) as Px'.
    cbn [wfs] in Px'. destruct (HOk _ _ (cHW C _ Px) Px Iw Pw Ea Px') as [Is' Po].
    split; [|exact Po]. apply walk_along. eapply walk_call; [exact F|exact Ed|exact Iw|exact Is'].
  Qed.

  (* a call after which all of R is synced *)
  Lemma hr_call_syn : forall c (S S' : path -> Prop),
    (forall x x', FsWf x -> SynOn S x -> apply_call c x = Ok x' -> SynOn S' x') ->
    (forall q, R q -> S' q) ->
    HR (SynOn S) (do_call c)
       (fun r x => match r with Ok _ => SynOn S' x | Err _ => SynOn S x end).
  Proof.
    intros c S S' Hs Sub. apply hr_call.
    - intros x x' W Px Ix Y E Px'. pose proof (Hs x x' W Y E) as Y'. split; [|exact Y'].
      apply pls_synced; [exact Px'|]. eapply synon_weaken; [|exact Y']. exact Sub.
    - intros x e Y _. exact Y.
  Qed.

  Lemma hr_call_mono : forall c, mono_call c -> HR (SynOn R) (do_call c) (fun _ => SynOn R).
  Proof.
    intros c M. eapply hr_post; [|apply (hr_call_syn c R R)].
    - intros [u|e] x Y; exact Y.
    - intros x x' W Y E. eapply synon_mono; eauto.
    - auto.
  Qed.

  (* a program that only issues calls which never unsync anything: R stays synced throughout *)
  Lemma hr_mono : forall {A} (m : M A), IsProg mono_call m -> HR (SynOn R) m (fun _ => SynOn R).
  Proof.
    intros A m Pm w F. split; [exact (walkm_any mono_call TT m (fun _ => I) Pm w F I)|].
    intros AL _ Y.
    assert (K : Walk (fun x => FsWf x /\ SynOn R x) w (snd (m w))).
    { apply walkm_prog; [|exact F|split; [exact (cHW C _ (along_start _ _ _ AL))|exact Y]].
      apply (prog_weaken mono_call); [|exact Pm]. intros c Mc. apply syn_safe_keeps, mono_safe, Mc. }
    split; [|exact (proj2 (walk_end _ _ _ K))].
    eapply along_weaken; [|exact (along_conj _ _ _ _ AL K)]. intros x [Px [_ Yx]].
    now apply pls_synced.
  Qed.

  (* sequencing with error propagation, R synced between the parts *)
  Lemma hr_seq : forall {E A B} (m : M (res E A)) (k : A -> M B) (b : E -> B) Post,
    HR (SynOn R) m (fun _ => SynOn R) -> (forall a, HR (SynOn R) (k a) Post) ->
    (forall e x, SynOn R x -> Post (b e) x) ->
    HR (SynOn R) (do! r <- m ;; match r with Ok a => k a | Err e => ret (b e) end) Post.
  Proof.
    intros E A B m k b Post Hm Hk He. eapply hr_bind; [exact Hm|].
    intros [a|e]; [apply Hk|apply hr_ret; intros x Y; now apply He].
  Qed.

  (* an append (to a file of Jp) issued when all of R is synced: the state after it survives
     power loss (lose_inflight); afterwards everything but that file is still synced *)
  Definition Rx (p : path) : path -> Prop := fun q => R q /\ q <> p.

  Lemma hr_call_append : forall p b (Pre : fs -> Prop), Jp p -> (forall x, Pre x -> SynOn R x) ->
    HR Pre (do_call (CAppend p b))
       (fun r x => match r with Ok _ => SynOn (Rx p) x | Err _ => Pre x end).
  Proof.
    intros p b Pre Hjp Hp. apply hr_call.
    - intros x x' W Px Ix Pw E Px'. pose proof (Hp x Pw) as Y. split; [split|].
      + intros v. eapply (lose_inflight R P0 x x' p b); eauto; [apply (cHC C)|now apply (cHW C)].
      + eapply (cHJa C); eauto.
      + intros q [Rq N]. apply (syn_call _ _ _ q W E). split; [exact N|now apply Y].
    - intros x e Pw _. exact Pw.
  Qed.

  (* ... to a file recovery does not read: nothing to wait for *)
  Lemma hr_call_append_tmp : forall p b, ~ R p -> Jp p ->
    HR (SynOn R) (do_call (CAppend p b)) (fun _ => SynOn R).
  Proof.
    intros p b Np Jpp. eapply hr_post; [|apply (hr_call_append p b (SynOn R) Jpp); auto].
    intros [u|e] x Y; [|exact Y]. intros q Rq. apply Y. split; [exact Rq|].
    intros X. apply Np. now rewrite <- X.
  Qed.

  Lemma rx_weak : forall p x, SynOn R x -> SynOn (Rx p) x.
  Proof. intros p x Y q [Rq _]. now apply Y. Qed.

  (* the sync that ends the flight *)
  Lemma hr_call_sync : forall p,
    HR (SynOn (Rx p)) (do_call (CSync p))
       (fun r x => match r with Ok _ => SynOn R x | Err _ => SynOn (Rx p) x end).
  Proof.
    intros p. apply (hr_call_syn (CSync p) (Rx p) R); [|auto].
    intros x x' W Y E q Rq. apply (syn_call _ _ _ q W E).
    destruct (path_eqb_spec q p) as [->|N]; [now left|right]. apply Y. now split.
  Qed.

  (* using a triple on a run whose crash atomicity is known *)
  Lemma hr_run : forall {A} (m : M A) (Post : A -> fs -> Prop) w a w',
    HR (SynOn R) m Post -> wfault w = None -> m w = (a, w') -> Along P0 w w' ->
    SynOn R (wfs w) -> Walk PLs w w' /\ Post a (wfs w').
  Proof.
    intros A m Post w a w' Hm F E K Y. destruct (Hm w F) as [T C0]. rewrite E in *.
    cbn [fst snd] in *.
    destruct (C0 K (pls_synced _ (along_start _ _ _ K) Y) Y) as [AI Po].
    split; [|exact Po]. apply along_walk; [exact AI|exact (walk_runs _ _ _ T)].
  Qed.
End Logic.

(* faithfulness of the building blocks (for hr_pure / hr_false) *)
Lemma faithful_bw_flush : forall p b, WalkM TT (bw_flush p b).
Proof. of_prog walkm_any prog_bw_flush. Qed.

Lemma faithful_bw_write_all : forall p b d, WalkM TT (bw_write_all p b d).
Proof. of_prog walkm_any prog_bw_write_all. Qed.

Lemma faithful_write_entry : forall H seg b ver payload, WalkM TT (write_entry H seg b ver payload).
Proof. of_prog walkm_any prog_write_entry. Qed.

(* triples for the building blocks of the store *)
(* the temporaries of the store: never read by recovery, so an append to one may be in flight *)
Definition tmp_path (p : path) : Prop :=
  match p with PIndexTmp | PSettingsTmp | PStaging _ => True | _ => False end.

Section Blocks.
  Variable H : bytes -> bytes.
  Variable cfg : config.
  Variable C : Ctx.
  Hypothesis JpWal : forall i, cJp C (PWal i).     (* appends to segments may be in flight *)
  Hypothesis Tmp : forall p, tmp_path p -> ~ cR C p /\ cJp C p.

  Local Notation R := (cR C).
  Local Notation HR := (HR C).
  Local Notation Rx := (Rx C).
  Local Notation Good := (SynOn (cR C)).

  Lemma hr_prune_below : forall b, HR Good (prune_below b) (fun _ => Good).
  Proof. intros b. apply hr_mono, prog_prune_below. intros i _. exact I. Qed.

  Lemma hr_delete_blobs : forall hs, HR Good (delete_blobs hs) (fun _ => Good).
  Proof. intros hs. apply hr_mono, prog_delete_blobs. intros h _. exact I. Qed.

  Lemma hr_mkdir_p : forall d, HR Good (mkdir_p d) (fun _ => Good).
  Proof. intros d. apply hr_mono, prog_mkdir_p. exact I. Qed.

  Lemma hr_mkdirs_pre : forall ds, HR Good (mkdirs_pre ds) (fun _ => Good).
  Proof. intros ds. apply hr_mono, prog_mkdirs_pre. intros d. exact I. Qed.

  (* atomically_write_file_bytes: the temporary is synced before it is renamed over the
     target, so the target is synced whenever it is visible *)
  Lemma hr_atomic_write : forall target tmp data, tmp_path tmp ->
    HR Good (atomic_write target tmp data) (fun _ => Good).
  Proof.
    intros target tmp data Ht. destruct (Tmp tmp Ht) as [Nt Jt]. unfold atomic_write.
    apply hr_seq; [apply hr_call_mono; exact I|intros _|auto].
    apply hr_seq; [|intros _|auto].
    { destruct data; [apply hr_ret; auto|now apply hr_call_append_tmp]. }
    eapply hr_bind.
    { apply (hr_call_syn C (CSync tmp) R (fun q => R q \/ q = tmp)); [|auto].
      intros x x' W Y E q [Rq| ->]; apply (syn_call _ _ _ _ W E); [right; now apply Y|now left]. }
    intros [u3|e3]; cbv beta iota; [|apply hr_ret; auto].
    eapply hr_post;
      [|apply (hr_call_syn C (CRename tmp target) (fun q => R q \/ q = tmp) R); [|auto]].
    - intros [u4|e4] x Y; [exact Y|]. eapply synon_weaken; [|exact Y]. intros q Rq. now left.
    - intros x x' W Y E q Rq. apply (syn_call _ _ _ q W E).
      destruct (path_eqb q target); [apply Y; now right|]. right. apply Y. now left.
  Qed.

  (* BufWriter: either nothing is in flight and the buffer may hold bytes, or the buffer is
     empty *)
  Definition FlushPre (p : path) (buf : bytes) (x : fs) : Prop :=
    SynOn (Rx p) x /\ (buf <> [] -> Good x).

  Lemma hr_bw_flush : forall p buf, cJp C p ->
    HR (FlushPre p buf) (bw_flush p buf)
       (fun rb x => SynOn (Rx p) x /\
                    match fst rb with Err _ => snd rb <> [] -> Good x | Ok _ => True end).
  Proof.
    intros p buf Jpp. destruct buf as [|b0 buf]; cbn [bw_flush].
    - apply hr_ret. intros x [Y _]. cbn [fst snd]. now split.
    - eapply hr_bind; [apply (hr_call_append C p (b0 :: buf) (FlushPre p (b0 :: buf)) Jpp)|].
      + intros x [_ G]. apply G. discriminate.
      + intros [u|e]; cbv beta iota; apply hr_ret; cbn [fst snd].
        * intros x Y. now split.
        * intros x [Y G]. now split.
  Qed.

  Lemma hr_bw_write_all : forall p data, cJp C p ->
    HR Good (bw_write_all p [] data) (fun rb x => FlushPre p (snd rb) x).
  Proof.
    intros p data Jpp. unfold bw_write_all. cbv zeta.
    destruct (len data <? BUFCAP - len []).
    - apply hr_ret. intros x Y. cbn [snd]. split; [now apply rx_weak|auto].
    - assert (E0 : forall c : bool,
                (if c then bw_flush p [] else ret (Ok tt, [])) = ret (Ok tt, @nil N))
        by (intros []; reflexivity).
      rewrite E0. apply hr_bind_ret. cbv beta iota.
      destruct (BUFCAP <=? len data).
      + eapply hr_bind; [apply (hr_call_append C p data Good Jpp); auto|].
        intros r. apply hr_ret. intros x Y. cbn [snd]. split; [|intros X; now elim X].
        destruct r; [exact Y|now apply rx_weak].
      + apply hr_ret. intros x Y. cbn [snd]. split; [now apply rx_weak|auto].
  Qed.

  Lemma hr_writer_close : forall seg b,
    HR (FlushPre (PWal seg) b) (writer_close seg b)
       (fun r x => match r with Ok _ => Good x | Err _ => True end).
  Proof.
    intros seg b. unfold writer_close.
    eapply hr_bind; [apply hr_bw_flush; apply JpWal|]. intros [[u|e] b']; cbv beta iota; cbn [fst snd].
    - eapply hr_bind.
      + eapply hr_pre; [|apply (hr_call_sync C (PWal seg))]. intros x [Y _]. exact Y.
      + intros [u2|e2]; cbv beta iota; apply hr_ret; auto.
    - eapply hr_bind; [apply hr_bw_flush; apply JpWal|]. intros ?. apply hr_ret; auto.
  Qed.

  Lemma hr_writer_seal : forall seg,
    HR Good (writer_seal seg []) (fun r x => match r with Ok _ => Good x | Err _ => True end).
  Proof.
    intros seg. unfold writer_seal. eapply hr_bind; [apply hr_bw_write_all; apply JpWal|].
    intros [[u|e] b]; cbv beta iota; cbn [fst snd].
    - apply hr_writer_close.
    - eapply hr_bind; [apply hr_bw_flush; apply JpWal|]. intros ?. apply hr_ret; auto.
  Qed.

  (* write_entry: the record is written, flushed, synced -- one append in flight *)
  Lemma hr_write_entry : forall seg ver payload,
    HR Good (write_entry H seg [] ver payload)
       (fun rb x => match fst rb with Ok _ => Good x | Err _ => True end).
  Proof.
    intros seg ver payload. unfold write_entry. cbv zeta.
    eapply hr_bind; [apply hr_bw_write_all; apply JpWal|].
    intros [[u|e] b]; cbv beta iota; cbn [fst snd]; [|apply hr_ret; cbn [fst]; auto].
    eapply hr_bind; [apply hr_bw_flush; apply JpWal|].
    intros [[u2|e2] b2]; cbv beta iota; cbn [fst snd]; [|apply hr_ret; cbn [fst]; auto].
    eapply hr_bind.
    - eapply hr_pre; [|apply (hr_call_sync C (PWal seg))]. intros x [Y _]. exact Y.
    - intros [u3|e3]; cbv beta iota; apply hr_ret; cbn [fst]; auto.
  Qed.

  Lemma hr_append_op : forall wl payload, (forall s b, writer wl = Some (s, b) -> b = []) ->
    HR Good (append_op H cfg wl payload)
       (fun r x => match fst r with Ok _ => Good x | Err _ => True end).
  Proof.
    intros wl payload Hb. unfold append_op. cbv zeta.
    apply hr_bind with
      (Mid := fun ro x => match fst ro with
                          | Ok _ => Good x /\ (forall s b, writer (snd ro) = Some (s, b) -> b = [])
                          | Err _ => True
                          end).
    - assert (Open : forall t v,
                HR Good (do! r <- do_call (COpenAppend (PWal t)) ;;
                         match r with
                         | Err _ => ret (Err EWalIo, mkWal v None)
                         | Ok _ => ret (Ok tt, mkWal v (Some (t, [])))
                         end)
                   (fun ro x => match fst ro with
                                | Ok _ => Good x /\ (forall s b, writer (snd ro) = Some (s, b) -> b = [])
                                | Err _ => True
                                end)).
      { intros t v. eapply hr_bind; [apply (hr_call_mono C (COpenAppend (PWal t))); exact I|].
        intros [u|e]; cbv beta iota; apply hr_ret; intros x Y; cbn [fst snd writer]; [|exact I].
        split; [exact Y|]. intros s b X. now inversion X. }
      destruct (writer wl) as [[s b]|] eqn:Wr.
      + assert (b = []) by (apply (Hb s); reflexivity). subst b.
        destruct (negb (s =? seg_of cfg (nextv wl))).
        * eapply hr_bind; [apply hr_writer_seal|]. intros [u|e]; cbv beta iota; [apply Open|].
          apply hr_ret. intros x _. exact I.
        * apply hr_ret. intros x Y. cbn [fst snd writer]. split; [exact Y|].
          intros s0 b0 X. now inversion X.
      + apply hr_bind_ret. cbv beta iota. apply Open.
    - intros [[u|e] w2]; cbv beta iota; cbn [fst snd]; [|apply hr_ret; cbn [fst]; auto].
      apply hr_pure; [apply (walkm_any (fun _ => True)); [exact (fun _ => I)|prog ltac:(exact I)]|].
      intros Hw2.
      destruct (writer w2) as [[s b]|]; [|apply hr_ret; cbn [fst]; auto].
      rewrite (Hw2 s b eq_refl). eapply hr_bind; [apply hr_write_entry|].
      intros [[u2|e2] b']; cbv beta iota; cbn [fst snd]; apply hr_ret; cbn [fst]; auto.
  Qed.

  Lemma hr_checkpoint_inner : forall reason m,
    HR Good (checkpoint_inner cfg reason m) (fun _ => Good).
  Proof.
    intros reason m. unfold checkpoint_inner. cbv zeta.
    match goal with |- @PowerLoss.HR _ _ _ (if ?c then _ else _) _ => destruct c end;
      [apply hr_ret; auto|].
    apply hr_seq; [apply hr_atomic_write; exact I|intros _|auto].
    apply hr_bind with (Mid := fun _ => Good); [|intros ?; apply hr_ret; auto].
    match goal with |- @PowerLoss.HR _ _ _ (if ?c then _ else _) _ => destruct c end;
      [apply hr_ret; auto|apply hr_prune_below].
  Qed.

  Lemma hr_log_and_apply : forall m o,
    (forall s b, writer (mwal m) = Some (s, b) -> b = []) ->
    HR Good (log_and_apply H cfg m o)
       (fun r x => match fst r with Ok _ => Good x | Err _ => True end).
  Proof.
    intros m o Hb. unfold log_and_apply. cbv zeta.
    eapply hr_bind; [apply hr_append_op; exact Hb|].
    intros [[ver|e] w']; cbv beta iota; cbn [fst snd]; [|apply hr_ret; cbn [fst]; auto].
    destruct (apply_op _ (idx m) o) as [[i' unref]|e]; [|apply hr_ret; cbn [fst]; auto].
    apply hr_seq; [apply hr_delete_blobs|intros _|cbn [fst]; auto].
    match goal with |- @PowerLoss.HR _ _ _ (if ?c then _ else _) _ => destruct c end.
    - eapply hr_post; [|apply hr_checkpoint_inner]. intros [[u2|e2] m2] x Y; cbn [fst]; auto.
    - apply hr_ret. cbn [fst]. auto.
  Qed.
End Blocks.

(* the sync-aware invariant RestS and the key lemma lose_rest *)
Section PowerInv.
  Variable H : bytes -> bytes.
  Hypothesis H_len : forall b, length (H b) = 32%nat.
  Hypothesis H_byte : forall b, Forall (fun x => x < 256) (H b).
  Variable cfg : config.
  Hypothesis n_pos : 0 < c_n cfg.
  Let cmp := key_cmp (c_kt cfg).

  Local Notation Rest := (Rest H cfg).
  Local Notation RestB := (RestB H cfg).
  Local Notation RestDB := (RestDB H cfg).

  Local Notation looked := (looked H).

  (* every file recovery of the map sg reads ([looked sg]: settings, snapshot, every segment,
     the blob of every content of sg) is synced.  Everything else (staging files, *.tmp, the
     lock file, blobs that sg does not reference) may be arbitrarily unsynced. *)
  Definition SyncedFor (sg : smap bytes) (x : fs) : Prop :=
    syn x PSettings /\ syn x PIndex /\ (forall i, syn x (PWal i)) /\
    forall k c, In (k, c) sg -> syn x (cas_path (H c)).

  Lemma syncedfor_looked : forall sg x, SyncedFor sg x <-> SynOn (looked sg) x.
  Proof.
    intros sg x. split.
    - intros (S1 & S2 & S3 & S4) [| | | | |i| |l] L; try contradiction; auto.
      destruct L as (k & c & Ik & ->). exact (S4 k c Ik).
    - intros Y. split; [now apply Y|]. split; [now apply Y|]. split; [intros i; now apply Y|].
      intros k c Ik. eapply Y, looked_blob, Ik.
  Qed.

  (* THE sync-aware strengthening of Rest *)
  Definition RestS (x : fs) (sg : smap bytes) : Prop := Rest x sg /\ SyncedFor sg x.
  Definition RestSB (B : N) (x : fs) (sg : smap bytes) : Prop := RestB B x sg /\ SyncedFor sg x.

  Lemma restsb_rests : forall B x sg, RestSB B x sg -> RestS x sg.
  Proof. intros B x sg [Rb Y]. split; [eapply restb_rest; exact Rb|exact Y]. Qed.

  Lemma sees_closed : forall R (P : fs -> Prop), Sees R P -> Closed R P.
  Proof.
    intros R P [Wf Ag] x y Px W N D St A. apply (Ag x y Px W); [|exact D|exact A].
    intros i Li. apply St. rewrite N in Li. now apply (proj2 (Wf x Px)).
  Qed.

  Lemma closed_restb : forall B sg, Closed (looked sg) (fun x => RestB B x sg).
  Proof. intros B sg. apply sees_closed, (sees_restb H cfg). Qed.

  Definition Rel2 (sg sg' : smap bytes) (q : path) : Prop := looked sg q \/ looked sg' q.

  Lemma closed_restdb : forall B sg sg', Closed (Rel2 sg sg') (RestDB B sg sg').
  Proof.
    intros B sg sg'. apply (closed_or (Rel2 sg sg') (fun x => RestB B x sg) (fun x => RestB B x sg')).
    - eapply closed_mono; [|apply closed_restb]. intros q Rq. now left.
    - eapply closed_mono; [|apply closed_restb]. intros q Rq. now right.
  Qed.

  Lemma restdb_wf : forall B sg sg' x, RestDB B sg sg' x -> FsWf x.
  Proof. intros B sg sg' x [Rx|Rx]; eapply restb_wf; exact Rx. Qed.

  Lemma looked_sub : forall sg sg' q, (forall e, In e sg' -> In e sg) -> looked sg' q -> looked sg q.
  Proof.
    intros sg sg' [] Sub L; try exact L. destruct L as (k & c & Ik & E). exists k, c.
    split; [now apply Sub|exact E].
  Qed.

  Lemma looked_not_tmp : forall sg p, tmp_path p -> ~ looked sg p.
  Proof. intros sg [] T L; contradiction. Qed.

  Lemma syncedfor_l : forall sg sg' x, SynOn (Rel2 sg sg') x -> SyncedFor sg x.
  Proof. intros sg sg' x Y. apply syncedfor_looked. intros q Rq. apply Y. now left. Qed.

  Lemma syncedfor_r : forall sg sg' x, SynOn (Rel2 sg sg') x -> SyncedFor sg' x.
  Proof. intros sg sg' x Y. apply syncedfor_looked. intros q Rq. apply Y. now right. Qed.

  (* a map sg' within sg adds nothing to what must be synced *)
  Lemma synced_sub : forall sg sg' x, (forall e, In e sg' -> In e sg) -> SyncedFor sg x ->
    SynOn (Rel2 sg sg') x.
  Proof.
    intros sg sg' x Sub Y q [Rq|Rq]; apply (proj1 (syncedfor_looked sg x) Y); [exact Rq|].
    eapply looked_sub; eassumption.
  Qed.

  (* what holds at EVERY intermediate state of an operation in Sync mode, also while a
     record is in flight: the relevant files other than segments are synced, and no segment
     is marked synced beyond its end.  With it: when the victims include every segment file,
     the relevant files are synced again after the power loss. *)
  Definition WalWf (x : fs) : Prop :=
    forall i f, fget x (PWal i) = Some f -> (fsynced f <= length (fdata f))%nat.
  Definition JS (sg sg' : smap bytes) (x : fs) : Prop :=
    SynOn (fun q => Rel2 sg sg' q /\ not_wal q) x /\ WalWf x.
  (* an append may be in flight on a segment, or on a file recovery does not read *)
  Definition JpS (sg sg' : smap bytes) (p : path) : Prop := ~ (Rel2 sg sg' p /\ not_wal p).
  Definition wal_victims (v : path -> bool) : Prop := forall i, v (PWal i) = true.

  Lemma js_synced : forall sg sg' x, SynOn (Rel2 sg sg') x -> JS sg sg' x.
  Proof.
    intros sg sg' x Y. split.
    - intros q [Rq _]. now apply Y.
    - intros i f G. rewrite (Y (PWal i)) with (f := f); [apply Nat.le_refl| |exact G].
      now left.
  Qed.

  Lemma js_append : forall sg sg' p b x x', JpS sg sg' p -> FsWf x -> SynOn (Rel2 sg sg') x ->
    apply_call (CAppend p b) x = Ok x' -> JS sg sg' x'.
  Proof.
    intros sg sg' p b x x' Np W Y E. destruct (js_synced sg sg' x Y) as [Y1 Y2]. split.
    - intros q Rq. apply (syn_call _ _ _ q W E). split; [|now apply Y1].
      intros ->. now apply Np.
    - intros i f G. apply apply_call_eff in E. destruct E as (g & Gp & ->).
      rewrite fget_upd in G. destruct (path_eqb_spec (PWal i) p) as [Ep|Np'].
      + inversion G. cbn [fsynced fdata]. rewrite <- Ep in Gp. rewrite app_length.
        exact (Nat.le_trans _ _ _ (Y2 i g Gp) (Nat.le_add_r _ _)).
      + now apply (Y2 i).
  Qed.

  Lemma js_lose : forall sg sg' x v, JS sg sg' x -> wal_victims v -> SynOn (Rel2 sg sg') (lose v x).
  Proof.
    intros sg sg' x v [Y1 Y2] Hv q Rq.
    destruct q as [| | | | |i| |]; try (apply lose_syn, Y1; split; [exact Rq|exact I]).
    intros f G. rewrite fget_lose in G. destruct (fget x (PWal i)) as [g|] eqn:Gg; [|discriminate].
    cbn [option_map] in G. inversion G. unfold lost. rewrite Hv. cbn [fsynced fdata].
    rewrite firstn_length. symmetry. apply Nat.min_l, (Y2 i g Gg).
  Qed.

  Definition ctx_db (B : N) (sg sg' : smap bytes) : Ctx :=
    mkCtx (RestDB B sg sg') (Rel2 sg sg') (JS sg sg') (JpS sg sg')
          (closed_restdb B sg sg') (restdb_wf B sg sg')
          (fun x _ Y => js_synced sg sg' x Y) (js_append sg sg').

  Lemma ctx_db_wal : forall B sg sg' i, cJp (ctx_db B sg sg') (PWal i).
  Proof. intros B sg sg' i [_ []]. Qed.

  Lemma ctx_db_tmp : forall B sg sg' p, tmp_path p ->
    ~ cR (ctx_db B sg sg') p /\ cJp (ctx_db B sg sg') p.
  Proof.
    intros B sg sg' p T.
    assert (N : ~ Rel2 sg sg' p) by (intros [X|X]; exact (looked_not_tmp _ p T X)).
    split; [exact N|]. intros [X _]. exact (N X).
  Qed.

  Lemma lose_syncedfor : forall sg x v, SyncedFor sg x -> SyncedFor sg (lose v x).
  Proof.
    intros sg x v Y. apply syncedfor_looked. intros q Rq. apply lose_syn.
    now apply (proj1 (syncedfor_looked sg x) Y).
  Qed.

  (* the key lemma: the invariant survives power loss, for every victim set, and is again
     a state of the sync-aware invariant *)
  Theorem lose_restSB : forall B x sg, RestSB B x sg -> forall victims, RestSB B (lose victims x) sg.
  Proof.
    intros B x sg [Rx Y] v. split; [|now apply lose_syncedfor].
    apply (lose_closed (looked sg) (fun y => RestB B y sg)).
    - apply closed_restb.
    - eapply restb_wf; exact Rx.
    - exact Rx.
    - now apply syncedfor_looked.
  Qed.

  Theorem lose_restS : forall x sg, RestS x sg -> forall victims, RestS (lose victims x) sg.
  Proof.
    intros x sg [Rx Y] v. destruct (rest_restb H cfg n_pos _ _ Rx) as (B & _ & Rb).
    exact (restsb_rests B _ _ (lose_restSB B x sg (conj Rb Y) v)).
  Qed.

  Theorem lose_rest : forall x sg, RestS x sg -> forall victims, Rest (lose victims x) sg.
  Proof. intros x sg RS v. exact (proj1 (lose_restS x sg RS v)). Qed.
End PowerInv.

Print Assumptions lose_inflight.
Print Assumptions hr_log_and_apply.
Print Assumptions lose_rest.
Print Assumptions lose_restS.

