(* CrashOpen.v -- recovery from the memory-less invariant (rest_open) and crash safety of
   recovery itself (open_crash): from Rest s sg, open_with_recover succeeds, rebuilds a
   fully usable handle for exactly sg, and every intermediate filesystem of the recovery
   satisfies Rest _ sg again -- so a crash during recovery (any depth of nesting) is recovered
   by the next open.  Also: a kill inside the first-time initialisation of an empty directory
   (first_open_crash), and exact reference counts and statistics after recovery
   (C12_after_crash). *)
From Cas Require Import History.
From CasProofs Require Import BaseProofs IndexProofs StoreFS WorldRel StoreRun StoreInv StoreWrite
  DiskInv Recover CrashInv CrashOps PreTree.
Open Scope N_scope.

Local Opaque all256.

Section CrashOpen.
  Variable H : bytes -> bytes.
  Hypothesis H_len : forall b, length (H b) = 32%nat.
  Hypothesis H_byte : forall b, Forall (fun x => x < 256) (H b).
  Variable cfg : config.
  Hypothesis n_pos : 0 < c_n cfg.
  Let cmp := key_cmp (c_kt cfg).

  Local Notation DX L := (L H H_len H_byte cfg n_pos) (only parsing).
  Local Notation km_of := (km_of H).
  Local Notation NoCollide := (NoCollide H).
  Local Notation Live0 := (Live0 H cfg).
  Local Notation seg_of := (seg_of cfg).
  Local Notation DiskOk' := (DiskOk' H cfg).
  Local Notation Inv' := (Inv' H cfg).
  Local Notation Rest := (Rest H cfg).
  Local Notation RestP := (RestP H cfg).
  Local Notation RestB := (RestB H cfg).
  Local Notation Aux := (Aux H).

  (* Index::load on a well-formed disk: the snapshot, the replay of the log, the segment of the
     next version, the checkpoint after a replay *)
  Lemma a_index_load : forall B c nv pre sg w,
    nv <= B -> wfault w = None -> RestP c nv (seg_of nv) pre sg (wfs w) ->
    sorted cmp sg -> NoCollide (map snd sg) ->
    exists m' w', index_load H cfg pre w = (Ok m', w') /\ Eff w w' /\
      nextv (mwal m') = nv /\ writer (mwal m') = None /\ mpre m' = pre /\
      km (idx m') = km_of sg /\ IdxInv cmp (idx m') /\
      RestP (lpv (idx m')) nv (seg_of nv) pre sg (wfs w') /\
      (forall q, ~ is_meta q -> fdat (wfs w') q = fdat (wfs w) q) /\
      ssz (idx m') = match fdat (wfs w') PIndex with Some d => len d | None => 0 end /\
      Walk (fun x => RestB B x sg) w w'.
  Proof.
    intros B c nv pre sg w LB F R0 Ss Nc. pose proof R0 as [A (ids & rf & sf & km_c & ops & Dw)].
    rewrite index_load_split.
    destruct (DX loaded_ok _ _ _ _ _ _ _ _ _ _ _ Dw) as (st0 & -> & Iv0 & K0 & L0 & Z0).
    pose proof A as (Wf & _).
    unfold load_tail. cbv zeta. rewrite L0.
    destruct (DX replay_ok c nv _ pre (wfs w) sg ids rf sf km_c ops st0 Wf Dw Iv0 K0)
      as (st & E & Iv & K & L & Z).
    rewrite E. cbv beta iota.
    assert (Nv1 : 1 <= nv) by (rewrite (dw_nv _ _ _ _ _ _ _ _ _ _ _ _ _ Dw); clear; lia).
    replace (nv - 1 + 1) with nv by (clear - Nv1; lia).
    change ((nv - 1) / c_n cfg) with (seg_of nv). set (t := seg_of nv).
    assert (ToB : forall x, RestP c nv t pre sg x -> RestB B x sg)
      by (intros x; now apply (DX restp_restb B c nv t pre sg x Ss Nc (N.le_refl _) LB)).
    (* the segment of the next version is created if missing *)
    destruct (next_seg_does t w F) as (w1 & E1 & Rl). rewrite (bind_eq _ _ _ _ _ E1).
    assert (P1 : Eff w w1 /\ RestP c nv t pre sg (wfs w1) /\
                 (forall q, not_wal q -> fdat (wfs w1) q = fdat (wfs w) q) /\
                 Walk (fun x => RestB B x sg) w w1).
    { unfold next_seg_calls in Rl. destruct (fget (wfs w) (PWal t)) as [f|] eqn:G.
      - apply ran_nil_inv in Rl. subst w1. split; [now apply eff_refl|]. split; [exact R0|].
        split; [auto|]. apply walk_refl; [exact F|]. now apply ToB.
      - assert (A5 : AtW (RestP c nv t pre sg) (wfs w) (vset (fdat (wfs w)) (PWal t) (Some []))).
        { apply (restp_atw_wal H cfg); [exact A|].
          eapply (DX V_add_seg); [exact (proj2 R0)|now apply fdat_none|apply vset_same|].
          intros q Nq. now apply vset_other. }
        destruct (a_ran (RestP c nv t pre sg) (PWal t) _ w w1 Rl Wf) as (X1 & V1 & K1).
        { repeat (constructor; [exact eq_refl|]). constructor. }
        { exact R0. }
        { split; [exact A5|]. split; [exact A5|exact I]. }
        split; [exact X1|]. split; [exact (walk_end _ _ _ K1)|]. split.
        + intros q Nq. rewrite V1. now apply vset_notwal.
        + exact (walk_weaken _ _ _ _ ToB K1). }
    destruct P1 as (X1 & R1 & N1 & K1). pose proof X1 as (F1 & W1 & _).
    set (m1 := mkMem st (mkWal nv None) pre).
    destruct ops as [|o ops'] eqn:Eo.
    - cbn [length N.of_nat]. change (0 <? 0) with false. cbv iota.
      specialize (Z eq_refl). subst st.
      exists m1, w1. split; [reflexivity|]. split; [exact X1|].
      unfold m1. cbn [idx mwal mpre nextv writer]. repeat (split; [reflexivity|]).
      split; [exact K|]. split; [exact Iv|]. split; [|split; [|split; [|exact K1]]].
      + now rewrite L0.
      + intros q Nq. apply N1. destruct q; try exact I. apply Nq. exact I.
      + rewrite N1 by exact I. exact Z0.
    - replace (0 <? N.of_nat (length (o :: ops'))) with true by (cbn [length]; clear; lia). cbv iota.
      destruct (checkpoint_inner_run cfg RAfterReplay m1 w1 F1) as (w2 & w3 & E2 & Rc1 & Rc2).
      rewrite (bind_eq _ _ _ _ _ E2).
      destruct (a_checkpoint_inner H H_len H_byte cfg n_pos RAfterReplay m1 t sg B w1 w2 w3 Rc1 Rc2)
        as (X2 & R2 & N2 & Gi & Kw2); try assumption.
      { unfold m1. cbn [idx mwal mpre nextv]. now rewrite L, L0. }
      { unfold m1. cbn [mwal nextv]. apply N.le_refl. }
      destruct (ck_mem_same RAfterReplay m1) as (K2 & Rc2' & U2 & T2 & Wl2 & P2).
      assert (Sk : ck_skips RAfterReplay m1 = false).
      { apply ck_skips_not; [discriminate|]. unfold m1. cbn [mwal nextv].
        rewrite (dw_nv _ _ _ _ _ _ _ _ _ _ _ _ _ Dw). cbn [length]. clear. lia. }
      exists (ck_mem RAfterReplay m1), w3. split; [reflexivity|]. split; [exact (eff_trans _ _ _ X1 X2)|].
      rewrite Wl2, P2. unfold m1 at 1 2 3. cbn [mwal mpre nextv writer].
      repeat (split; [reflexivity|]).
      split; [rewrite K2; exact K|]. split.
      { eapply (IdxInv_ext cfg); [exact K2|exact Rc2'|exact U2|exact T2|exact Iv]. }
      split; [exact R2|]. split; [|split; [|exact (walk_trans _ _ _ _ K1 Kw2)]].
      + intros q Nq. rewrite N2 by exact Nq. apply N1. destruct q; try exact I. apply Nq. exact I.
      + rewrite (Gi Sk). unfold ck_mem. now rewrite Sk.
  Qed.

  (* the end of open_with_recover, from a state with a settings file *)
  Lemma a_open_tail : forall B sg c nv pre w w4,
    Walk (fun x => RestB B x sg) w w4 ->
    has_dir (wfs w4) [s_staging] = true -> has_dir (wfs w4) [s_cas] = true ->
    RestP c nv (seg_of nv) pre sg (wfs w4) -> 1 <= nv -> nv <= B ->
    exists m' os w', open_load H cfg pre w4 = (Ok (m', os), w') /\ wfault w' = None /\
      writer (mwal m') = None /\ 1 <= nextv (mwal m') /\ nextv (mwal m') <= B /\
      km (idx m') = km_of sg /\ IdxInv cmp (idx m') /\
      RestP (lpv (idx m')) (nextv (mwal m')) (seg_of (nextv (mwal m'))) (mpre m') sg (wfs w') /\
      has_dir (wfs w') [s_staging] = true /\ has_dir (wfs w') [s_cas] = true /\
      ssz (idx m') = match fdat (wfs w') PIndex with Some d => len d | None => 0 end /\
      Walk (fun x => RestB B x sg) w w'.
  Proof.
    intros B sg c nv pre w w4 K4 Hs Hc R4 Nv1 NvB. destruct (walk_end _ _ _ K4) as (Ss & Nc & _).
    destruct (a_index_load B c nv pre sg w4 NvB (walk_fault _ _ _ K4) R4 Ss Nc)
      as (m' & w' & E' & X' & P1 & P2 & P3 & P4 & P5 & P6 & P7 & P8 & K').
    unfold open_load. rewrite (bind_eq _ _ _ _ _ E'). unfold bind, get_fs, ret.
    eexists m', _, w'. split; [reflexivity|]. split; [exact (proj1 X')|].
    split; [exact P2|]. rewrite P1, P3. do 4 (split; [assumption|]). split; [exact P6|].
    destruct X' as (_ & _ & Dd & _). unfold has_dir in *. rewrite Dd.
    split; [exact Hs|]. split; [exact Hc|]. split; [exact P8|exact (walk_trans _ _ _ _ K4 K')].
  Qed.

  Lemma a_open : forall B s sg w, RestB B s sg -> 1 <= B -> wfault w = None -> wfs w = s ->
    exists m' os w', open_with_recover H cfg w = (Ok (m', os), w') /\ wfault w' = None /\
      writer (mwal m') = None /\ 1 <= nextv (mwal m') /\ nextv (mwal m') <= B /\
      km (idx m') = km_of sg /\ IdxInv cmp (idx m') /\
      RestP (lpv (idx m')) (nextv (mwal m')) (seg_of (nextv (mwal m'))) (mpre m') sg (wfs w') /\
      has_dir (wfs w') [s_staging] = true /\ has_dir (wfs w') [s_cas] = true /\
      ssz (idx m') = match fdat (wfs w') PIndex with Some d => len d | None => 0 end /\
      Walk (fun x => RestB B x sg) w w'.
  Proof.
    intros B s sg w R0 B1 F Ws. subst s.
    assert (Kmk : forall d, call_keeps (fun x => RestB B x sg) (CMkdir d))
      by (intros d; apply (restb_keeps H cfg); exact I).
    destruct (open_front_then H cfg w F) as (w3 & -> & Rf). unfold open_front_calls in Rf.
    rewrite app_assoc in Rf.
    assert (Mk : Forall is_mkdir (mkdir_calls [s_staging] (wfs w) ++ mkdir_calls [s_cas] (wfs w)))
      by (apply Forall_app; split; apply mkdir_calls_mkdir).
    assert (K03 : Walk (fun x => RestB B x sg) w w3).
    { apply (ran_walk _ _ _ _ Rf), thru_keeps; [exact R0|]. apply Forall_app. split.
      - eapply Forall_impl; [|exact Mk]. intros [] M; try contradiction. apply Kmk.
      - constructor; [|constructor]. apply (restb_keeps H cfg). exact I. }
    pose proof (walk_end _ _ _ K03) as R3. pose proof (walk_fault _ _ _ K03) as F3.
    apply ran_app_inv in Rf. destruct Rf as (w2 & Rm & Rf).
    destruct (okc_mkdirs _ _ _ Mk (ran_okc _ _ _ Rm)) as (_ & _ & Ds).
    assert (Hd3 : has_dir (wfs w3) [s_staging] = true /\ has_dir (wfs w3) [s_cas] = true).
    { unfold has_dir.
      rewrite (fr_dirs _ _ _ (okc_frame (fun _ => True) [CCreate PLock] _ _ ltac:(repeat constructor)
                                (ran_okc _ _ _ Rf))).
      unfold mkdir_calls in Ds.
      split; apply Ds; [destruct (has_dir (wfs w) [s_staging])|destruct (has_dir (wfs w) [s_cas])];
        auto using in_or_app, in_eq. }
    unfold open_tail.
    pose proof R3 as (Ss & Nc & [(c & nv & pre & NvB & RP3)|RF3]).
    - (* an initialised directory *)
      pose proof RP3 as [A3 (ids & rf & sf & km_c & ops & Dw)].
      destruct (dw_settings _ _ _ _ _ _ _ _ _ _ _ _ _ Dw) as (d & Gs & Es).
      apply fdat_some in Gs. destruct Gs as (f & Gf & Df).
      assert (SG : settings_gate cfg w3 = (Ok pre, w3))
        by (unfold settings_gate, bind, read_file; now rewrite Gf, Df, Es, !N.eqb_refl).
      rewrite (bind_eq _ _ _ _ _ SG).
      apply (a_open_tail B sg c nv pre w w3 K03 (proj1 Hd3) (proj2 Hd3) RP3); [|exact NvB].
      rewrite (dw_nv _ _ _ _ _ _ _ _ _ _ _ _ _ Dw). clear. lia.
    - (* first-time initialisation; with pre_create_cas_dirs the fan-out directories first (any
         part of the tree may exist already: mkdir_p skips what exists) *)
      destruct RF3 as (E0 & Nfit & _ & Sf3 & Gs3 & Gi3 & Gw3). subst sg.
      apply fdat_none in Gs3.
      assert (PC : exists wp,
                (if c_pre cfg then pre_create_all else ret (Ok tt)) w3 = (Ok tt, wp) /\
                wfault wp = None /\ files (wfs wp) = files (wfs w3) /\
                nstage (wfs wp) = nstage (wfs w3) /\
                (forall d, has_dir (wfs w3) d = true -> has_dir (wfs wp) d = true) /\
                pre_dirs (c_pre cfg) (wfs wp) /\ Walk (fun x => RestB B x []) w3 wp).
      { destruct (c_pre cfg) eqn:Pre.
        - destruct (pre_create_all_ok w3 F3 (proj2 Hd3)) as (wp & Ep & Gp & Pp).
          exists wp. split; [exact Ep|]. split; [exact (proj1 (gr_ext _ _ Gp))|].
          split; [exact (gr_files _ _ Gp)|]. split; [exact (gr_nstage _ _ Gp)|].
          split; [exact (gr_dirs _ _ Gp)|]. split.
          + intros _ h Lh Bh. apply (PreDirs_WfDirs _ Pp). now split.
          + pose proof (walkm_prog _ _ (prog_pre_create_all _ Kmk) w3 F3 R3) as Kp. now rewrite Ep in Kp.
        - exists w3. split; [reflexivity|]. split; [exact F3|]. split; [reflexivity|].
          split; [reflexivity|]. split; [auto|]. split; [discriminate|now apply walk_refl]. }
      destruct PC as (wp & Ep & Fp & Flp & Nsp & Dp & Pdp & Kp).
      pose proof (walk_end _ _ _ Kp) as Rp.
      assert (Wp : FsWf (wfs wp)) by (unfold FsWf; rewrite Flp; exact (restb_wf H cfg _ _ _ R3)).
      assert (Vp : forall q, fdat (wfs wp) q = fdat (wfs w3) q) by (now apply fdat_files).
      assert (Hdp : has_dir (wfs wp) [s_staging] = true /\ has_dir (wfs wp) [s_cas] = true).
      { split; apply Dp; [exact (proj1 Hd3)|exact (proj2 Hd3)]. }
      set (pre := c_pre cfg) in *.
      set (data := enc_settings CURRENT_DB_VERSION pre (c_n cfg)).
      set (v4 := vset (vset (fdat (wfs wp)) PSettingsTmp None) PSettings (Some data)).
      assert (Ap : Aux pre [] (wfs wp)).
      { split; [exact Wp|]. split; [|split; [exact Pdp|intros k c []]].
        intros i Li. rewrite Vp. apply Sf3. now rewrite <- Nsp. }
      assert (A4 : AtW (RestP 0 1 (seg_of 1) pre []) (wfs wp) v4).
      { apply (restp_atw H cfg); [exact Ap| | |].
        - intros i. unfold v4. now rewrite !vset_other by discriminate.
        - intros k c [].
        - apply (diskokw_fresh H cfg); [exact Nfit| | |].
          + unfold v4. apply vset_same.
          + unfold v4. rewrite !vset_other by discriminate. now rewrite Vp.
          + intros i. unfold v4. rewrite !vset_other by discriminate. now rewrite Vp. }
      destruct (atomic_write_does PSettings PSettingsTmp data wp Fp eq_refl eq_refl) as (w4 & E4 & Ra4).
      destruct (a_atomic_write (fun x => RestB B x []) PSettings PSettingsTmp data wp w4 Ra4 Wp Rp)
        as (X4 & V4 & K4).
      { intros o. now apply (atw_scratch H [] _ _ _ _ (sees_restb H cfg B []) Rp). }
      { eapply atw_weaken; [|exact A4]. intros x.
        apply (DX restp_restb B 0 1 (seg_of 1) pre [] x Ss Nc (N.le_refl _) B1). }
      assert (SG : settings_gate cfg w3 = (Ok pre, w4)).
      { unfold settings_gate, bind at 1, read_file. rewrite Gs3, (bind_eq _ _ _ _ _ Ep).
        now rewrite (bind_eq _ _ _ _ _ E4). }
      rewrite (bind_eq _ _ _ _ _ SG).
      pose proof X4 as (_ & _ & Dd4 & _).
      apply (a_open_tail B [] 0 1 pre w w4 (walk_trans _ _ _ _ K03 (walk_trans _ _ _ _ Kp K4)));
        [unfold has_dir; rewrite Dd4; exact (proj1 Hdp)|unfold has_dir; rewrite Dd4; exact (proj2 Hdp)
        | |exact (N.le_refl 1)|exact B1].
      eapply atw_eff; eassumption.
  Qed.

  (* the handle without a writer that a_open describes satisfies the weak handle invariant *)
  Lemma restp_inv'_fresh : forall m x sg, sorted cmp sg -> NoCollide (map snd sg) ->
    km (idx m) = km_of sg -> IdxInv cmp (idx m) -> 1 <= nextv (mwal m) ->
    writer (mwal m) = None ->
    has_dir x [s_staging] = true -> has_dir x [s_cas] = true ->
    RestP (lpv (idx m)) (nextv (mwal m)) (seg_of (nextv (mwal m))) (mpre m) sg x -> Inv' m x sg.
  Proof.
    intros m x sg Ss Nc Km Iv Nv Wr Hs Hc [(W & Sf & Pd & Ca) D].
    split; [|split; [unfold CrashInv.DiskOk'; now rewrite Wr|exact W]].
    constructor; try assumption.
    - intros k c Ik. apply fdat_some. now apply (Ca k).
    - intros i Li. apply fdat_none. now apply Sf.
    - split; [exact Hs|]. split; [exact Hc|exact Pd].
    - split; [exact Nv|]. now rewrite Wr.
  Qed.

  (* Recovery from the invariant with the bound on the next version (used for whole
     histories): it succeeds, every intermediate filesystem satisfies the invariant for the same
     map and bound, and the handle does not run ahead of the bound. *)
  Theorem rest_open_b : forall B s sg w, RestB B s sg -> 1 <= B -> wfault w = None -> wfs w = s ->
    exists m' os w', open_with_recover H cfg w = (Ok (m', os), w') /\ wfault w' = None /\
      Inv' m' (wfs w') sg /\ writer (mwal m') = None /\ nextv (mwal m') <= B /\
      Along (fun x => RestB B x sg) w w'.
  Proof.
    intros B s sg w RB B1 F Ws. pose proof RB as (Ss & Nc & _).
    destruct (a_open B s sg w RB B1 F Ws)
      as (m' & os & w' & E & F' & Wr & Nv & NvB & Km & Iv & RP & Hs & Hc & Sz & K).
    exists m', os, w'. split; [exact E|]. split; [exact F'|].
    split; [now apply restp_inv'_fresh|]. split; [exact Wr|]. split; [exact NvB|].
    exact (walk_along _ _ _ K).
  Qed.

  (* Recovery from any state of the memory-less invariant succeeds and yields a fully
     usable handle for exactly sg: Live0 (so km (idx m') = km_of sg and, by IdxInv, exact
     reference counts and statistics -- C12 after crash recovery), the on-disk invariant in
     the form DiskOk' (see the remark there: the strict DiskOk of DiskInv.v is false after a
     crash between a seal and the next append), FsWf.  Together: Inv'. *)
  Theorem rest_open : forall s sg w, Rest s sg -> wfault w = None -> wfs w = s ->
    exists m' os w', open_with_recover H cfg w = (Ok (m', os), w') /\ wfault w' = None /\
      Live0 m' (wfs w') sg /\ DiskOk' m' (wfs w') sg /\ FsWf (wfs w') /\
      writer (mwal m') = None /\
      ssz (idx m') = match fdat (wfs w') PIndex with Some d => len d | None => 0 end.
  Proof.
    intros s sg w R F Ws. pose proof R as (Ss & Nc & _).
    destruct (rest_restb H cfg n_pos _ _ R) as (B & B1 & RB).
    destruct (a_open B s sg w RB B1 F Ws)
      as (m' & os & w' & E & F' & Wr & Nv & _ & Km & Iv & RP & Hs & Hc & Sz & _).
    exists m', os, w'. split; [exact E|]. split; [exact F'|].
    destruct (restp_inv'_fresh m' (wfs w') sg Ss Nc Km Iv Nv Wr Hs Hc RP) as (L & D & W). now split.
  Qed.

  (* C12 after crash recovery, spelled out: key map, reference counts and statistics of the
     recovered handle are exactly those determined by sg *)
  Corollary C12_after_crash : forall s sg w, Rest s sg -> wfault w = None -> wfs w = s ->
    exists m' os w', open_with_recover H cfg w = (Ok (m', os), w') /\
      km (idx m') = km_of sg /\
      (forall h, rc_get (rc (idx m')) h =
                 if count_refs (km_of sg) h =? 0 then None else Some (count_refs (km_of sg) h)) /\
      ub (idx m') = N.of_nat (length (uniq_sizes (km_of sg) [])) /\
      tb (idx m') = usum (uniq_sizes (km_of sg) []) /\
      ssz (idx m') = match fdat (wfs w') PIndex with Some d => len d | None => 0 end.
  Proof.
    intros s sg w R F Ws.
    destruct (rest_open s sg w R F Ws) as (m' & os & w' & E & _ & L & _ & _ & _ & Sz).
    exists m', os, w'. split; [exact E|]. destruct L as [_ Km (_ & _ & Hr & _ & Hu & Ht) _ _ _ _ _].
    rewrite <- Km. repeat split; assumption.
  Qed.

  Corollary rest_open_inv' : forall s sg w, Rest s sg -> wfault w = None -> wfs w = s ->
    exists m' os w', open_with_recover H cfg w = (Ok (m', os), w') /\ wfault w' = None /\
      Inv' m' (wfs w') sg /\ writer (mwal m') = None.
  Proof.
    intros s sg w R F Ws. destruct (rest_restb H cfg n_pos _ _ R) as (B & B1 & RB).
    destruct (rest_open_b B s sg w RB B1 F Ws) as (m' & os & w' & E & F' & IV & Wr & _).
    now exists m', os, w'.
  Qed.

  (* Recovery is crash-safe: every intermediate filesystem of open_with_recover started
     in a state of the invariant is a state of the invariant, for the same map. *)
  Theorem open_crash : forall s sg w, Rest s sg -> wfault w = None -> wfs w = s ->
    exists m' os w', open_with_recover H cfg w = (Ok (m', os), w') /\
                     Along (fun x => Rest x sg) w w'.
  Proof.
    intros s sg w R F Ws. destruct (rest_restb H cfg n_pos _ _ R) as (B & B1 & RB).
    destruct (rest_open_b B s sg w RB B1 F Ws) as (m' & os & w' & E & _ & _ & _ & _ & A).
    exists m', os, w'. split; [exact E|].
    eapply along_weaken; [|exact A]. intros x. apply (restb_rest H cfg).
  Qed.

  (* the filesystem left by a recovery killed after n calls *)
  Definition crash_open (n : nat) (x : fs) : fs :=
    let w' := snd (open_with_recover H cfg (init_world x None)) in
    crash_fs n (rev (wtrace w')) x.

  Lemma along_crash : forall (P : fs -> Prop) x w' n, Along P (init_world x None) w' ->
    P (crash_fs n (rev (wtrace w')) x).
  Proof using n_pos.
    intros P x w' n A. apply (along_crash_fs P (init_world x None) w' (wtrace w') n A).
    cbn [init_world wtrace]. now rewrite app_nil_r.
  Qed.

  Theorem crash_open_restb : forall B n x sg, RestB B x sg -> 1 <= B -> RestB B (crash_open n x) sg.
  Proof.
    intros B n x sg R B1. unfold crash_open.
    destruct (rest_open_b B x sg (init_world x None) R B1 eq_refl eq_refl)
      as (m' & os & w' & E & _ & _ & _ & _ & A).
    rewrite E. cbn [snd]. now apply (along_crash (fun y => RestB B y sg)).
  Qed.

  Theorem crash_open_rest : forall n x sg, Rest x sg -> Rest (crash_open n x) sg.
  Proof.
    intros n x sg R. destruct (rest_restb H cfg n_pos _ _ R) as (B & B1 & RB).
    eapply (restb_rest H cfg), crash_open_restb; eassumption.
  Qed.

  (* nested crashes: a crash during the recovery from a crash (during the recovery from ...),
     to any depth, leaves a state from which the next open recovers the same map *)
  Theorem nested_crash_open : forall ns x sg, Rest x sg ->
    Rest (fold_left (fun y n => crash_open n y) ns x) sg.
  Proof.
    induction ns as [|n ns IH]; intros x sg R; cbn [fold_left]; [exact R|].
    apply IH. now apply crash_open_rest.
  Qed.

  Corollary nested_crash_then_open : forall ns x sg, Rest x sg ->
    let y := fold_left (fun y n => crash_open n y) ns x in
    exists m' os w', open_with_recover H cfg (init_world y None) = (Ok (m', os), w') /\
                     Inv' m' (wfs w') sg.
  Proof.
    intros ns x sg R y.
    destruct (rest_open_inv' y sg (init_world y None) (nested_crash_open ns x sg R) eq_refl eq_refl)
      as (m' & os & w' & E & _ & IV & _).
    now exists m', os, w'.
  Qed.

  (* the empty directory is a state of the invariant (first-time clause), for either choice
     of pre_create_cas_dirs *)
  Lemma restb_empty : c_n cfg < 2 ^ 64 -> forall B, RestB B empty_fs [].
  Proof.
    intros Nfit B. split; [constructor|]. split; [intros a b []|]. right.
    split; [reflexivity|]. split; [exact Nfit|]. split; [exact empty_fs_wf|].
    repeat split; intros; reflexivity.
  Qed.

  Lemma rest_empty : c_n cfg < 2 ^ 64 -> Rest empty_fs [].
  Proof. intros Nfit. exact (restb_rest H cfg 0 _ _ (restb_empty Nfit 0)). Qed.

  (* The FIRST open of an empty directory, killed after ANY number of its calls -- also in the
     middle of the 2 x 65,536 mkdir_p steps of the fan-out tree when pre_create_cas_dirs = true --
     and the recoveries from that killed again, to any depth: the state left is a state of the
     invariant for the empty map, and the next open succeeds with a handle for the empty map
     (it creates the rest of the tree, then writes the settings file). *)
  Theorem first_open_crash : c_n cfg < 2 ^ 64 -> forall ns,
    let y := fold_left (fun y n => crash_open n y) ns empty_fs in
    Rest y [] /\
    exists m' os w', open_with_recover H cfg (init_world y None) = (Ok (m', os), w') /\
                     Inv' m' (wfs w') [].
  Proof.
    intros Nfit ns. split; [apply nested_crash_open|apply nested_crash_then_open]; exact (rest_empty Nfit).
  Qed.
End CrashOpen.

Print Assumptions rest_open.
Print Assumptions open_crash.
Print Assumptions nested_crash_then_open.
Print Assumptions first_open_crash.
