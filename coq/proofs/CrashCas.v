(* CrashCas.v -- C06 at every crash point, and replay_trace for the store's programs.

   [CasNamed] (every file under cas/ holds the bytes its name promises) is preserved by every
   single effective call of every operation.  Every call the store issues is "nocas" (never
   creates, opens, appends to, or renames onto a path under cas/) -- except the one rename of
   put, whose source holds exactly the bytes whose hash names the target.  Hence every
   intermediate filesystem of put / abort / remove / remove_range / checkpoint / close /
   open_with_recover satisfies CasNamed if the first does.

   Section Struct: the programs walk inside any predicate kept by the nocas calls (sw_prog, from
   their membership in WorldRel.IsProg; sw_ = structural walk).  With the trivial predicate
   [Any] (Section Faithful; aw_ = walk inside Any) this is replay_trace: the replay of the
   calls recorded by any API operation, by open, by a whole history is the filesystem it
   leaves.

   [nocas] singles out the calls that keep CasNamed whatever the filesystem.
   StoreWrite.cas_safe_call is what C06 says of the recorded events: it also admits put's
   rename from staging/ into cas/ (which keeps CasNamed only because of what the staging file
   holds), and it rules out a sync under cas/ and a rename away from cas/, which nocas allows. *)
From Cas Require Import History.
From CasProofs Require Import StoreFS WorldRel StoreInv StoreWrite DiskInv CrashInv CrashOps.
Open Scope N_scope.

Definition nocas (c : call) : Prop :=
  match c with
  | CMkdir _ | CSync _ | CUnlink _ => True
  | CCreate p | CCreateExcl p | COpenAppend p | CAppend p _ => not_cas p
  | CRename _ q => not_cas q
  end.

Lemma log_nocas : forall c, log_call c = true -> nocas c.
Proof.
  intros c L. destruct c as [d|q|q|q|q b|q|a b|q]; try exact I; try discriminate;
    try (destruct q; try discriminate; exact I).
  destruct a; try discriminate. destruct b; try discriminate. exact I.
Qed.

Lemma gate_nocas : forall c, gate_call c = true -> nocas c.
Proof.
  intros c L. destruct c as [d|q|q|q|q b|q|a b|q]; try exact I; try discriminate;
    try (destruct q; try discriminate; exact I).
  destruct a; try discriminate. destruct b; try discriminate. exact I.
Qed.

(* bind with a fact about the result of the first part *)
Lemma walkm_bind_res : forall (P : fs -> Prop) {A B} (Q : A -> Prop) (m : M A) (f : A -> M B),
  WalkM P m -> (forall w, Q (fst (m w))) -> (forall a, Q a -> WalkM P (f a)) ->
  WalkM P (bind m f).
Proof.
  intros P A B Q m f Hm Hq Hf w F X. unfold bind. specialize (Hm w F X). specialize (Hq w).
  destruct (m w) as [a w1]. cbn [snd fst] in *.
  eapply walk_trans; [exact Hm|].
  apply Hf; [exact Hq|exact (walk_fault _ _ _ Hm)|exact (walk_end _ _ _ Hm)].
Qed.

Section Struct.
  Variable H : bytes -> bytes.
  Variable P : fs -> Prop.
  Hypothesis K : forall c, nocas c -> call_keeps P c.

  Lemma sw_prog : forall {A} (m : M A), IsProg nocas m -> WalkM P m.
  Proof using K. intros A m Pm. apply walkm_prog, (prog_weaken nocas); [exact K|exact Pm]. Qed.

  Lemma sw_mkdir_p : forall d, WalkM P (mkdir_p d).
  Proof using K. intros. apply sw_prog, prog_mkdir_p. exact I. Qed.
  Lemma sw_mkdirs_pre : forall ds, WalkM P (mkdirs_pre ds).
  Proof using K. intros. apply sw_prog, prog_mkdirs_pre. intros d. exact I. Qed.
  Lemma sw_unlink_all : forall ps, WalkM P (unlink_all ps).
  Proof using K. intros. apply sw_prog, prog_unlink_all. intros p _. exact I. Qed.
  Lemma sw_delete_blobs : forall hs, WalkM P (delete_blobs hs).
  Proof using K. intros. apply sw_prog, prog_delete_blobs. intros h _. exact I. Qed.
  Lemma sw_prune_below : forall b, WalkM P (prune_below b).
  Proof using K. intros. apply sw_prog, prog_prune_below. intros i _. exact I. Qed.
  Lemma sw_bw_flush : forall i buf, WalkM P (bw_flush (PWal i) buf).
  Proof using K. intros. apply sw_prog, prog_bw_flush. intros b. exact I. Qed.
  Lemma sw_bw_write_all : forall i buf data, WalkM P (bw_write_all (PWal i) buf data).
  Proof using K. intros. apply sw_prog, prog_bw_write_all. intros b. exact I. Qed.
  Lemma sw_writer_close : forall seg buf, WalkM P (writer_close seg buf).
  Proof using K. intros. apply sw_prog, prog_writer_close; [intros b|]; exact I. Qed.
  Lemma sw_writer_seal : forall seg buf, WalkM P (writer_seal seg buf).
  Proof using K. intros. apply sw_prog, prog_writer_seal; [intros b|]; exact I. Qed.
  Lemma sw_write_entry : forall seg buf ver payload, WalkM P (write_entry H seg buf ver payload).
  Proof using K. intros. apply sw_prog, prog_write_entry; [intros b|]; exact I. Qed.

  Section WithCfg.
    Variable cfg : config.

    Lemma sw_append_op : forall wl payload, WalkM P (append_op H cfg wl payload).
    Proof using K. intros. apply sw_prog, prog_append_op. intros c E. apply log_nocas, wal_log_call, E. Qed.

    Lemma sw_index_load : forall pre, WalkM P (index_load H cfg pre).
    Proof using K. intros. apply sw_prog, prog_index_load. intros c E. apply log_nocas, load_log_call, E. Qed.

    (* IsProg does not know that new_staging returns a staging path *)
    Lemma sw_abort : forall m k chunks, WalkM P (abort m k chunks).
    Proof using K.
      intros. unfold abort, drop_staging.
      apply (walkm_bind_res P (fun r => match r with Ok p => exists i, p = PStaging i | Err _ => True end));
        [apply sw_prog, prog_new_staging; intros i; exact I|apply new_staging_shape|].
      intros [p|e] Qp; [|apply walkm_ret]. destruct Qp as [i ->].
      (* WorldRel.prog follows the program text; every call left is nocas by computation *)
      apply sw_prog. prog ltac:(exact I).
    Qed.
  End WithCfg.
End Struct.

Section CrashCas.
  Variable H : bytes -> bytes.
  Local Notation CasNamed := (CasNamed H).

  Definition CasOk (x : fs) : Prop := FsWf x /\ CasNamed x.

  Lemma casnamed_fdat : forall x,
    CasNamed x <-> (forall comps d, fdat x (PCas comps) = Some d -> comps = hexpath (H d)).
  Proof.
    intros x. unfold StoreInv.CasNamed. split.
    - intros C comps d G. apply fdat_some in G. destruct G as (f & G & <-). now apply C.
    - intros C comps f G. apply C. apply fdat_some. now exists f.
  Qed.

  Lemma nocas_keeps : forall c, nocas c -> call_keeps CasOk c.
  Proof.
    intros c Nc x x' [W C] E. split; [eapply apply_call_wf; eassumption|].
    rewrite casnamed_fdat in *. intros comps d G.
    destruct (apply_call_at c x x' (PCas comps) W E) as [X|(_ & [X|[X|(b & -> & _)]])].
    - rewrite X in G. now apply C.
    - destruct c; cbn [creates nocas] in X, Nc; try contradiction; subst; contradiction.
    - congruence.
    - contradiction.
  Qed.

    Section WithCfg.
    Variable cfg : config.

    (* put: the one call that writes under cas/ *)
    Hypothesis H_len : forall b, length (H b) = 32%nat.
    Hypothesis H_byte : forall b, Forall (fun x => x < 256) (H b).
    Hypothesis n_pos : 0 < c_n cfg.

    Lemma cw_put : forall m s sg k chunks w,
      Live0 H cfg m s sg -> wfs w = s -> wfault w = None -> CasOk s ->
      NoCollide H (concat chunks :: map snd sg) ->
      exists m' w', put H cfg m k chunks w = ((Ok tt, m'), w') /\ Walk CasOk w w'.
    Proof.
      intros m s sg k chunks w L Ws F C0 NC.
      destruct (put_spec H H_len H_byte cfg n_pos m s sg k chunks w L Ws F NC)
        as (m' & w' & E & F' & _).
      exists m', w'. split; [exact E|]. subst s.
      destruct (a_put_stage_gen H H_len H_byte cfg CasOk m sg k chunks w L F C0) as (w5 & E5 & _ & K5).
      - intros x'. apply nocas_keeps; [exact I|exact C0].
      - intros cl Sc. apply nocas_keeps.
        destruct cl as [d|p|p|p|p b|p|p r|p]; try contradiction; try exact I. now destruct p.
      - (* the one call that writes under cas/: the content c under its name *)
        intros x x' [W C] Er G. split; [eapply apply_call_wf; eassumption|].
        rewrite casnamed_fdat in *. intros comps d Gd.
        destruct (apply_call_at _ x x' (PCas comps) W Er) as [X|(_ & [X|[X|(b & X & _)]])].
        + rewrite X in Gd. now apply C.
        + cbn [creates] in X. rewrite <- X, Gd in G. inversion G; subst d. now inversion X.
        + congruence.
        + discriminate.
      - pose proof (sw_prog CasOk nocas_keeps _ (prog_log_and_apply H cfg nocas log_nocas m
                         (RPut k (H (concat chunks)) (len (concat chunks)))) w5
                      (walk_fault _ _ _ K5) (walk_end _ _ _ K5)) as K6.
        rewrite <- E5, E in K6. exact (walk_trans _ _ _ _ K5 K6).
    Qed.

    Local Notation Live0 := (Live0 H cfg).

    Theorem cas_put_crash : forall m s sg k chunks w,
      Live0 m s sg -> FsWf s -> CasNamed s -> wfs w = s -> wfault w = None ->
      NoCollide H (concat chunks :: map snd sg) ->
      exists m' w', put H cfg m k chunks w = ((Ok tt, m'), w') /\ Along CasNamed w w'.
    Proof.
      intros m s sg k chunks w L W C Ws F NC.
      destruct (cw_put m s sg k chunks w L Ws F (conj W C) NC) as (m' & w' & E & K).
      exists m', w'. split; [exact E|]. eapply along_weaken; [|exact (walk_along _ _ _ K)].
      intros x [_ X]. exact X.
    Qed.

    Lemma cas_along : forall {A} (prog : M A) w, WalkM CasOk prog ->
      FsWf (wfs w) -> CasNamed (wfs w) -> wfault w = None ->
      Along CasNamed w (snd (prog w)).
    Proof.
      intros A prog w K W C F. eapply along_weaken; [|exact (walk_along _ _ _ (K w F (conj W C)))].
      intros x [_ X]. exact X.
    Qed.

    Lemma cas_prog : forall {A} (prog : M A) w, IsProg nocas prog ->
      FsWf (wfs w) -> CasNamed (wfs w) -> wfault w = None ->
      Along CasNamed w (snd (prog w)).
    Proof. intros A prog w Pm. apply cas_along, (sw_prog CasOk nocas_keeps), Pm. Qed.

    (* for the other operations nothing but FsWf and CasNamed is needed at the start *)
    Theorem cas_abort_crash : forall m k chunks w,
      FsWf (wfs w) -> CasNamed (wfs w) -> wfault w = None ->
      Along CasNamed w (snd (abort m k chunks w)).
    Proof. intros m k chunks w. apply cas_along, (sw_abort CasOk nocas_keeps). Qed.

    Theorem cas_remove_crash : forall m k w,
      FsWf (wfs w) -> CasNamed (wfs w) -> wfault w = None ->
      Along CasNamed w (snd (remove H cfg m k w)).
    Proof. intros m k w. apply cas_prog, prog_remove, log_nocas. Qed.

    Theorem cas_remove_range_crash : forall m lo hi w,
      FsWf (wfs w) -> CasNamed (wfs w) -> wfault w = None ->
      Along CasNamed w (snd (remove_range H cfg m lo hi w)).
    Proof. intros m lo hi w. apply cas_prog, prog_remove_range, log_nocas. Qed.

    Theorem cas_checkpoint_crash : forall m w,
      FsWf (wfs w) -> CasNamed (wfs w) -> wfault w = None ->
      Along CasNamed w (snd (checkpoint cfg m w)).
    Proof. intros m w. apply cas_prog, prog_checkpoint. intros c E. apply log_nocas, load_log_call, E. Qed.

    Theorem cas_close_crash : forall m w,
      FsWf (wfs w) -> CasNamed (wfs w) -> wfault w = None ->
      Along CasNamed w (snd (close m w)).
    Proof. intros m w. apply cas_prog, prog_close. intros c E. apply log_nocas, wal_log_call, E. Qed.

    Theorem cas_open_crash : forall w,
      FsWf (wfs w) -> CasNamed (wfs w) -> wfault w = None ->
      Along CasNamed w (snd (open_with_recover H cfg w)).
    Proof.
      intros w. apply cas_prog, prog_open_with_recover; [exact gate_nocas|exact I|].
      intros c E. apply log_nocas, load_log_call, E.
    Qed.

    (* consequently CasNamed holds in whatever state a crash leaves behind *)
    Corollary cas_named_crash_fs : forall {A} (prog : M A) x n, WalkM CasOk prog ->
      FsWf x -> CasNamed x ->
      CasNamed (crash_fs n (rev (wtrace (snd (prog (init_world x None))))) x).
    Proof using n_pos.
      intros A prog x n K W C.
      apply (along_crash_fs CasNamed (init_world x None) _ _ n
               (cas_along prog (init_world x None) K W C eq_refl)).
      cbn [init_world wtrace]. now rewrite app_nil_r.
    Qed.
  End WithCfg.
End CrashCas.

Print Assumptions cas_put_crash.
Print Assumptions cas_abort_crash.
Print Assumptions cas_remove_crash.
Print Assumptions cas_remove_range_crash.
Print Assumptions cas_checkpoint_crash.
Print Assumptions cas_close_crash.
Print Assumptions cas_open_crash.

(* replay_trace for the store's programs: in a fault-free world the replay of the calls
   recorded by any program of the store -- every API operation, open, whole histories -- is
   the filesystem it leaves (CrashInv.walkm_any). *)
Section Faithful.
  Variable H : bytes -> bytes.

  Definition Any : fs -> Prop := fun _ => True.

  (* WorldRel.of_prog L p: the lemma L at the class of all calls, applied to the membership
     lemma p of the program *)
  Lemma aw_delete_orphan_list : forall m hs acc, WalkM Any (delete_orphan_list m hs acc).
  Proof. of_prog walkm_any prog_delete_orphan_list. Qed.
  Lemma aw_remove_paths : forall ps a b, WalkM Any (remove_paths ps a b).
  Proof. of_prog walkm_any prog_remove_paths. Qed.
  Lemma aw_quarantine_list : forall m hs acc, WalkM Any (quarantine_list m hs acc).
  Proof. of_prog walkm_any prog_quarantine_list. Qed.
  Lemma aw_run_ops : forall ops hd, WalkM Any (run_ops H hd ops).
  Proof. of_prog walkm_any prog_run_ops. Qed.

  (* CrashInv.replay_trace for one run of a program that walks inside the trivial predicate *)
  Theorem replay_trace_prog : forall {A} (prog : M A) w a w' tr, WalkM Any prog ->
    wfault w = None -> prog w = (a, w') -> wtrace w' = tr ++ wtrace w ->
    replay_calls (rev tr) (wfs w) = wfs w'.
  Proof.
    intros A prog w a w' tr K F E Et. pose proof (K w F I) as Wk. rewrite E in Wk.
    eapply replay_trace; eassumption.
  Qed.

  (* whole histories: the final filesystem is the replay of the recorded trace from the initial one *)
  Theorem replay_trace_run_hist : forall s0 ops outs hd w,
    run_hist H s0 None ops = (outs, hd, w) -> replay_calls (trace_of w) s0 = wfs w.
  Proof.
    intros s0 ops outs hd w E. unfold run_hist in E.
    destruct (run_ops H None ops (init_world s0 None)) as [r w1] eqn:Er. inversion E; subst.
    unfold trace_of.
    apply (replay_trace_prog (run_ops H None ops) (init_world s0 None) r w (wtrace w)
             (aw_run_ops ops None) eq_refl Er).
    cbn [init_world wtrace]. now rewrite app_nil_r.
  Qed.

  (* consequently crash_fs at the full length is the final filesystem *)
  Corollary crash_fs_all : forall s0 ops outs hd w,
    run_hist H s0 None ops = (outs, hd, w) ->
    crash_fs (length (trace_of w)) (trace_of w) s0 = wfs w.
  Proof.
    intros s0 ops outs hd w E. unfold crash_fs. rewrite firstn_all.
    eapply replay_trace_run_hist; exact E.
  Qed.
End Faithful.

Print Assumptions replay_trace_run_hist.
