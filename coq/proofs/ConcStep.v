(* ConcStep.v -- the micro-step of the concurrent model theories/Conc.v as rules.

   [edge g t p cs p' cs' out sh]: in state g, thread t parked at p with pending calls cs may
   move to p' with pending calls cs', returning [out] (a result when the call ends with this
   step), and the shared components become those of sh.  One rule per leaf of [cstep], each
   carrying the guard of that leaf and nothing else.  [cstep_cases] is the one case analysis of
   [cstep]: a step that happens follows a rule, a step that does not is [stuck].

   Also here: the thread table (tget / tset), what every rule does to the thread that moves
   ([edge_out], [edge_idle]) and to the others ([cstep_other]), and induction over schedules
   ([crun_ind]). *)
From Cas Require Import SMap Index Conc.
From CasProofs Require Import SMapProofs.
From Coq Require Import List NArith Bool Arith.
Import ListNotations.
Open Scope N_scope.

Lemma tget_tset_same l t s : tget (tset l t s) t = Some s.
Proof.
  induction l as [|[u x] r IH]; cbn [tset tget].
  - rewrite Nat.eqb_refl. reflexivity.
  - destruct (Nat.eqb t u) eqn:E; cbn [tget]; rewrite E; [reflexivity|exact IH].
Qed.

Lemma tget_tset_other l t u s : u <> t -> tget (tset l t s) u = tget l u.
Proof.
  intros N. induction l as [|[v x] r IH]; cbn [tset tget].
  - destruct (Nat.eqb u t) eqn:E; [apply Nat.eqb_eq in E; contradiction|reflexivity].
  - destruct (Nat.eqb t v) eqn:E; cbn [tget].
    + apply Nat.eqb_eq in E. subst v.
      destruct (Nat.eqb u t) eqn:E2; [apply Nat.eqb_eq in E2; contradiction|reflexivity].
    + destruct (Nat.eqb u v); [reflexivity|exact IH].
Qed.

Lemma tset_fst l t s s0 : tget l t = Some s0 -> map fst (tset l t s) = map fst l.
Proof.
  induction l as [|[v x] r IH]; cbn [tset tget map fst]; [discriminate|].
  destruct (Nat.eqb t v) eqn:E; cbn [map fst]; [reflexivity|].
  intros G. rewrite (IH G). reflexivity.
Qed.

Lemma tget_In l t s : tget l t = Some s -> In (t, s) l.
Proof.
  induction l as [|[v x] r IH]; cbn [tget]; [discriminate|].
  destruct (Nat.eqb t v) eqn:E.
  - apply Nat.eqb_eq in E. subst v. intros G; inversion G; subst. left; reflexivity.
  - intros G. right. apply IH, G.
Qed.

Lemma In_tget l t s : NoDup (map fst l) -> In (t, s) l -> tget l t = Some s.
Proof.
  induction l as [|[v x] r IH]; cbn [tget map fst]; intros ND I; [destruct I|].
  inversion ND as [|? ? N1 ND']; subst.
  destruct I as [I|I].
  - inversion I; subst. rewrite Nat.eqb_refl. reflexivity.
  - destruct (Nat.eqb t v) eqn:E.
    + apply Nat.eqb_eq in E. subst v. exfalso. apply N1.
      apply in_map_iff. exists (t, s). split; [reflexivity|exact I].
    + apply IH; assumption.
Qed.

Lemma tget_init thr t ts :
  tget (map (fun p : nat * list ccall => (fst p, mkT (snd p) Idle [])) thr) t = Some ts ->
  exists cs, In (t, cs) thr /\ ts = mkT cs Idle [].
Proof.
  induction thr as [|[u cs] r IH]; cbn [map tget fst snd]; [discriminate|].
  destruct (Nat.eqb t u) eqn:E.
  - apply Nat.eqb_eq in E. subst u. intros G; inversion G; subst.
    exists cs. split; [left; reflexivity|reflexivity].
  - intros G. destruct (IH G) as (cs' & I' & E'). exists cs'. split; [right; exact I'|exact E'].
Qed.

(* replacing shared components of a state; g_thr is kept *)

Definition set_I (g : cstate) (l : option nat) : cstate :=
  mkC (g_idx g) (g_bykey g) (g_byhash g) (g_cas g) (g_nextv g) l (g_S g) (g_R g) (g_thr g).
Definition set_S (g : cstate) (l : option nat) : cstate :=
  mkC (g_idx g) (g_bykey g) (g_byhash g) (g_cas g) (g_nextv g) (g_I g) l (g_R g) (g_thr g).
Definition set_R (g : cstate) (r : list nat) : cstate :=
  mkC (g_idx g) (g_bykey g) (g_byhash g) (g_cas g) (g_nextv g) (g_I g) (g_S g) r (g_thr g).
Definition set_cas (g : cstate) (cas : smap bytes) : cstate :=
  mkC (g_idx g) (g_bykey g) (g_byhash g) cas (g_nextv g) (g_I g) (g_S g) (g_R g) (g_thr g).
Definition set_intents (g : cstate) (bk : smap bytes) (bh : smap N) : cstate :=
  mkC (g_idx g) bk bh (g_cas g) (g_nextv g) (g_I g) (g_S g) (g_R g) (g_thr g).
Definition set_index (g : cstate) (i : istate) (nv : N) : cstate :=
  mkC i (g_bykey g) (g_byhash g) (g_cas g) nv (g_I g) (g_S g) (g_R g) (g_thr g).

(* the state after a step of thread t: the shared components of sh, and t parked as in ts' *)
Definition set_thr (sh : cstate) (t : nat) (ts' : tstate) : cstate :=
  mkC (g_idx sh) (g_bykey sh) (g_byhash sh) (g_cas sh) (g_nextv sh) (g_I sh) (g_S sh) (g_R sh)
      (tset (g_thr sh) t ts').

Definition emit (res : list cres) (out : option cres) : list cres :=
  match out with Some r => res ++ [r] | None => res end.

Lemma emit_incl res out : incl res (emit res out).
Proof. destruct out; [apply incl_appl|]; apply incl_refl. Qed.

Lemma emit_snoc res out r : emit res out = res ++ [r] -> out = Some r.
Proof.
  destruct out as [r'|]; cbn [emit]; intros E.
  - apply app_inv_head in E. injection E as ->. reflexivity.
  - apply (f_equal (@length cres)) in E. rewrite app_length, Nat.add_comm in E.
    destruct (Nat.neq_succ_diag_r _ E).
Qed.

(* the functions of the state before a step that the rules name (cstep computes them inline) *)

(* taking the next call: where the thread parks, and the result of a call that ends at once *)
Definition call_start (c : ccall) : pc * option cres :=
  match c with
  | KPut k c => (PReg k c, None)
  | KAbort _ _ => (Idle, Some CUnit)
  | KRemove k => (RRead k, None)
  | KRemoveRange lo hi => (RRRead lo hi, None)
  | KGet k => (GRead k MFull, None)
  | KGetSize k => (GRead k MSize, None)
  | KGetRange k a b => (GRead k (MRange a b), None)
  | KIter => (IRead, None)
  | KCheckpoint => (WCkS CUnit 0, None)
  | KDelOrphans [] => (Idle, Some (COrphans 0 0))
  | KDelOrphans hs => (OLockI hs 0 0, None)
  end.

(* IntentGuard::drop of an uncommitted intent: the per-key slot is freed if it is still ours,
   and the intent we had replaced is put back *)
Definition drop_bykey (bk : smap bytes) (k h : bytes) (repl : option bytes) : smap bytes :=
  match sm_get lex_cmp bk k with
  | Some h' =>
    if beqb h' h then
      match repl with
      | Some r => sm_ins lex_cmp (sm_del lex_cmp bk k) k r
      | None => sm_del lex_cmp bk k
      end
    else bk
  | None => bk
  end.

(* releasing the intent of an applied write *)
Definition wbk (w : wkind) (bk : smap bytes) : smap bytes :=
  match w with
  | WPut k h _ =>
    match sm_get lex_cmp bk k with
    | Some h' => if beqb h' h then sm_del lex_cmp bk k else bk
    | None => bk
    end
  | WRm _ _ => bk
  end.
Definition wbh (w : wkind) (bh : smap N) : smap N :=
  match w with WPut _ h _ => release_hash bh h | WRm _ _ => bh end.
Definition unprot_in (bh : smap N) (h : bytes) : bool :=
  match sm_get lex_cmp bh h with Some _ => false | None => true end.

(* which rollover checkpoint a write runs *)
Definition ck_who (w : wkind) : N := match w with WPut _ _ _ => 1 | WRm _ _ => 2 end.

Definition persisted (i : istate) (v : N) : istate := mkIstate (km i) (rc i) v (ub i) (tb i) (ssz i).

(* checkpoint_inner returns early: a rollover checkpoint (e <> 0) with nothing logged since the
   last persisted version, or nothing logged at all *)
Definition ck_skipped (e cur nv : N) : bool :=
  negb (if e =? 0 then true else if cur =? 0 then 1 <? nv else cur + 1 <? nv) || (nv - 1 =? 0).

Lemma free_none (l : option nat) : free l = true -> l = None.
Proof. destruct l; [discriminate|reflexivity]. Qed.
Lemma free_held (l : option nat) : free l = false -> l <> None.
Proof. destruct l; discriminate. Qed.

Lemma noreaders_nil g : noreaders g = true -> g_R g = [].
Proof. unfold noreaders. destruct (g_R g); [reflexivity|discriminate]. Qed.
Lemma noreaders_some g : noreaders g = false -> g_R g <> [].
Proof. unfold noreaders. destruct (g_R g); discriminate. Qed.

Lemma all_finished_In g t ts : all_finished g = true -> In (t, ts) (g_thr g) ->
  t_pc ts = Idle /\ t_calls ts = [].
Proof.
  intros AF I. unfold all_finished in AF. rewrite forallb_forall in AF. specialize (AF _ I).
  cbn [snd] in AF. unfold finished_t in AF. destruct (t_pc ts); try discriminate AF.
  destruct (t_calls ts); [split; reflexivity|discriminate AF].
Qed.

Definition is_idle (p : pc) : bool := match p with Idle => true | _ => false end.

Section Step.
  Variable H : bytes -> bytes.
  Variable cmp : bytes -> bytes -> comparison.
  Variable nops : N.
  Variable bad : bytes -> bool.
  Variable ckbad : bool.

  Local Notation step := (cstep H cmp nops bad ckbad).
  Local Notation run := (crun H cmp nops bad ckbad).

  (* the write with version v opens a new WAL segment *)
  Definition rolls (v : N) : bool :=
    negb ((if v - 1 =? 0 then 0 else seg_ofc nops (v - 1)) =? seg_ofc nops v).

  (* delete_orphans on one unreferenced, unprotected hash: directory and counters afterwards;
     an obstructed path counts as an error, neither deleted nor skipped *)
  Definition unlink_orphan (cas : smap bytes) (h : bytes) (d s : N) : smap bytes * N * N :=
    if bad h then (cas, d, s) else
    match sm_get lex_cmp cas h with
    | Some _ => (sm_del lex_cmp cas h, d + 1, s)
    | None => (cas, d, s + 1)
    end.

  (* the directory afterwards: unlinking an absent file changes nothing *)
  Lemma unlink_orphan_cas cas h d s cas' d' s' :
    unlink_orphan cas h d s = (cas', d', s') ->
    cas' = if bad h then cas else sm_del lex_cmp cas h.
  Proof.
    unfold unlink_orphan. destruct (bad h); [intros E; injection E as <- _ _; reflexivity|].
    destruct (sm_get lex_cmp cas h) eqn:G; intros E; injection E as <- _ _; [reflexivity|].
    symmetry. apply sm_del_absent, G.
  Qed.

  Inductive edge (g : cstate) (t : nat)
    : pc -> list ccall -> pc -> list ccall -> option cres -> cstate -> Prop :=
  | E_call c rest :
      edge g t Idle (c :: rest) (fst (call_start c)) rest (snd (call_start c)) g
  (* put: register the intent, rename the staged file, or revert the intent *)
  | E_reg k c cs :
      edge g t (PReg k c) cs (PILock k c) cs None g
  | E_ilock k c cs (FI : g_I g = None) :
      edge g t (PILock k c) cs (PRen k c (sm_get lex_cmp (g_bykey g) k)) cs None
           (set_intents g (sm_ins lex_cmp (g_bykey g) k (H c)) (register_hash (g_byhash g) (H c)))
  | E_ren_fail k c repl cs (Bd : bad (H c) = true) :
      edge g t (PRen k c repl) cs (PDropI k (H c) repl) cs None g
  | E_ren k c repl cs (Bd : bad (H c) = false) :
      edge g t (PRen k c repl) cs (WLockI (WPut k (H c) (len c))) cs None
           (set_cas g (sm_ins lex_cmp (g_cas g) (H c) c))
  | E_drop k h repl cs (FI : g_I g = None) :
      edge g t (PDropI k h repl) cs Idle cs (Some CErr)
           (set_intents g (drop_bykey (g_bykey g) k h repl) (release_hash (g_byhash g) h))
  (* the second half of every write *)
  | E_lockI w cs (FI : g_I g = None) :
      edge g t (WLockI w) cs (WLockS w) cs None (set_I g (Some t))
  | E_lockS w cs (FS : g_S g = None) (FR : g_R g = []) :
      edge g t (WLockS w) cs (WLockW w) cs None (set_S g (Some t))
  | E_apply w cs idx' un (Ap : apply_op cmp (g_idx g) (wop w) = Ok (idx', un)) :
      edge g t (WLockW w) cs (WApplied w un (rolls (g_nextv g))) cs None
           (set_S (set_index g idx' (g_nextv g + 1)) None)
  | E_applied_done w un rolled cs (Fl : filter (unprot_in (wbh w (g_byhash g))) un = []) :
      edge g t (WApplied w un rolled) cs (WReleased w rolled) cs None
           (set_I (set_intents g (wbk w (g_bykey g)) (wbh w (g_byhash g))) None)
  | E_applied_unlink w un rolled cs (Fl : filter (unprot_in (wbh w (g_byhash g))) un <> []) :
      edge g t (WApplied w un rolled) cs
           (WUnlink w (filter (unprot_in (wbh w (g_byhash g))) un) rolled) cs None
           (set_intents g (wbk w (g_bykey g)) (wbh w (g_byhash g)))
  | E_unlink_fail w h rest rolled cs (Bd : bad h = true) :
      edge g t (WUnlink w (h :: rest) rolled) cs Idle cs (Some CErr) (set_I g None)
  | E_unlink_last w h rolled cs (Bd : bad h = false) :
      edge g t (WUnlink w [h] rolled) cs (WReleased w rolled) cs None
           (set_I (set_cas g (sm_del lex_cmp (g_cas g) h)) None)
  | E_unlink w h h2 rest rolled cs (Bd : bad h = false) :
      edge g t (WUnlink w (h :: h2 :: rest) rolled) cs (WUnlink w (h2 :: rest) rolled) cs None
           (set_cas g (sm_del lex_cmp (g_cas g) h))
  | E_released_ck w cs :
      edge g t (WReleased w true) cs (WCkS (wres w) (ck_who w)) cs None g
  | E_released w cs :
      edge g t (WReleased w false) cs Idle cs (Some (wres w)) g
  | E_ckS r e cs (FS : g_S g = None) (FR : g_R g = []) :
      edge g t (WCkS r e) cs (WCkW r e) cs None (set_S g (Some t))
  | E_ck_skip r e cs (Sk : ck_skipped e (lpv (g_idx g)) (g_nextv g) = true) :
      edge g t (WCkW r e) cs Idle cs (Some r) (set_S g None)
  | E_ck r e cs (Sk : ck_skipped e (lpv (g_idx g)) (g_nextv g) = false) :
      edge g t (WCkW r e) cs Idle cs (Some (if ckbad then CErr else r))
           (set_S (set_index g (persisted (g_idx g) (g_nextv g - 1)) (g_nextv g)) None)
  (* remove, remove_range: the scan *)
  | E_rread_none k cs (FS : g_S g = None) (Gk : sm_get cmp (km (g_idx g)) k = None) :
      edge g t (RRead k) cs Idle cs (Some (CBool false)) g
  | E_rread k it cs (FS : g_S g = None) (Gk : sm_get cmp (km (g_idx g)) k = Some it) :
      edge g t (RRead k) cs (RScanned k) cs None g
  | E_rscanned k cs :
      edge g t (RScanned k) cs (WLockI (WRm [k] (CBool true))) cs None g
  | E_rrread lo hi cs (FS : g_S g = None) :
      edge g t (RRRead lo hi) cs (RRScanned (keys_in cmp (km (g_idx g)) lo hi)) cs None g
  | E_rrscanned_none cs :
      edge g t (RRScanned []) cs Idle cs (Some (CNum 0)) g
  | E_rrscanned k ks cs :
      edge g t (RRScanned (k :: ks)) cs
           (WLockI (WRm (k :: ks) (CNum (N.of_nat (length (k :: ks)))))) cs None g
  (* get, get_size, get_range *)
  | E_gread_none k md cs (FS : g_S g = None) (Gk : sm_get cmp (km (g_idx g)) k = None) :
      edge g t (GRead k md) cs Idle cs (Some (absent_result md)) g
  | E_gread k md it cs (FS : g_S g = None) (Gk : sm_get cmp (km (g_idx g)) k = Some it) :
      edge g t (GRead k md) cs (GLooked k it md) cs None g
  | E_glooked_pre k it md r cs (Po : pre_open md it = Some r) :
      edge g t (GLooked k it md) cs Idle cs (Some r) g
  | E_glooked k it md cs (Po : pre_open md it = None) :
      edge g t (GLooked k it md) cs (GOpen k it md) cs None g
  | E_gopen_fail k it md cs (Bd : bad (ihash it) = true) :
      edge g t (GOpen k it md) cs Idle cs (Some CErr) g
  | E_gopen k it md c cs (Bd : bad (ihash it) = false) (Gc : sm_get lex_cmp (g_cas g) (ihash it) = Some c) :
      edge g t (GOpen k it md) cs Idle cs (Some (read_result md it c)) g
  | E_gopen_retry k it md cs (Bd : bad (ihash it) = false) (Gc : sm_get lex_cmp (g_cas g) (ihash it) = None) :
      edge g t (GOpen k it md) cs (GReread k it md) cs None g
  | E_greread_none k it md cs (FS : g_S g = None) (Gk : sm_get cmp (km (g_idx g)) k = None) :
      edge g t (GReread k it md) cs Idle cs (Some (absent_result md)) g
  | E_greread_pre k it md cur r cs (FS : g_S g = None) (Gk : sm_get cmp (km (g_idx g)) k = Some cur) (Po : pre_open md cur = Some r) :
      edge g t (GReread k it md) cs Idle cs (Some r) g
  | E_greread k it md cur cs (FS : g_S g = None) (Gk : sm_get cmp (km (g_idx g)) k = Some cur) (Po : pre_open md cur = None) :
      edge g t (GReread k it md) cs (GOpenL k cur md) cs None (set_R g (t :: g_R g))
  | E_gopenL_fail k it md cs (Bd : bad (ihash it) = true) :
      edge g t (GOpenL k it md) cs Idle cs (Some CErr)
           (set_R g (filter (fun u => negb (Nat.eqb u t)) (g_R g)))
  | E_gopenL k it md c cs (Bd : bad (ihash it) = false) (Gc : sm_get lex_cmp (g_cas g) (ihash it) = Some c) :
      edge g t (GOpenL k it md) cs Idle cs (Some (read_result md it c))
           (set_R g (filter (fun u => negb (Nat.eqb u t)) (g_R g)))
  | E_gopenL_missing k it md cs (Bd : bad (ihash it) = false) (Gc : sm_get lex_cmp (g_cas g) (ihash it) = None) :
      edge g t (GOpenL k it md) cs Idle cs (Some CMissing)
           (set_R g (filter (fun u => negb (Nat.eqb u t)) (g_R g)))
  | E_iread cs (FS : g_S g = None) :
      edge g t IRead cs Idle cs (Some (CKeys (map fst (km (g_idx g))))) g
  (* delete_orphans *)
  | E_olockI_nil d s cs :
      edge g t (OLockI [] d s) cs Idle cs (Some (COrphans d s)) g
  | E_olockI h rest d s cs (FI : g_I g = None) :
      edge g t (OLockI (h :: rest) d s) cs (ORead h rest d s) cs None (set_I g (Some t))
  | E_oread_skip_last h d s cs (FS : g_S g = None) (Rp : referenced g h || protects g h = true) :
      edge g t (ORead h [] d s) cs Idle cs (Some (COrphans d (s + 1))) (set_I g None)
  | E_oread_skip h h2 rest d s cs (FS : g_S g = None) (Rp : referenced g h || protects g h = true) :
      edge g t (ORead h (h2 :: rest) d s) cs (OLockI (h2 :: rest) d (s + 1)) cs None (set_I g None)
  | E_oread h rest d s cs (FS : g_S g = None) (Rp : referenced g h || protects g h = false) :
      edge g t (ORead h rest d s) cs (OUnlink h rest d s) cs None g
  | E_ounlink_last h d s cs cas' d' s' (Uo : unlink_orphan (g_cas g) h d s = (cas', d', s')) :
      edge g t (OUnlink h [] d s) cs Idle cs (Some (COrphans d' s')) (set_I (set_cas g cas') None)
  | E_ounlink h h2 rest d s cs cas' d' s' (Uo : unlink_orphan (g_cas g) h d s = (cas', d', s')) :
      edge g t (OUnlink h (h2 :: rest) d s) cs (OLockI (h2 :: rest) d' s') cs None
           (set_I (set_cas g cas') None).

  (* why thread t parked at p with calls cs cannot move: it has finished, the lock it takes first
     is held, apply_op panics (excluded in reachable states: ConcProofs.C04_apply_never_panics),
     or there is nothing left to unlink (never the case: pc_ok) *)
  Definition stuck (g : cstate) (p : pc) (cs : list ccall) : Prop :=
    match p with
    | Idle => cs = []
    | PILock _ _ | PDropI _ _ _ | WLockI _ | OLockI (_ :: _) _ _ => g_I g <> None
    | WLockS _ | WCkS _ _ => g_S g <> None \/ g_R g <> []
    | RRead _ | RRRead _ _ | GRead _ _ | GReread _ _ _ | IRead | ORead _ _ _ _ => g_S g <> None
    | WLockW w => exists e, apply_op cmp (g_idx g) (wop w) = Err e
    | WUnlink _ [] _ => True
    | _ => False
    end.

  (* at a leaf of cstep that yields a state: name the rule; its guards are in the context, and
     the state after the step is the rule's by computation *)
  Local Ltac leaf rule :=
    eexists _, _, _, _; split; [eapply rule; eassumption|reflexivity].
  (* a lock word: free, or held (and the thread is stuck) *)
  Local Ltac lock l :=
    let F := fresh in
    destruct (free l) eqn:F; cbn [andb]; [apply free_none in F|apply free_held in F; auto].

  Theorem cstep_cases g t ts : tget (g_thr g) t = Some ts ->
    match step g t with
    | Some g' => exists p' cs' out sh,
        edge g t (t_pc ts) (t_calls ts) p' cs' out sh /\
        g' = set_thr sh t (mkT cs' p' (emit (t_res ts) out))
    | None => stuck g (t_pc ts) (t_calls ts)
    end.
  Proof.
    intros Ht. unfold cstep. rewrite Ht.
    destruct (t_pc ts) eqn:Hpc; cbn [stuck].
    - (* Idle *)
      destruct (t_calls ts) as [|c rest]; [reflexivity|].
      destruct c as [| | | | | | | | |[|h hs]]; leaf E_call.
    - leaf E_reg.
    - lock (g_I g). leaf E_ilock.
    - destruct (bad (H c)) eqn:?; [leaf E_ren_fail|leaf E_ren].
    - lock (g_I g). leaf E_drop.
    - lock (g_I g). leaf E_lockI.
    - lock (g_S g). destruct (noreaders g) eqn:NR; [apply noreaders_nil in NR|right; apply noreaders_some, NR].
      leaf E_lockS.
    - destruct (apply_op cmp (g_idx g) (wop w)) as [[idx' un0]|e] eqn:?; [|exists e; reflexivity].
      leaf E_apply.
    - destruct w; cbn beta iota zeta; destruct (filter _ un) eqn:F.
      1, 3: leaf E_applied_done.
      all: eexists _, _, _, _;
        (split; [eapply E_applied_unlink; unfold unprot_in, wbh; rewrite F; discriminate
                |rewrite <- F; reflexivity]).
    - destruct todo as [|h [|h2 rest]]; [exact I| |];
        (destruct (bad h) eqn:?; [leaf E_unlink_fail|]).
      + leaf E_unlink_last.
      + leaf E_unlink.
    - destruct rolled; [leaf E_released_ck|leaf E_released].
    - lock (g_S g). destruct (noreaders g) eqn:NR; [apply noreaders_nil in NR|right; apply noreaders_some, NR].
      leaf E_ckS.
    - cbn zeta. destruct (negb _ || _) eqn:?; [leaf E_ck_skip|leaf E_ck].
    - lock (g_S g). destruct (sm_get cmp (km (g_idx g)) k) eqn:?; [leaf E_rread|leaf E_rread_none].
    - leaf E_rscanned.
    - lock (g_S g). leaf E_rrread.
    - destruct ks; [leaf E_rrscanned_none|leaf E_rrscanned].
    - lock (g_S g). destruct (sm_get cmp (km (g_idx g)) k) eqn:?; [leaf E_gread|leaf E_gread_none].
    - destruct (pre_open md it) eqn:?; [leaf E_glooked_pre|leaf E_glooked].
    - destruct (bad (ihash it)) eqn:?; [leaf E_gopen_fail|].
      destruct (sm_get lex_cmp (g_cas g) (ihash it)) eqn:?; [leaf E_gopen|leaf E_gopen_retry].
    - lock (g_S g). destruct (sm_get cmp (km (g_idx g)) k) as [cur|] eqn:?; [|leaf E_greread_none].
      destruct (pre_open md cur) eqn:?; [leaf E_greread_pre|leaf E_greread].
    - destruct (bad (ihash it)) eqn:?; [leaf E_gopenL_fail|].
      destruct (sm_get lex_cmp (g_cas g) (ihash it)) eqn:?; [leaf E_gopenL|leaf E_gopenL_missing].
    - lock (g_S g). leaf E_iread.
    - destruct todo; [leaf E_olockI_nil|]. lock (g_I g). leaf E_olockI.
    - lock (g_S g). destruct (referenced g h || protects g h) eqn:?; [|leaf E_oread].
      destruct todo; [leaf E_oread_skip_last|leaf E_oread_skip].
    - destruct (unlink_orphan (g_cas g) h del skip) as [[cas' d'] s'] eqn:U.
      unfold unlink_orphan in U. rewrite U.
      destruct todo; [leaf E_ounlink_last|leaf E_ounlink].
  Qed.

  Theorem cstep_spec g t ts g' : tget (g_thr g) t = Some ts -> step g t = Some g' ->
    exists p' cs' out sh,
      edge g t (t_pc ts) (t_calls ts) p' cs' out sh /\
      g' = set_thr sh t (mkT cs' p' (emit (t_res ts) out)).
  Proof. intros Ht St. pose proof (cstep_cases g t ts Ht) as C. rewrite St in C. exact C. Qed.

  Lemma edge_not_stuck g t p cs p' cs' out sh : edge g t p cs p' cs' out sh -> ~ stuck g p cs.
  Proof.
    intros E S. destruct E; cbn [stuck] in S;
      try contradiction; try discriminate; try (destruct S; contradiction).
    destruct S as [e S]. congruence.
  Qed.

  Theorem cstep_none g t ts : tget (g_thr g) t = Some ts ->
    (step g t = None <-> stuck g (t_pc ts) (t_calls ts)).
  Proof.
    intros Ht. pose proof (cstep_cases g t ts Ht) as C. destruct (step g t) as [g'|].
    - split; [discriminate|]. intros S. destruct C as (p' & cs' & out & sh & E & _).
      destruct (edge_not_stuck _ _ _ _ _ _ _ _ E S).
    - split; [intros _; exact C|reflexivity].
  Qed.

  (* only threads of the table move, and a step of t rewrites only t's entry *)
  Lemma cstep_tget g t g' : step g t = Some g' -> exists ts, tget (g_thr g) t = Some ts.
  Proof.
    unfold cstep. destruct (tget (g_thr g) t) as [ts|]; [exists ts; reflexivity|discriminate].
  Qed.

  Lemma step_needs_thread g t : tget (g_thr g) t = None -> step g t = None.
  Proof.
    intros E. destruct (step g t) as [g'|] eqn:St; [|reflexivity].
    destruct (cstep_tget _ _ _ St) as [ts Ht]. congruence.
  Qed.

  Lemma edge_thr g t p cs p' cs' out sh : edge g t p cs p' cs' out sh -> g_thr sh = g_thr g.
  Proof. intros E. destruct E; reflexivity. Qed.

  (* a rule that returns a result parks the thread at Idle, any other inside a call *)
  Lemma edge_out g t p cs p' cs' out sh : edge g t p cs p' cs' out sh ->
    match out with Some _ => p' = Idle | None => is_idle p' = false end.
  Proof.
    intros E. destruct E; try reflexivity. destruct c as [| | | | | | | | |[|]]; reflexivity.
  Qed.

  (* an idle thread takes its first pending call *)
  Lemma edge_idle g t p cs p' cs' out sh : edge g t p cs p' cs' out sh -> p = Idle ->
    exists c, cs = c :: cs' /\ p' = fst (call_start c) /\ out = snd (call_start c) /\ sh = g.
  Proof. intros E. destruct E; try discriminate. intros _. eexists. repeat split. Qed.

  (* the form for a client that holds the thread's entries before and after *)
  Lemma cstep_edge g t ts g' ts' :
    tget (g_thr g) t = Some ts -> step g t = Some g' -> tget (g_thr g') t = Some ts' ->
    exists out sh,
      edge g t (t_pc ts) (t_calls ts) (t_pc ts') (t_calls ts') out sh /\
      t_res ts' = emit (t_res ts) out /\ g' = set_thr sh t ts'.
  Proof.
    intros Ht St Ht'. destruct (cstep_spec _ _ _ _ Ht St) as (p' & cs' & out & sh & E & ->).
    cbn [set_thr g_thr] in Ht'. rewrite tget_tset_same in Ht'. injection Ht' as <-.
    exists out, sh. split; [exact E|split; reflexivity].
  Qed.

  Lemma cstep_thr g t ts g' : tget (g_thr g) t = Some ts -> step g t = Some g' ->
    exists ts', g_thr g' = tset (g_thr g) t ts'.
  Proof.
    intros Ht St. destruct (cstep_spec _ _ _ _ Ht St) as (p' & cs' & out & sh & E & ->).
    eexists. cbn [set_thr g_thr]. rewrite (edge_thr _ _ _ _ _ _ _ _ E). reflexivity.
  Qed.

  Lemma cstep_other g t g' u : step g t = Some g' -> u <> t ->
    tget (g_thr g') u = tget (g_thr g) u.
  Proof.
    intros St N. destruct (cstep_tget _ _ _ St) as [ts Ht].
    destruct (cstep_thr _ _ _ _ Ht St) as [ts' ->]. apply tget_tset_other, N.
  Qed.

  Lemma crun_app s1 : forall g s2, run g (s1 ++ s2) = run (run g s1) s2.
  Proof.
    induction s1 as [|t s1 IH]; intros g s2; cbn [app crun]; [reflexivity|].
    destruct (step g t); apply IH.
  Qed.

  Lemma crun_snoc g s t :
    run g (s ++ [t]) = match step (run g s) t with Some g' => g' | None => run g s end.
  Proof. rewrite crun_app. cbn [crun]. destruct (step (run g s) t); reflexivity. Qed.

  (* induction over the states of a run, last step first: the step case may use whatever is
     known of the state before it, as a state reached from g0 *)
  Lemma crun_ind (P : cstate -> Prop) g0 :
    P g0 ->
    (forall s t g', P (run g0 s) -> step (run g0 s) t = Some g' -> P g') ->
    forall s, P (run g0 s).
  Proof.
    intros P0 PS s. induction s as [|t s IH] using rev_ind; [exact P0|].
    rewrite crun_snoc. destruct (step (run g0 s) t) as [g'|] eqn:St; [|exact IH].
    exact (PS s t g' IH St).
  Qed.
End Step.

Arguments cstep_spec {H cmp nops bad ckbad g t ts g'}.
Arguments cstep_edge {H cmp nops bad ckbad g t ts g' ts'}.
Arguments cstep_none {H cmp nops bad ckbad g t ts}.
Arguments cstep_tget {H cmp nops bad ckbad g t g'}.
Arguments step_needs_thread {H cmp nops bad ckbad g t}.
Arguments cstep_thr {H cmp nops bad ckbad g t ts g'}.
Arguments cstep_other {H cmp nops bad ckbad g t g' u}.
Arguments edge_thr {H cmp nops bad ckbad g t p cs p' cs' out sh}.
Arguments edge_out {H cmp nops bad ckbad g t p cs p' cs' out sh}.
Arguments edge_idle {H cmp nops bad ckbad g t p cs p' cs' out sh}.
Arguments edge_not_stuck {H cmp nops bad ckbad g t p cs p' cs' out sh}.
