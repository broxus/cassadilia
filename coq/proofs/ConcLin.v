(* ConcLin.v -- C05: linearizability of the concurrent model theories/Conc.v.

   History variables live OUTSIDE the model (theories/Conc.v carries none).  A schedule [sched]
   is run from [g0 = init_c thr0 cas0], and everything is said of the states
       st 0, st 1, ..., st N        (N = NN = length sched,  st i = crun g0 (firstn i sched))
   ([ctrace g0 sched] is the list of them: [st_trace]; nothing below goes through the list).
   STEP i is the move from [st i] to [st (S i)] made by thread [who i] (the i-th entry of the
   schedule; a blocked or finished thread stutters).  POSITION i is the state [st i], i.e. the
   state just before step i.  [kmap i] is the key map of position i and
   [val i k = option_map (fun it => (ihash it, isize it)) (sm_get cmp (kmap i) k)].

   In the order of the file:

   What a result means.  [lin_spec0 c r m]: the key map m justifies the result r of call c;
       the three reads share [rd_spec] / [rd_call]; [lin_spec] adds the I/O error (FAULTS).
       [writes c r], [may_write c r]: the call has, resp. may have, an entry in the write log.

   Call intervals.  [prog t] is the program of thread t ([prog_thr0]).
         starts_at s t j c : step s is the step of thread t that leaves Idle taking its j-th
                             call, which is c
         ends_at e t j r   : step e is the step of thread t that appends its j-th result, r
       both are unique ([starts_at_unique], [ends_at_unique]) and s <= e ([start_le_end]): the
       measures [mu], [mu2] (a [phase]: two per finished call, one more while a flag is up)
       never decrease along the run ([phase_S]), so a step that raises one past a given value
       is the only such step ([mono_cross]).
       [own q t c]: step q is a step of t parked at the pc where call c reads the key map
       (GRead / GReread / GOpenL for get and get_range, GRead for get_size, IRead for iteration,
       RRead, RRRead for the removals).

   The write log.  [wlog n]: the operations of the WLockW steps among the first n, in step
       order ([wlog_sorted]), each with its step, thread and call number.
       C05_km_is_fold_of_writes : at every position the key map is the fold (kstep = the
       key-map component of apply_op) of the operations logged so far; [wlog_versions]: the
       versions follow the log; [wlog_respects]: every logged operation was applicable.

   The history invariant [HistInv] ([hist_inv], by induction along the run; [edge_hist] is the
       case analysis over the rules of ConcStep) attaches to every pc of a call in progress
       what the thread has seen so far, with the positions where it saw it, and keeps for every
       finished call the record [fin_hist].
       At most one log entry per call: [wlog_key_unique] (the measure [mu2] goes from 2j to
       2j+1 at the WLockW step of the j-th call, and never decreases).
       The consequence of [hist_inv] for every finished call (any thread, any call kind):
     C05_calls_linearizable   there are s <= q <= e (s < q unless the call returns in the step
                              that takes it) with starts_at s, ends_at e, and the key map of
                              position q justifies the result ([lin_spec]); for get / get_size
                              / get_range / iteration / remove / remove_range step q is a
                              step of the thread itself ([own]); a call that reports a write
                              has an entry in the write log at a step strictly between s and e.

   The calls that observe the key map, each [observed_call] read at one call kind:
       C05_read_linearizable (+ _cases), C05_get_size_linearizable : a get returns 'absent' or
       the complete content that the key held at position q, s < q <= e; the content is the
       blob stored under the key's hash at position q.
       C05_range_read_linearizable : a get_range returns 'absent' or exactly the answer of the
       sequential get_range ([range_answer_is_get_range]: theories/Range.v) on the item the key
       held at position q and the blob stored under its hash at position q (the answers decided
       from the item alone -- empty range, InvalidRange -- else the slice [a, min b size));
       the three reads share [rd_linearizable]; the read pcs carry the mode (rmode).
       C05_iteration_is_a_snapshot : an iteration returns the key list of ONE position q.
       C05_remove_linearizable, C05_remove_range_linearizable : presence / number of keys in
       range at the call's own scan step q, s < q <= e.

   The log and the calls.  [wlog_entry_call]: every entry is the write of a call (RPut k (H c)
       (len c) for KPut, RRemove ks for the removals with the keys found at their scan step:
       [op_of_call]), applied strictly inside the interval of that call.
       C05_write_order_respects_real_time : if call A returned before call B was taken, the
       entry of A precedes the entry of B.
       C05_final_is_linearization : after a complete run  km = fold_left kstep ws []  where ws
       is the log, with the above for every entry; the calls that report a write have exactly
       one entry, the others none.

   A put that returned is seen.  C05_put_visible : a put that returned before a get of the same
       key was taken is seen by it: the get returns the put's content unless a write on the key
       applied after the put's own linearisation point intervenes; C05_put_applied_at_return.

   Examples by vm_compute (toyH, lex_cmp): a reader racing an overwriting writer under two
       schedules, with the witness positions; a get_range racing an overwrite by a longer value
       (both outcomes) and an iteration racing a put, with the witness positions.

   FAULTS.  Everything holds for ARBITRARY fault parameters bad / ckbad.  A call that can fail
   ([can_err]: put, remove, remove_range, get, get_range, checkpoint) may return the I/O error CErr:
   [lin_spec c r m] = (can_err c /\ r = CErr) \/ [lin_spec0 c r m] (the fault-free spec), so the
   interval / own-step / write-log parts of C05_calls_linearizable also cover failed calls.
   The read / remove theorems are stated for results other than CErr (r <> CErr).
   [writes c r] = the call is KNOWN to have an entry in the write log: a removal returns CErr
   only after its apply (failed unlink / failed rollover checkpoint), so writes (KRemove _) CErr
   = true; a put returns CErr either before registering its write (failed rename: no entry) or
   after its apply, so writes (KPut _ _) CErr = false and the converse direction of
   C05_final_is_linearization says [may_write c r] = writes c r = true \/ r = CErr.
   C05_put_visible needs rp <> CErr and ru <> CErr.
   Without faults no result is CErr (ConcProofs.no_faults_no_errors). *)
From Cas Require Import SMap Conc Range.
From CasProofs Require Import SMapProofs IndexProofs RangeProofs ConcInv ConcProofs ConcExamples.
From Coq Require Import List NArith Lia Bool Arith Sorted.
Import ListNotations.
Open Scope N_scope.

Lemma firstn_S_nth {A} (l : list A) (d : A) : forall i, (i < length l)%nat ->
  firstn (S i) l = firstn i l ++ [nth i l d].
Proof.
  induction l as [|a l IH]; intros i Hi; [inversion Hi|].
  destruct i as [|i]; [reflexivity|].
  rewrite !firstn_cons. cbn [nth app]. rewrite (IH i); [reflexivity|]. apply Nat.succ_lt_mono, Hi.
Qed.

Lemma skipn_cons_nth {A} (l : list A) : forall j c r,
  skipn j l = c :: r -> nth_error l j = Some c /\ skipn (S j) l = r.
Proof.
  induction l as [|a l IH]; intros [|j] c r E; cbn [skipn] in E; try discriminate.
  - injection E as -> ->. split; reflexivity.
  - apply IH in E. exact E.
Qed.

Lemma nth_error_snoc {A} (l : list A) (x : A) j y :
  nth_error (l ++ [x]) j = Some y ->
  (nth_error l j = Some y /\ (j < length l)%nat) \/ (j = length l /\ y = x).
Proof.
  intros E. destruct (Nat.lt_ge_cases j (length l)) as [L|L].
  - left. rewrite nth_error_app1 in E by exact L. split; assumption.
  - right. rewrite nth_error_app2 in E by exact L.
    destruct (j - length l)%nat as [|d] eqn:D.
    + cbn in E. injection E as <-. split; [|reflexivity].
      apply Nat.le_antisymm; [apply Nat.sub_0_le, D|exact L].
    + cbn in E. destruct d; discriminate.
Qed.

(* a sequence that does not decrease over the first N steps *)
Section Mono.
  Variables (N : nat) (f : nat -> nat).
  Hypothesis f_S : forall i, (i < N)%nat -> (f i <= f (S i))%nat.

  Lemma mono_le i i' : (i <= i')%nat -> (i' <= N)%nat -> (f i <= f i')%nat.
  Proof.
    intros L. induction L as [|i' L IH]; intros Hn; [apply le_n|].
    specialize (f_S i'). lia.
  Qed.

  (* a strictly smaller value sits at a strictly earlier position ... *)
  Lemma mono_lt i i' : (i <= N)%nat -> (f i < f i')%nat -> (i < i')%nat.
  Proof.
    intros Hi L. destruct (Nat.lt_ge_cases i i') as [X|X]; [exact X|].
    pose proof (mono_le i' i X Hi). lia.
  Qed.

  (* ... so a step that raises the sequence past a given value is the only one *)
  Lemma mono_cross v a b : (a < N)%nat -> (b < N)%nat ->
    (f a <= v < f (S a))%nat -> (f b <= v < f (S b))%nat -> a = b.
  Proof. intros Ha Hb A B. pose proof (mono_lt a (S b)). pose proof (mono_lt b (S a)). lia. Qed.
End Mono.

(* the phase of a thread: two per returned result, one more while a flag is up *)
Definition phase (b : bool) (res : list cres) : nat :=
  (2 * length res + (if b then 1 else 0))%nat.

Lemma phase_emit b b' res r : (phase b res < phase b' (res ++ [r]))%nat.
Proof. unfold phase. rewrite app_length. cbn [length]. destruct b, b'; lia. Qed.
Lemma phase_flag b b' res : (b = true -> b' = true) -> (phase b res <= phase b' res)%nat.
Proof. destruct b; [intros X; rewrite (X eq_refl); apply le_n|intros _; unfold phase; destruct b'; lia]. Qed.
Lemma phase_up res : (phase false res < phase true res)%nat.
Proof. unfold phase. lia. Qed.
Lemma phase_true b res : (phase true res <= phase b res)%nat -> b = true.
Proof. unfold phase. destruct b; [reflexivity|lia]. Qed.

(* windows of steps: (s, m) and (s, m], widened *)
Lemma win_mono {s q m m'} : (m <= m')%nat -> (s < q < m)%nat -> (s < q < m')%nat.
Proof. lia. Qed.
Lemma win_close {s q m} : (s < q < m)%nat -> (s < q <= m)%nat.
Proof. lia. Qed.
Lemma win_last {s n} : (s < n)%nat -> (s < n < S n)%nat.
Proof. lia. Qed.
Lemma win_weak {s q m} : (s < q <= m)%nat -> (s <= q <= m)%nat.
Proof. lia. Qed.

(* the key-map component of apply_op *)

Definition kstep (cmp : bytes -> bytes -> comparison) (m : smap item) (o : rawop) : smap item :=
  match o with
  | RPut k h sz => sm_ins cmp m k (mkItem h sz)
  | RRemove ks => fold_left (fun m k => sm_del cmp m k) ks m
  end.

(* operation o writes key k *)
Definition touches (o : rawop) (k : bytes) : Prop :=
  match o with RPut k' _ _ => k' = k | RRemove ks => In k ks end.

(* every operation of a list is applicable (in the sense of IndexProofs.op_respects_sizes) to the
   key map produced by its predecessors *)
Fixpoint ops_resp (cmp : bytes -> bytes -> comparison) (m : smap item) (ops : list rawop) : Prop :=
  match ops with
  | [] => True
  | o :: r => op_respects_sizes (mkIstate m [] 0 0 0 0) o /\ ops_resp cmp (kstep cmp m o) r
  end.
Lemma ops_resp_app cmp a : forall m b,
  ops_resp cmp m (a ++ b) <-> ops_resp cmp m a /\ ops_resp cmp (fold_left (kstep cmp) a m) b.
Proof.
  induction a as [|o a IH]; intros m b; cbn [app ops_resp fold_left]; [tauto|].
  rewrite IH. tauto.
Qed.

(* an entry of the write log: step, thread, call number, operation *)
Record wlent := mkWl { wl_p : nat; wl_t : nat; wl_j : nat; wl_o : rawop }.

(* calls that return in the very step that takes them *)
Definition immediate (c : ccall) : bool :=
  match c with KAbort _ _ | KDelOrphans [] => true | _ => false end.
(* calls whose result depends on the key map *)
Definition observes (c : ccall) : bool :=
  match c with
  | KGet _ | KGetSize _ | KGetRange _ _ _ | KIter | KRemove _ | KRemoveRange _ _ => true
  | _ => false
  end.
Definition is_err (r : cres) : bool := match r with CErr => true | _ => false end.
(* calls that may return an I/O error under the fault parameters bad / ckbad *)
Definition can_err (c : ccall) : bool :=
  match c with
  | KPut _ _ | KRemove _ | KRemoveRange _ _ | KGet _ | KGetRange _ _ _ | KCheckpoint => true
  | _ => false
  end.
(* calls (with their result) that are KNOWN to have applied a write operation.  A removal
   returns CErr only after its operation was applied (failed unlink / failed rollover
   checkpoint); a put that returns CErr may (same two failures) or may not (failed rename)
   have applied its operation, so nothing is claimed for it: see [may_write] *)
Definition writes (c : ccall) (r : cres) : bool :=
  match c, r with
  | KPut _ _, r => negb (is_err r)
  | KRemove _, CBool b => b
  | KRemove _, CErr => true
  | KRemoveRange _ _, CNum n => negb (n =? 0)
  | KRemoveRange _ _, CErr => true
  | _, _ => false
  end.
(* calls (with their result) that MAY have applied a write operation *)
Definition may_write (c : ccall) (r : cres) : Prop := writes c r = true \/ r = CErr.

Lemma is_err_false r : r <> CErr -> is_err r = false.
Proof. destruct r; try reflexivity. intros X; exfalso; apply X; reflexivity. Qed.

Lemma writes_can_err c r : writes c r = true -> can_err c = true.
Proof. destruct c; cbn [writes can_err]; try reflexivity; destruct r; discriminate. Qed.
(* a read in mode md observes the key map at its lookup (GRead), or at the lookup of its retry
   (GReread), or -- having kept the state lock shared since that lookup -- at the open of the
   retry (GOpenL) *)
Definition rd_pc (k : bytes) (md : rmode) (p : pc) : Prop :=
  p = GRead k md \/ (exists it, p = GReread k it md) \/ (exists it, p = GOpenL k it md).
Definition lin_pc (c : ccall) (p : pc) : Prop :=
  match c with
  | KGet k => rd_pc k MFull p
  | KGetSize k => p = GRead k MSize
  | KGetRange k a b => rd_pc k (MRange a b) p
  | KIter => p = IRead
  | KRemove k => p = RRead k
  | KRemoveRange lo hi => p = RRRead lo hi
  | _ => True
  end.
Definition rd_call (k : bytes) (md : rmode) : ccall :=
  match md with MFull => KGet k | MSize => KGetSize k | MRange a b => KGetRange k a b end.

Lemma lin_pc_gread k md : lin_pc (rd_call k md) (GRead k md).
Proof. destruct md; cbn [rd_call lin_pc]; [left; reflexivity|reflexivity|left; reflexivity]. Qed.
Lemma lin_pc_rd k md it p : pre_open md it = None -> rd_pc k md p -> lin_pc (rd_call k md) p.
Proof. destruct md; cbn [rd_call lin_pc pre_open]; [auto|discriminate|auto]. Qed.
Lemma can_err_rd k md it : pre_open md it = None -> can_err (rd_call k md) = true.
Proof. destruct md; cbn [rd_call can_err pre_open]; [reflexivity|discriminate|reflexivity]. Qed.
Lemma writes_rd k md r : writes (rd_call k md) r = false.
Proof. destruct md; reflexivity. Qed.
Lemma observes_rd k md : observes (rd_call k md) = true.
Proof. destruct md; reflexivity. Qed.

Lemma wlockw_or_not (p : pc) : (exists w, p = WLockW w) \/ (forall w, p <> WLockW w).
Proof. destruct p; try (right; intros w0 E; discriminate E). left. eexists. reflexivity. Qed.

Section Lin.
  Variable H : bytes -> bytes.
  Variable cmp : bytes -> bytes -> comparison.
  Hypothesis cmp_refl : forall a, cmp a a = Eq.
  Hypothesis cmp_eq : forall a b, cmp a b = Eq -> a = b.
  Hypothesis cmp_antisym : forall a b, cmp b a = CompOpp (cmp a b).
  Hypothesis cmp_trans : forall a b c, cmp a b = Lt -> cmp b c = Lt -> cmp a c = Lt.
  Variable nops : N.
  Variable bad : bytes -> bool.
  Variable ckbad : bool.
  Variable thr0 : list (nat * list ccall).
  Hypothesis thr0_nodup : NoDup (map fst thr0).
  Variable cas0 : smap bytes.
  Hypothesis cas0_sorted : sorted lex_cmp cas0.
  Hypothesis cas0_named : forall h c, In (h, c) cas0 -> H c = h.
  Hypothesis NoCollideC :
    forall a b, In a (allc thr0 cas0) -> In b (allc thr0 cas0) -> H a = H b -> a = b.

  Local Notation at_cmp L := (L cmp cmp_refl cmp_eq cmp_antisym cmp_trans) (only parsing).
  Local Notation at_setting L :=
    (L H cmp cmp_refl cmp_eq cmp_antisym cmp_trans nops bad ckbad thr0 thr0_nodup cas0 cas0_sorted
       cas0_named NoCollideC) (only parsing).
  Local Notation Inv := (ConcInv H cmp bad thr0 cas0).
  Local Notation Reach := (reachable H cmp nops bad ckbad thr0 cas0).
  Local Notation step := (cstep H cmp nops bad ckbad).
  Local Notation edge := (ConcStep.edge H cmp nops bad ckbad).
  Local Notation run := (crun H cmp nops bad ckbad).
  Local Notation g0 := (init_c thr0 cas0).

  Definition cnext (g : cstate) (t : nat) : cstate :=
    match step g t with Some g' => g' | None => g end.

  Fixpoint ctrace (g : cstate) (sched : list nat) : list cstate :=
    g :: match sched with [] => [] | t :: r => ctrace (cnext g t) r end.

  Lemma crun_cons g t r : run g (t :: r) = run (cnext g t) r.
  Proof. unfold cnext. cbn [crun]. destruct (step g t); reflexivity. Qed.

  Lemma ctrace_length sched : forall g, length (ctrace g sched) = S (length sched).
  Proof. induction sched as [|t r IH]; intros g; cbn [ctrace length]; [reflexivity|]. rewrite IH. reflexivity. Qed.

  Lemma ctrace_nth sched : forall g i, (i <= length sched)%nat ->
    nth_error (ctrace g sched) i = Some (run g (firstn i sched)).
  Proof.
    induction sched as [|t r IH]; intros g [|i] Hi; try reflexivity; [inversion Hi|].
    cbn [ctrace nth_error firstn]. rewrite crun_cons. apply IH, le_S_n, Hi.
  Qed.

  Lemma ctrace_last sched : forall g d, last (ctrace g sched) d = run g sched.
  Proof.
    induction sched as [|t r IH]; intros g d; [reflexivity|].
    rewrite crun_cons, <- (IH (cnext g t) d).
    change (ctrace g (t :: r)) with (g :: ctrace (cnext g t) r).
    destruct r; reflexivity.
  Qed.

  Lemma ctrace_nth_inv sched g i gi : nth_error (ctrace g sched) i = Some gi ->
    (i <= length sched)%nat /\ gi = run g (firstn i sched).
  Proof.
    intros E. assert (Hi : (i <= length sched)%nat).
    { apply le_S_n. rewrite <- (ctrace_length sched g). apply nth_error_Some. congruence. }
    split; [exact Hi|]. rewrite (ctrace_nth _ _ _ Hi) in E. congruence.
  Qed.

  Lemma ctrace_reachable sched g : In g (ctrace g0 sched) -> Reach g.
  Proof.
    intros I. apply In_nth_error in I as [i E]. apply ctrace_nth_inv in E as [_ ->].
    eexists. reflexivity.
  Qed.

  Lemma crun_firstn_S sched g i : (i < length sched)%nat ->
    run g (firstn (S i) sched) = cnext (run g (firstn i sched)) (nth i sched 0%nat).
  Proof. intros Hi. rewrite (firstn_S_nth sched 0%nat) by exact Hi. apply crun_snoc. Qed.

  Lemma ctrace_step sched g i gi gi' :
    nth_error (ctrace g sched) i = Some gi -> nth_error (ctrace g sched) (S i) = Some gi' ->
    exists t, nth_error sched i = Some t /\ gi' = cnext gi t.
  Proof.
    intros E1 E2. apply ctrace_nth_inv in E1 as [_ ->], E2 as [Hi ->].
    exists (nth i sched 0%nat). split; [apply nth_error_nth', Hi|apply crun_firstn_S, Hi].
  Qed.

  (* when does a key map m justify the result r of a call c *)
  Definition lin_spec0 (c : ccall) (r : cres) (m : smap item) : Prop :=
    match c with
    | KPut _ _ | KAbort _ _ | KCheckpoint => r = CUnit
    | KRemove k => r = CBool (match sm_get cmp m k with Some _ => true | None => false end)
    | KRemoveRange lo hi => r = CNum (N.of_nat (length (keys_in cmp m lo hi)))
    | KGet k =>
      match sm_get cmp m k with
      | None => r = CBytes None
      | Some it => exists x, r = CBytes (Some x) /\ In x (allc thr0 cas0) /\
                             H x = ihash it /\ len x = isize it
      end
    | KGetSize k => r = CSize (option_map isize (sm_get cmp m k))
    | KGetRange k a b =>
      (* the sequential get_range on the item of k: the exits decided from the item alone
         (empty range, invalid range), else the slice [a, min b size) of the item's blob *)
      match sm_get cmp m k with
      | None => r = CBytes None
      | Some it =>
        match pre_open (MRange a b) it with
        | Some r' => r = r'
        | None => exists x, r = CBytes (Some (slice x a (N.min b (isize it)))) /\
                            In x (allc thr0 cas0) /\ H x = ihash it /\ len x = isize it
        end
      end
    | KIter => r = CKeys (map fst m)
    | KDelOrphans _ => exists d s, r = COrphans d s
    end.
  (* the three reads at once: what key map m allows a read of k in mode md to return *)
  Definition rd_spec (md : rmode) (k : bytes) (r : cres) (m : smap item) : Prop :=
    match sm_get cmp m k with
    | None => r = absent_result md
    | Some it =>
      match pre_open md it with
      | Some r' => r = r'
      | None => exists x, r = read_result md it x /\ In x (allc thr0 cas0) /\
                          H x = ihash it /\ len x = isize it
      end
    end.
  Lemma rd_spec_lin md k r m : rd_spec md k r m <-> lin_spec0 (rd_call k md) r m.
  Proof.
    unfold rd_spec. destruct md as [| |a b]; cbn [rd_call lin_spec0 pre_open absent_result read_result];
      destruct (sm_get cmp m k); cbn [option_map]; reflexivity.
  Qed.
  (* ... or the call is one that can fail and it returned the I/O error *)
  Definition lin_spec (c : ccall) (r : cres) (m : smap item) : Prop :=
    (can_err c = true /\ r = CErr) \/ lin_spec0 c r m.

  Lemma lin_ok c r m : lin_spec0 c r m -> lin_spec c r m.
  Proof. intros X. right. exact X. Qed.
  Lemma lin_err c m : can_err c = true -> lin_spec c CErr m.
  Proof. intros X. left. split; [exact X|reflexivity]. Qed.

  (* the pcs of the second half of a write, after its operation has been applied *)
  Definition applied_pc (p : pc) : bool :=
    match p with
    | WApplied _ _ _ | WUnlink _ _ _ | WReleased _ _ => true
    | WCkS _ e | WCkW _ e => match e with N0 => false | Npos _ => true end
    | _ => false
    end.

  (* once the operation is applied the thread stays past its apply until the call returns *)
  Lemma edge_applied g t p cs p' cs' sh : edge g t p cs p' cs' None sh ->
    applied_pc p = true -> applied_pc p' = true.
  Proof.
    intros E. remember None as out eqn:Eo. destruct E; try discriminate Eo; cbn [applied_pc];
      try (intros X; exact X); try reflexivity.
    - destruct c as [| | | | | | | | |[|]]; discriminate.
    - destruct w; reflexivity.
  Qed.

  (* key map and version change in the WLockW rule only, which applies the operation *)
  Lemma edge_log g t p cs p' cs' out sh : edge g t p cs p' cs' out sh ->
    ((forall w, p <> WLockW w) -> km (g_idx sh) = km (g_idx g) /\ g_nextv sh = g_nextv g) /\
    (forall w, p = WLockW w ->
       km (g_idx sh) = kstep cmp (km (g_idx g)) (wop w) /\ g_nextv sh = g_nextv g + 1 /\
       cs' = cs /\ out = None /\ exists un rolled, p' = WApplied w un rolled).
  Proof.
    intros E. destruct E;
      try (split; [intros _; split; reflexivity|intros w0 X; discriminate X]).
    split; [intros X; destruct (X _ eq_refl)|]. intros w0 X. injection X as <-.
    cbn [set_S set_index g_idx g_nextv km].
    rewrite (proj1 (at_cmp C12_km_spec _ _ _ _ Ap)).
    split; [destruct (wop w); reflexivity|]. repeat split. eexists _, _. reflexivity.
  Qed.

  Lemma kstep_untouched m o k : sorted cmp m -> ~ touches o k ->
    sm_get cmp (kstep cmp m o) k = sm_get cmp m k.
  Proof.
    intros S NT. destruct o as [k' h sz|ks]; cbn [kstep touches] in *.
    - apply (at_cmp get_ins_other); [|exact S]. intros E. apply NT. congruence.
    - apply (at_cmp get_fold_del_notin); assumption.
  Qed.

  Lemma touches_dec o k : {touches o k} + {~ touches o k}.
  Proof.
    destruct o as [k' h sz|ks]; cbn [touches].
    - apply key_eq_dec.
    - apply (in_dec key_eq_dec).
  Qed.

  Lemma StronglySorted_snoc {A} (R : A -> A -> Prop) (l : list A) y :
    StronglySorted R l -> Forall (fun x => R x y) l -> StronglySorted R (l ++ [y]).
  Proof.
    induction 1 as [|a l S IH F]; intros Fy; cbn [app]; [repeat constructor|].
    inversion Fy; subst. constructor; [apply IH; assumption|].
    apply Forall_app. split; [exact F|]. repeat constructor. assumption.
  Qed.

  Section Trace.
    Variable sched : list nat.

    Definition st (i : nat) : cstate := run g0 (firstn i sched).
    Definition who (i : nat) : nat := nth i sched 0%nat.
    Definition NN : nat := length sched.

    Definition tst (i t : nat) : option tstate := tget (g_thr (st i)) t.
    Definition kmap (i : nat) : smap item := km (g_idx (st i)).
    Definition prog (t : nat) : list ccall :=
      match tget (g_thr g0) t with Some ts => t_calls ts | None => [] end.

    Lemma st_0 : st 0 = g0.
    Proof. reflexivity. Qed.

    Lemma st_S i : (i < NN)%nat -> st (S i) = cnext (st i) (who i).
    Proof. apply crun_firstn_S. Qed.

    Lemma st_final : st NN = run g0 sched.
    Proof. unfold st, NN. rewrite firstn_all. reflexivity. Qed.

    Lemma st_reach i : Reach (st i).
    Proof. eexists. reflexivity. Qed.

    Lemma st_inv i : Inv (st i).
    Proof. apply (at_setting reachable_inv), st_reach. Qed.

    Lemma st_trace i : (i <= NN)%nat -> nth_error (ctrace g0 sched) i = Some (st i).
    Proof. intros Hi. apply ctrace_nth, Hi. Qed.

    Lemma trace_ind (P : nat -> Prop) :
      P 0%nat -> (forall n, (n < NN)%nat -> P n -> P (S n)) -> forall n, (n <= NN)%nat -> P n.
    Proof.
      intros P0 PS n. induction n as [|n IH]; intros Hn; [exact P0|].
      apply (PS n Hn), IH, Nat.lt_le_incl, Hn.
    Qed.

    Lemma prog_thr0 t cs : In (t, cs) thr0 -> prog t = cs.
    Proof.
      intros I. unfold prog, init_c. cbn [g_thr].
      rewrite (In_tget _ t (mkT cs Idle [])); [reflexivity| |].
      - rewrite map_map. cbn [fst]. exact thr0_nodup.
      - apply in_map_iff. exists (t, cs). split; [reflexivity|exact I].
    Qed.

    Lemma st_S_none i : (i < NN)%nat -> step (st i) (who i) = None -> st (S i) = st i.
    Proof. intros Hi E. rewrite (st_S i Hi). unfold cnext. rewrite E. reflexivity. Qed.

    Lemma st_S_some i g' : (i < NN)%nat -> step (st i) (who i) = Some g' -> st (S i) = g'.
    Proof. intros Hi E. rewrite (st_S i Hi). unfold cnext. rewrite E. reflexivity. Qed.

    Lemma tst_other i t : (i < NN)%nat -> t <> who i -> tst (S i) t = tst i t.
    Proof.
      intros Hi Nt. unfold tst. destruct (step (st i) (who i)) as [g'|] eqn:E.
      - rewrite (st_S_some i g' Hi E). exact (cstep_other E Nt).
      - rewrite (st_S_none i Hi E). reflexivity.
    Qed.

    (* the thread that moves follows a rule *)
    Lemma tst_step i ts g' : (i < NN)%nat -> tst i (who i) = Some ts ->
      step (st i) (who i) = Some g' ->
      exists p' cs' out sh, edge (st i) (who i) (t_pc ts) (t_calls ts) p' cs' out sh /\
        st (S i) = set_thr sh (who i) (mkT cs' p' (emit (t_res ts) out)) /\
        tst (S i) (who i) = Some (mkT cs' p' (emit (t_res ts) out)).
    Proof.
      intros Hi Ht St. destruct (cstep_spec Ht St) as (p' & cs' & out & sh & E & ->).
      exists p', cs', out, sh. split; [exact E|]. unfold tst. rewrite (st_S_some i _ Hi St).
      split; [reflexivity|]. apply tget_tset_same.
    Qed.

    (* step i leaves the tstate of t alone, or t is the thread that moves *)
    Lemma trace_edge i t : (i < NN)%nat ->
      tst (S i) t = tst i t \/
      (t = who i /\ exists ts p' cs' out sh,
         tst i t = Some ts /\ edge (st i) t (t_pc ts) (t_calls ts) p' cs' out sh /\
         tst (S i) t = Some (mkT cs' p' (emit (t_res ts) out))).
    Proof.
      intros Hi. destruct (Nat.eq_dec t (who i)) as [->|Nt]; [|left; apply tst_other; assumption].
      destruct (step (st i) (who i)) as [g'|] eqn:St.
      2:{ left. unfold tst. rewrite (st_S_none i Hi St). reflexivity. }
      destruct (cstep_tget St) as [ts Ht].
      destruct (tst_step i ts g' Hi Ht St) as (p' & cs' & out & sh & E & _ & Ht').
      right. split; [reflexivity|]. exists ts, p', cs', out, sh. repeat split; assumption.
    Qed.

    (* step s is the step by which thread t leaves Idle taking its j-th call, which is c *)
    Definition starts_at (s t j : nat) (c : ccall) : Prop :=
      (s < NN)%nat /\ who s = t /\
      exists ts, tst s t = Some ts /\ t_pc ts = Idle /\ length (t_res ts) = j /\
                 hd_error (t_calls ts) = Some c.

    (* step e is the step by which the j-th result of thread t, r, is appended *)
    Definition ends_at (e t j : nat) (r : cres) : Prop :=
      (e < NN)%nat /\ who e = t /\
      exists ts ts', tst e t = Some ts /\ tst (S e) t = Some ts' /\ length (t_res ts) = j /\
                     t_res ts' = t_res ts ++ [r].

    (* step q is a step of thread t, parked at the pc where call c observes the key map *)
    Definition own (q t : nat) (c : ccall) : Prop :=
      (q < NN)%nat /\ who q = t /\ exists ts, tst q t = Some ts /\ lin_pc c (t_pc ts).

    (* the three predicates from the tstates of the thread, as an evaluation finds them *)
    Lemma starts_at_tst s t j c rest res : Nat.ltb s NN = true -> who s = t ->
      tst s t = Some (mkT (c :: rest) Idle res) -> length res = j -> starts_at s t j c.
    Proof.
      intros L W Ht Hj. split; [apply Nat.ltb_lt, L|]. split; [exact W|]. eexists.
      split; [exact Ht|]. repeat split. exact Hj.
    Qed.

    Lemma ends_at_tst e t j r cs p cs' p' res : Nat.ltb e NN = true -> who e = t ->
      tst e t = Some (mkT cs p res) -> tst (S e) t = Some (mkT cs' p' (res ++ [r])) ->
      length res = j -> ends_at e t j r.
    Proof.
      intros L W Ht Ht' Hj. split; [apply Nat.ltb_lt, L|]. split; [exact W|]. eexists _, _.
      split; [exact Ht|]. split; [exact Ht'|]. split; [exact Hj|reflexivity].
    Qed.

    Lemma own_tst q t c ts : Nat.ltb q NN = true -> who q = t -> tst q t = Some ts ->
      lin_pc c (t_pc ts) -> own q t c.
    Proof.
      intros L W Ht Hp. split; [apply Nat.ltb_lt, L|]. split; [exact W|]. exists ts.
      split; assumption.
    Qed.

    (* a phase whose flag the rules keep up until the call returns never decreases *)
    Lemma phase_S (b : pc -> bool) t i :
      (forall g t p cs p' cs' sh, edge g t p cs p' cs' None sh -> b p = true -> b p' = true) ->
      (i < NN)%nat ->
      (match tst i t with Some ts => phase (b (t_pc ts)) (t_res ts) | None => 0 end <=
       match tst (S i) t with Some ts => phase (b (t_pc ts)) (t_res ts) | None => 0 end)%nat.
    Proof.
      intros Kb Hi.
      destruct (trace_edge i t Hi) as [->|(-> & ts & p' & cs' & out & sh & Ht & E & Ht')];
        [apply le_n|].
      rewrite Ht, Ht'. cbn [t_res t_pc]. destruct out as [r|]; cbn [emit].
      - apply Nat.lt_le_incl, phase_emit.
      - apply phase_flag, (Kb _ _ _ _ _ _ _ E).
    Qed.

    (* progress measure of a thread: 2 * finished calls + 1 if a call is in progress *)
    Definition mu (ts : tstate) : nat := phase (negb (is_idle (t_pc ts))) (t_res ts).
    Definition mu_at (i t : nat) : nat := match tst i t with Some ts => mu ts | None => 0%nat end.

    Lemma mu_S t i : (i < NN)%nat -> (mu_at i t <= mu_at (S i) t)%nat.
    Proof.
      apply (phase_S (fun p => negb (is_idle p))). intros g u p cs p' cs' sh E _.
      rewrite (edge_out E). reflexivity.
    Qed.

    (* the step that takes a call always succeeds *)
    Lemma starts_step s t j c : starts_at s t j c ->
      (s < NN)%nat /\ (mu_at s t <= 2 * j < mu_at (S s) t)%nat.
    Proof.
      intros (Hs & <- & ts & Ht & Hpc & Hj & Hc). split; [exact Hs|].
      unfold mu_at. rewrite Ht.
      replace (2 * j)%nat with (mu ts) by (unfold mu, phase; rewrite Hpc, Hj; apply Nat.add_0_r).
      split; [apply le_n|].
      destruct (step (st s) (who s)) as [g'|] eqn:St.
      - destruct (tst_step s ts g' Hs Ht St) as (p' & cs' & out & sh & E & _ & ->).
        unfold mu. cbn [t_res t_pc]. rewrite Hpc. apply edge_out in E.
        destruct out as [r|]; cbn [emit]; [apply phase_emit|rewrite E; apply phase_up].
      - apply (cstep_none Ht) in St. rewrite Hpc in St. cbn [stuck] in St.
        rewrite St in Hc. discriminate Hc.
    Qed.

    (* the step that appends the j-th result takes the measure from below 2j+2 to it or above *)
    Lemma ends_step e t j r : ends_at e t j r ->
      (e < NN)%nat /\ (mu_at e t <= 2 * j + 1 < mu_at (S e) t)%nat.
    Proof.
      intros (He & _ & ts & ts' & G1 & G2 & L1 & R1). split; [exact He|].
      unfold mu_at, mu. rewrite G1, G2, R1, <- L1.
      split; [apply (phase_flag _ true); reflexivity|apply (phase_emit true)].
    Qed.

    Theorem starts_at_unique s s' t j c c' :
      starts_at s t j c -> starts_at s' t j c' -> s = s' /\ c = c'.
    Proof.
      intros A B.
      assert (E : s = s').
      { destruct (starts_step _ _ _ _ A) as [HA A1], (starts_step _ _ _ _ B) as [HB B1].
        exact (mono_cross NN _ (mu_S t) _ _ _ HA HB A1 B1). }
      subst s'. split; [reflexivity|].
      destruct A as (_ & _ & ts & Ht & _ & _ & Hc). destruct B as (_ & _ & ts2 & Ht2 & _ & _ & Hc2).
      rewrite Ht in Ht2. injection Ht2 as <-. congruence.
    Qed.

    Theorem ends_at_unique e e' t j r r' :
      ends_at e t j r -> ends_at e' t j r' -> e = e' /\ r = r'.
    Proof.
      intros A B.
      assert (E : e = e').
      { destruct (ends_step _ _ _ _ A) as [HA A1], (ends_step _ _ _ _ B) as [HB B1].
        exact (mono_cross NN _ (mu_S t) _ _ _ HA HB A1 B1). }
      subst e'. split; [reflexivity|].
      destruct A as (_ & _ & ts & ts' & G1 & G2 & _ & R1).
      destruct B as (_ & _ & ts2 & ts2' & G3 & G4 & _ & R2).
      rewrite G1 in G3. injection G3 as <-. rewrite G2 in G4. injection G4 as <-.
      rewrite R1 in R2. apply app_inv_head in R2. congruence.
    Qed.

    Lemma start_le_end s e t j c r : starts_at s t j c -> ends_at e t j r -> (s <= e)%nat.
    Proof.
      intros A B.
      destruct (starts_step _ _ _ _ A) as (HA & A1 & _), (ends_step _ _ _ _ B) as (HB & _ & B2).
      pose proof (mono_lt NN (fun i => mu_at i t) (mu_S t) s (S e)). lia.
    Qed.

    (* the write log: the operations applied by the WLockW steps, in step order *)

    Definition wev (i : nat) : list wlent :=
      match tst i (who i) with
      | Some ts =>
        match t_pc ts with
        | WLockW w => [mkWl i (who i) (length (t_res ts)) (wop w)]
        | _ => []
        end
      | None => []
      end.

    Fixpoint wlog (n : nat) : list wlent :=
      match n with O => [] | S i => wlog i ++ wev i end.

    Lemma wev_at i ts w : tst i (who i) = Some ts -> t_pc ts = WLockW w ->
      wev i = [mkWl i (who i) (length (t_res ts)) (wop w)].
    Proof. intros Ht Hpc. unfold wev. rewrite Ht, Hpc. reflexivity. Qed.

    Lemma wev_nil i ts : tst i (who i) = Some ts -> (forall w, t_pc ts <> WLockW w) -> wev i = [].
    Proof.
      intros Ht Hpc. unfold wev. rewrite Ht. destruct (t_pc ts); try reflexivity.
      exfalso. eapply Hpc. reflexivity.
    Qed.

    Lemma wev_In i e : In e (wev i) ->
      wl_p e = i /\ wl_t e = who i /\
      exists ts w, tst i (who i) = Some ts /\ t_pc ts = WLockW w /\
                   wl_j e = length (t_res ts) /\ wl_o e = wop w.
    Proof.
      unfold wev. destruct (tst i (who i)) as [ts|] eqn:Ht; [|intros []].
      destruct (t_pc ts) eqn:Hpc; try solve [intros []].
      intros [<-|[]]. cbn [wl_p wl_t wl_j wl_o]. split; [reflexivity|]. split; [reflexivity|].
      exists ts, w. split; [reflexivity|]. split; [exact Hpc|]. split; reflexivity.
    Qed.

    Lemma wlog_mono n n' e : (n <= n')%nat -> In e (wlog n) -> In e (wlog n').
    Proof.
      intros L. induction L as [|n' L IH]; intros I; [exact I|].
      cbn [wlog]. apply in_or_app. left. apply IH, I.
    Qed.

    Lemma wlog_lt n e : In e (wlog n) -> (wl_p e < n)%nat.
    Proof.
      induction n as [|n IH]; cbn [wlog]; [intros []|].
      intros I. apply in_app_or in I. destruct I as [I|I].
      - apply Nat.lt_lt_succ_r, IH, I.
      - apply wev_In in I. destruct I as (-> & _). apply Nat.lt_succ_diag_r.
    Qed.

    Lemma wlog_cut n n' e : (n <= n')%nat -> In e (wlog n') -> (wl_p e < n)%nat -> In e (wlog n).
    Proof.
      intros L. induction L as [|n' L IH]; intros I P; [exact I|].
      cbn [wlog] in I. apply in_app_or in I. destruct I as [I|I]; [apply IH; assumption|].
      apply wev_In in I. destruct I as (E & _). rewrite E in P.
      destruct (Nat.lt_irrefl _ (Nat.lt_le_trans _ _ _ P L)).
    Qed.

    Lemma wlog_sorted n : StronglySorted lt (map wl_p (wlog n)).
    Proof.
      induction n as [|n IH]; cbn [wlog map]; [constructor|].
      assert (B : Forall (fun x => x < n)%nat (map wl_p (wlog n))).
      { apply Forall_forall. intros x Ix. apply in_map_iff in Ix. destruct Ix as (e & <- & Ie).
        apply wlog_lt, Ie. }
      destruct (tst n (who n)) as [ts|] eqn:Ht; [|unfold wev; rewrite Ht, app_nil_r; exact IH].
      destruct (wlockw_or_not (t_pc ts)) as [(w & Hpc)|Hpc].
      - rewrite (wev_at n ts w Ht Hpc), map_app. apply StronglySorted_snoc; assumption.
      - rewrite (wev_nil n ts Ht Hpc), app_nil_r. exact IH.
    Qed.

    (* the WLockW step: the operation is applied to the key map, the version is bumped, the
       thread parks at WApplied.  The step is not stuck: apply_op does not panic *)
    Lemma wlockw_step i ts w : (i < NN)%nat -> tst i (who i) = Some ts -> t_pc ts = WLockW w ->
      exists un rolled,
        kmap (S i) = kstep cmp (kmap i) (wop w) /\ g_nextv (st (S i)) = g_nextv (st i) + 1 /\
        tst (S i) (who i) = Some (mkT (t_calls ts) (WApplied w un rolled) (t_res ts)).
    Proof.
      intros Hi Ht Hpc. destruct (step (st i) (who i)) as [g'|] eqn:St.
      - destruct (tst_step i ts g' Hi Ht St) as (p' & cs' & out & sh & E & Es & Ht').
        destruct (proj2 (edge_log _ _ _ _ _ _ _ _ E) w Hpc) as (K & V & -> & -> & un & rolled & ->).
        exists un, rolled. unfold kmap. rewrite Es. split; [exact K|]. split; [exact V|exact Ht'].
      - exfalso. apply (cstep_none Ht) in St. rewrite Hpc in St. destruct St as [e Ee].
        destruct (at_setting C04_apply_never_panics (st i) (who i) ts w (st_reach i) Ht Hpc)
          as (_ & _ & idx' & un & Ea).
        congruence.
    Qed.

    (* a step of the trace as the write log sees it: nothing is logged and key map and version
       stay, or it is the WLockW step of a writer *)
    Lemma log_step i : (i < NN)%nat ->
      (wev i = [] /\ kmap (S i) = kmap i /\ g_nextv (st (S i)) = g_nextv (st i)) \/
      (exists ts w, tst i (who i) = Some ts /\ t_pc ts = WLockW w /\
         wev i = [mkWl i (who i) (length (t_res ts)) (wop w)] /\
         kmap (S i) = kstep cmp (kmap i) (wop w) /\ g_nextv (st (S i)) = g_nextv (st i) + 1).
    Proof.
      intros Hi. destruct (tst i (who i)) as [ts|] eqn:Ht.
      2:{ left. unfold wev, kmap. rewrite Ht, (st_S_none i Hi (step_needs_thread Ht)).
          repeat split. }
      destruct (wlockw_or_not (t_pc ts)) as [(w & Hpc)|Hpc].
      - right. exists ts, w. destruct (wlockw_step i ts w Hi Ht Hpc) as (un & rolled & K & V & _).
        split; [reflexivity|]. split; [exact Hpc|]. split; [apply wev_at; assumption|].
        split; assumption.
      - left. split; [apply (wev_nil i ts Ht Hpc)|]. unfold kmap.
        destruct (step (st i) (who i)) as [g'|] eqn:St; [|rewrite (st_S_none i Hi St); split; reflexivity].
        destruct (tst_step i ts g' Hi Ht St) as (p' & cs' & out & sh & E & -> & _).
        exact (proj1 (edge_log _ _ _ _ _ _ _ _ E) Hpc).
    Qed.

    (* the key map at every position is the fold of the operations logged so far *)
    Theorem C05_km_is_fold_of_writes n : (n <= NN)%nat ->
      kmap n = fold_left (kstep cmp) (map wl_o (wlog n)) [].
    Proof.
      revert n. apply trace_ind; [reflexivity|]. intros n Hn IH.
      cbn [wlog]. rewrite map_app, fold_left_app, <- IH.
      destruct (log_step n Hn) as [(-> & K & _)|(ts & w & _ & _ & -> & K & _)]; exact K.
    Qed.

    (* the versions handed out are dense and follow the log: the entry at index i of the log was
       written with version i + 1 (g_nextv is bumped by exactly the WLockW steps) *)
    Theorem wlog_versions n : (n <= NN)%nat ->
      g_nextv (st n) = 1 + N.of_nat (length (wlog n)).
    Proof.
      revert n. apply trace_ind; [reflexivity|]. intros n Hn IH.
      cbn [wlog]. rewrite app_length, Nat2N.inj_add, N.add_assoc, <- IH.
      destruct (log_step n Hn) as [(-> & _ & V)|(ts & w & _ & _ & -> & _ & V)]; rewrite V;
        [apply eq_sym, N.add_0_r|reflexivity].
    Qed.

    (* every logged operation was applicable to the key map it met (the hypothesis under which
       the sequential replay of the same operations cannot fail: IndexProofs.op_respects_sizes) *)
    Theorem wlog_respects n : (n <= NN)%nat ->
      ops_resp cmp [] (map wl_o (wlog n)).
    Proof.
      revert n. apply trace_ind; [exact I|]. intros n Hn IH.
      cbn [wlog]. rewrite map_app. apply ops_resp_app. split; [exact IH|].
      rewrite <- (C05_km_is_fold_of_writes n (Nat.lt_le_incl _ _ Hn)).
      destruct (log_step n Hn) as [(-> & _)|(ts & w & Ht & Hpc & -> & _)]; [exact I|].
      split; [|exact I]. cbn [wl_o].
      pose proof (window_respects H cmp bad thr0 cas0 (st n) (who n) ts w (st_inv n) Ht
                    (or_intror (or_intror Hpc))) as R.
      destruct (wop w); [exact R|exact I].
    Qed.

    (* history attached to the pc of a call in progress: call c of thread t (its j-th),
       taken at step s, seen from position m *)

    (* the scan of a removal: what the thread found at its scan step q *)
    Definition rm_scan (q : nat) (c : ccall) (ks : list bytes) (r : cres) : Prop :=
      (exists k, c = KRemove k /\ ks = [k] /\ r = CBool true /\ sm_get cmp (kmap q) k <> None) \/
      (exists lo hi, c = KRemoveRange lo hi /\ ks = keys_in cmp (kmap q) lo hi /\ ks <> [] /\
                     r = CNum (N.of_nat (length ks))).

    Definition scanned (m s : nat) (c : ccall) (t : nat) (ks : list bytes) (r : cres) : Prop :=
      exists q, (s < q < m)%nat /\ own q t c /\ rm_scan q c ks r.
    Definition looked (m s : nat) (c : ccall) (t : nat) (k : bytes) (it : item) : Prop :=
      exists q, (s < q < m)%nat /\ own q t c /\ sm_get cmp (kmap q) k = Some it.
    Definition lin_win (m s : nat) (c : ccall) (t : nat) (r : cres) : Prop :=
      exists q, (s < q <= m)%nat /\ lin_spec c r (kmap q) /\ (observes c = true -> own q t c).
    Definition applied (m s t j : nat) (o : rawop) : Prop :=
      exists p, (s < p < m)%nat /\ In (mkWl p t j o) (wlog m).

    Definition wk_hist (m s : nat) (c : ccall) (t : nat) (w : wkind) : Prop :=
      match w with
      | WPut k h sz => exists x, c = KPut k x /\ h = H x /\ sz = len x
      | WRm ks r => scanned m s c t ks r
      end.

    Definition ck_hist (m s : nat) (c : ccall) (t j : nat) (r : cres) (e : N) : Prop :=
      match e with
      | N0 => c = KCheckpoint
      | Npos _ => writes c r = true /\ exists o, applied m s t j o
      end.

    Definition pc_hist (m s : nat) (c : ccall) (t j : nat) (p : pc) : Prop :=
      match p with
      | Idle => False
      | PReg k x | PILock k x | PRen k x _ => c = KPut k x
      | PDropI k _ _ => exists x, c = KPut k x
      | WLockI w | WLockS w | WLockW w => wk_hist m s c t w
      | WApplied w _ _ | WUnlink w _ _ | WReleased w _ =>
        wk_hist m s c t w /\ applied m s t j (wop w)
      | WCkS r e | WCkW r e => lin_win m s c t r /\ ck_hist m s c t j r e
      | RRead k => c = KRemove k
      | RScanned k => scanned m s c t [k] (CBool true)
      | RRRead lo hi => c = KRemoveRange lo hi
      | RRScanned ks =>
        exists lo hi, c = KRemoveRange lo hi /\
          exists q, (s < q < m)%nat /\ own q t c /\ ks = keys_in cmp (kmap q) lo hi
      | GRead k md => c = rd_call k md
      | GLooked k it md => c = rd_call k md /\ looked m s c t k it
      | GOpen k it md => c = rd_call k md /\ pre_open md it = None /\ looked m s c t k it
      | GReread k it md | GOpenL k it md => c = rd_call k md /\ pre_open md it = None
      | IRead => c = KIter
      | OLockI _ _ _ | ORead _ _ _ _ | OUnlink _ _ _ _ => exists hs, c = KDelOrphans hs
      end.

    Lemma scanned_mono m m' s c t ks r : (m <= m')%nat -> scanned m s c t ks r -> scanned m' s c t ks r.
    Proof. intros L (q & B & R). exists q. split; [exact (win_mono L B)|exact R]. Qed.
    Lemma looked_mono m m' s c t k it : (m <= m')%nat -> looked m s c t k it -> looked m' s c t k it.
    Proof. intros L (q & B & R). exists q. split; [exact (win_mono L B)|exact R]. Qed.
    Lemma lin_win_mono m m' s c t r : (m <= m')%nat -> lin_win m s c t r -> lin_win m' s c t r.
    Proof. intros L (q & B & R). exists q. split; [lia|exact R]. Qed.
    Lemma applied_mono m m' s t j o : (m <= m')%nat -> applied m s t j o -> applied m' s t j o.
    Proof. intros L (p & B & I). exists p. split; [exact (win_mono L B)|exact (wlog_mono _ _ _ L I)]. Qed.
    Lemma wk_hist_mono m m' s c t w : (m <= m')%nat -> wk_hist m s c t w -> wk_hist m' s c t w.
    Proof. intros L. destruct w; cbn [wk_hist]; [auto|]. apply scanned_mono, L. Qed.
    Lemma ck_hist_mono m m' s c t j r e :
      (m <= m')%nat -> ck_hist m s c t j r e -> ck_hist m' s c t j r e.
    Proof.
      intros L. destruct e; cbn [ck_hist]; [auto|]. intros (W & o & A). split; [exact W|].
      exists o. eapply applied_mono; eassumption.
    Qed.

    Lemma pc_hist_mono m m' s c t j p : (m <= m')%nat -> pc_hist m s c t j p -> pc_hist m' s c t j p.
    Proof.
      intros L. destruct p; cbn [pc_hist]; auto;
        try (apply wk_hist_mono, L);
        try (intros [A B]; split;
             [first [eapply wk_hist_mono | eapply lin_win_mono]; eassumption
             |first [eapply applied_mono | eapply ck_hist_mono]; eassumption]);
        try (intros [A B]; split; [exact A|eapply looked_mono; eassumption]);
        try (intros (A & B & C); split; [exact A|split; [exact B|eapply looked_mono; eassumption]]).
      - apply scanned_mono, L.
      - intros (lo & hi & E & q & B & O & K). exists lo, hi. split; [exact E|].
        exists q. split; [exact (win_mono L B)|]. split; assumption.
    Qed.

    (* the result carried by the second half of a write is justified by the scan *)
    Lemma wk_lin m s c t w : (s < m)%nat -> wk_hist m s c t w -> lin_win m s c t (wres w).
    Proof.
      intros L. destruct w as [k h sz|ks r]; cbn [wk_hist wres].
      - intros (x & -> & _ & _). exists m. split; [exact (conj L (le_n m))|].
        split; [apply lin_ok; reflexivity|].
        cbn [observes]. discriminate.
      - intros (q & B & O & [(k & -> & -> & -> & G)|(lo & hi & -> & E & NE & ->)]);
          exists q; (split; [exact (win_close B)|]); (split; [|intros _; exact O]); apply lin_ok;
          cbn [lin_spec0].
        + destruct (sm_get cmp (kmap q) k); [reflexivity|contradiction].
        + rewrite E. reflexivity.
    Qed.

    Lemma wk_writes m s c t w : wk_hist m s c t w -> writes c (wres w) = true.
    Proof.
      destruct w as [k h sz|ks r]; cbn [wk_hist wres].
      - intros (x & -> & _). reflexivity.
      - intros (q & _ & _ & [(k & -> & _ & -> & _)|(lo & hi & -> & _ & NE & ->)]); cbn [writes];
          [reflexivity|].
        destruct ks as [|a l]; [contradiction|]. cbn [length].
        destruct (N.eqb_spec (N.of_nat (S (length l))) 0) as [Z|Z]; [lia|reflexivity].
    Qed.

    (* a call that can fail may return the error at any point of its window *)
    Lemma lin_win_err m s c t r : can_err c = true -> lin_win m s c t r -> lin_win m s c t CErr.
    Proof.
      intros E (q & B & _ & O). exists q. split; [exact B|]. split; [apply lin_err, E|exact O].
    Qed.

    (* what is known when a call taken at step s returns at step n *)
    Definition fin_now (n s : nat) (c : ccall) (t j : nat) (r : cres) : Prop :=
      exists q, (s <= q <= n)%nat /\ (immediate c = false -> (s < q)%nat) /\
        lin_spec c r (kmap q) /\ (observes c = true -> own q t c) /\
        (writes c r = true -> exists p o, (s < p < n)%nat /\ In (mkWl p t j o) (wlog n)).

    Lemma own_now n ts c : (n < NN)%nat -> tst n (who n) = Some ts -> lin_pc c (t_pc ts) ->
      own n (who n) c.
    Proof. intros Hn Ht L. split; [exact Hn|]. split; [reflexivity|]. exists ts. split; assumption. Qed.

    Lemma fin_here n s c ts r : (n < NN)%nat -> (s < n)%nat -> tst n (who n) = Some ts ->
      lin_spec c r (kmap n) -> (observes c = true -> lin_pc c (t_pc ts)) ->
      writes c r = false -> fin_now n s c (who n) (length (t_res ts)) r.
    Proof.
      intros Hn Hs Ht L O W. exists n. split; [exact (win_weak (conj Hs (le_n n)))|].
      split; [intros _; exact Hs|].
      split; [exact L|]. split.
      - intros X. apply (own_now n ts); [exact Hn|exact Ht|exact (O X)].
      - rewrite W. discriminate.
    Qed.

    Lemma fin_win n s c t j r : lin_win n s c t r ->
      (writes c r = true -> exists o, applied n s t j o) -> fin_now n s c t j r.
    Proof.
      intros (q & B & L & O) W. exists q. split; [exact (win_weak B)|]. split; [intros _; apply B|].
      split; [exact L|]. split; [exact O|].
      intros X. destruct (W X) as (o & p & Bp & Ip). exists p, o. split; assumption.
    Qed.

    (* a call that neither observes the key map nor writes, returning in the step that takes it *)
    Lemma fin_immediate n c t j r : immediate c = true -> lin_spec c r (kmap n) ->
      observes c = false -> writes c r = false -> fin_now n n c t j r.
    Proof.
      intros Im L O W. exists n. split; [exact (conj (le_n n) (le_n n))|]. split; [congruence|].
      split; [exact L|].
      split; congruence.
    Qed.

    Lemma fin_orphans n s hs ts d k : (n < NN)%nat -> (s < n)%nat -> tst n (who n) = Some ts ->
      fin_now n s (KDelOrphans hs) (who n) (length (t_res ts)) (COrphans d k).
    Proof.
      intros Hn Hs Ht. apply fin_here; try assumption; [|discriminate|reflexivity].
      apply lin_ok. exists d, k. reflexivity.
    Qed.

    (* a read that has looked the key up returns what the item it found allows *)
    Lemma fin_looked n s k md it t j r : looked n s (rd_call k md) t k it ->
      (forall m, sm_get cmp m k = Some it -> lin_spec (rd_call k md) r m) ->
      fin_now n s (rd_call k md) t j r.
    Proof.
      intros (q & B & O & G) L. exists q. split; [exact (win_weak (win_close B))|].
      split; [intros _; apply B|].
      split; [exact (L _ G)|]. split; [intros _; exact O|]. rewrite writes_rd. discriminate.
    Qed.

    Lemma ck_applied m s c t j r e r0 : ck_hist m s c t j r e -> writes c r0 = true ->
      exists o, applied m s t j o.
    Proof. destruct e; cbn [ck_hist]; [intros -> X; discriminate X|intros [_ B] _; exact B]. Qed.

    Lemma ck_can_err m s c t j r e : ck_hist m s c t j r e -> can_err c = true.
    Proof.
      destruct e; cbn [ck_hist]; [intros ->; reflexivity|intros [W _]; eapply writes_can_err, W].
    Qed.

    (* a step of a call in progress, rule by rule: the history of the pc moves on, or the call
       returns.  Hh' is the history seen from the next position: a rule that parks the thread at a
       pc with the same history needs nothing more *)
    Lemma edge_hist n ts p cs p' cs' out sh s c :
      (n < NN)%nat -> (s < n)%nat -> tst n (who n) = Some ts -> t_pc ts = p ->
      edge (st n) (who n) p cs p' cs' out sh ->
      pc_hist n s c (who n) (length (t_res ts)) p ->
      cs' = cs /\
      match out with
      | Some r => fin_now n s c (who n) (length (t_res ts)) r
      | None => pc_hist (S n) s c (who n) (length (t_res ts)) p'
      end.
    Proof.
      intros Hn Hs Ht Hpc E Hh. pose proof (st_inv n) as I.
      pose proof (pc_hist_mono n (S n) _ _ _ _ _ (Nat.le_succ_diag_r n) Hh) as Hh'.
      pose proof (proj1 (ci_pc _ _ _ _ _ _ I _ _ Ht)) as Pt. rewrite Hpc in Pt.
      assert (On : forall c0, lin_pc c0 p -> own n (who n) c0)
        by (intros c0 L; apply (own_now n ts); [exact Hn|exact Ht|rewrite Hpc; exact L]).
      assert (Fh : forall r, lin_spec c r (km (g_idx (st n))) -> (observes c = true -> lin_pc c p) ->
                     writes c r = false -> fin_now n s c (who n) (length (t_res ts)) r)
        by (intros r L O W; apply fin_here; try assumption; rewrite Hpc; exact O).
      destruct E; [destruct Hh|..]; (split; [reflexivity|]);
        cbn [pc_hist pc_ok] in Hh, Hh', Pt |- *; try exact Hh';
        try (destruct Hh as (hs & ->); apply fin_orphans; assumption).
      - (* E_ren_fail *) eexists. exact Hh.
      - (* E_ren *) eexists. split; [exact Hh|split; reflexivity].
      - (* E_drop *) destruct Hh as (x & ->).
        apply Fh; [apply lin_err; reflexivity|discriminate|reflexivity].
      - (* E_apply: this step logs the entry *) split; [exact Hh'|].
        exists n. split; [exact (win_last Hs)|]. cbn [wlog]. apply in_or_app. right.
        rewrite (wev_at n ts w Ht Hpc). left. reflexivity.
      - (* E_unlink_fail *) destruct Hh as [A B].
        apply fin_win; [|intros _; eexists; exact B].
        eapply lin_win_err; [eapply writes_can_err, wk_writes, A|apply wk_lin; [exact Hs|exact A]].
      - (* E_released_ck *) destruct Hh' as [A B]. split; [apply wk_lin; [exact (Nat.lt_lt_succ_r _ _ Hs)|exact A]|].
        pose proof (wk_writes _ _ _ _ _ A) as W.
        destruct w; cbn [ck_hist ck_who]; (split; [exact W|]); eexists; exact B.
      - (* E_released *) destruct Hh as [A B]. apply fin_win; [apply wk_lin; assumption|].
        intros _. eexists. exact B.
      - (* E_ck_skip *) destruct Hh as [A B]. apply fin_win; [exact A|eapply ck_applied, B].
      - (* E_ck *) destruct Hh as [A B]. apply fin_win; [|eapply ck_applied, B].
        destruct ckbad; [|exact A]. eapply lin_win_err; [eapply ck_can_err, B|exact A].
      - (* E_rread_none *) subst c.
        apply Fh; [apply lin_ok; cbn [lin_spec0]; rewrite Gk|intros _|]; reflexivity.
      - (* E_rread *) subst c. exists n. split; [exact (win_last Hs)|]. split; [apply On; reflexivity|].
        left. exists k. repeat split. unfold kmap. congruence.
      - (* E_rrread *) exists lo, hi. split; [exact Hh|]. exists n. split; [exact (win_last Hs)|].
        split; [apply On; rewrite Hh; reflexivity|reflexivity].
      - (* E_rrscanned_none *) destruct Hh as (lo & hi & -> & q & B & O & K).
        apply fin_win; [|discriminate]. exists q. split; [exact (win_close B)|].
        split; [apply lin_ok; cbn [lin_spec0]; rewrite <- K; reflexivity|intros _; exact O].
      - (* E_rrscanned *) destruct Hh' as (lo & hi & -> & q & B & O & K).
        exists q. split; [exact B|]. split; [exact O|]. right. exists lo, hi.
        repeat split; [exact K|discriminate].
      - (* E_gread_none *) subst c.
        apply Fh; [|intros _; apply lin_pc_gread|apply writes_rd].
        apply lin_ok, rd_spec_lin. unfold rd_spec. rewrite Gk. reflexivity.
      - (* E_gread *) split; [exact Hh|]. exists n. split; [exact (win_last Hs)|].
        split; [apply On; rewrite Hh; apply lin_pc_gread|exact Gk].
      - (* E_glooked_pre *) destruct Hh as [-> L]. apply (fin_looked _ _ _ _ _ _ _ _ L).
        intros m G. apply lin_ok, rd_spec_lin. unfold rd_spec. rewrite G, Po. reflexivity.
      - (* E_glooked *) destruct Hh' as [A L]. repeat split; assumption.
      - (* E_gopen_fail *) destruct Hh as (-> & Pn & L). apply (fin_looked _ _ _ _ _ _ _ _ L).
        intros m _. apply lin_err. eapply can_err_rd; exact Pn.
      - (* E_gopen *) destruct Hh as (-> & Pn & L). apply (fin_looked _ _ _ _ _ _ _ _ L).
        intros m G. apply lin_ok, rd_spec_lin. unfold rd_spec. rewrite G, Pn.
        eexists. split; [reflexivity|]. eapply (open_content H cmp bad thr0 cas0 NoCollideC); eassumption.
      - (* E_gopen_retry *) destruct Hh as (A & Pn & _). split; assumption.
      - (* E_greread_none *) destruct Hh as [-> Pn].
        apply Fh; [|intros _; eapply lin_pc_rd; [exact Pn|right; left; eexists; reflexivity]
                   |apply writes_rd].
        apply lin_ok, rd_spec_lin. unfold rd_spec. rewrite Gk. reflexivity.
      - (* E_greread_pre: the current item answers by itself *) destruct Hh as [-> Pn].
        apply Fh; [|intros _; eapply lin_pc_rd; [exact Pn|right; left; eexists; reflexivity]
                   |apply writes_rd].
        apply lin_ok, rd_spec_lin. unfold rd_spec. rewrite Gk, Po. reflexivity.
      - (* E_greread *) split; [apply Hh|exact Po].
      - (* E_gopenL_fail *) destruct Hh as [-> Pn].
        apply Fh; [|intros _; eapply lin_pc_rd; [exact Pn|right; right; eexists; reflexivity]
                   |apply writes_rd].
        apply lin_err. eapply can_err_rd; exact Pn.
      - (* E_gopenL *) destruct Hh as [-> Pn].
        apply Fh; [|intros _; eapply lin_pc_rd; [exact Pn|right; right; eexists; reflexivity]
                   |apply writes_rd].
        apply lin_ok, rd_spec_lin. unfold rd_spec. rewrite Pt, Pn.
        eexists. split; [reflexivity|].
        eapply (open_content H cmp bad thr0 cas0 NoCollideC); [exact I|eapply km_valid_item; eassumption|exact Gc].
      - (* E_gopenL_missing: the item is the key's current one, so its blob is there *)
        exfalso. destruct (at_cmp (stored_item H) bad thr0 cas0 NoCollideC _ _ _ I Pt) as (x & Gx & _). congruence.
      - (* E_iread *) subst c. apply Fh; [apply lin_ok|intros _|]; reflexivity.
    Qed.

    (* the step that takes a call *)
    Lemma edge_start n t j cs p' cs' out sh : edge (st n) t Idle cs p' cs' out sh ->
      exists c, cs = c :: cs' /\
        match out with
        | Some r => fin_now n n c t j r
        | None => pc_hist (S n) n c t j p'
        end.
    Proof.
      intros E. destruct (edge_idle E eq_refl) as (c & -> & -> & -> & _).
      exists c. split; [reflexivity|].
      destruct c as [k x|k x|k|lo hi|k|k|k a b| | |[|h hs]]; cbn [call_start fst snd pc_hist];
        try reflexivity.
      - (* KAbort *) apply fin_immediate; try reflexivity. apply lin_ok; reflexivity.
      - (* KCheckpoint *) split; [|reflexivity]. exists (S n). split; [exact (conj (le_n _) (le_n _))|].
        split; [apply lin_ok; reflexivity|discriminate].
      - (* KDelOrphans [] *) apply fin_immediate; try reflexivity.
        apply lin_ok. eexists _, _. reflexivity.
      - (* KDelOrphans (_ :: _) *) eexists. reflexivity.
    Qed.

    (* the j-th call of t, which is c, has returned r: its interval, its linearisation step q
       and (for writes) its entry in the log *)
    Definition fin_hist (n t j : nat) (c : ccall) (r : cres) : Prop :=
      exists s e q, starts_at s t j c /\ ends_at e t j r /\ (e < n)%nat /\
        (s <= q <= e)%nat /\ (immediate c = false -> (s < q)%nat) /\
        lin_spec c r (kmap q) /\ (observes c = true -> own q t c) /\
        (writes c r = true -> exists p o, (s < p < e)%nat /\ In (mkWl p t j o) (wlog n)).

    Definition thr_hist (n t : nat) (ts : tstate) : Prop :=
      ((t_pc ts = Idle /\ skipn (length (t_res ts)) (prog t) = t_calls ts) \/
       (exists c s, skipn (length (t_res ts)) (prog t) = c :: t_calls ts /\
                    starts_at s t (length (t_res ts)) c /\ (s < n)%nat /\
                    pc_hist n s c t (length (t_res ts)) (t_pc ts))) /\
      (forall j c r, nth_error (prog t) j = Some c -> nth_error (t_res ts) j = Some r ->
                     fin_hist n t j c r).

    Definition HistInv (n : nat) : Prop := forall t ts, tst n t = Some ts -> thr_hist n t ts.

    Lemma fin_hist_mono n n' t j c r : (n <= n')%nat -> fin_hist n t j c r -> fin_hist n' t j c r.
    Proof.
      intros L (s & e & q & A & B & C & D & E & F & G & K). exists s, e, q.
      do 2 (split; [assumption|]). split; [exact (Nat.lt_le_trans _ _ _ C L)|].
      do 4 (split; [assumption|]).
      intros W. destruct (K W) as (p & o & Bp & Ip). exists p, o. split; [exact Bp|].
      eapply wlog_mono; eassumption.
    Qed.

    Lemma thr_hist_mono n n' t ts : (n <= n')%nat -> thr_hist n t ts -> thr_hist n' t ts.
    Proof.
      intros L [A B]. split.
      - destruct A as [A|(c & s & A1 & A2 & A3 & A4)]; [left; exact A|right].
        exists c, s. split; [exact A1|]. split; [exact A2|]. split; [exact (Nat.lt_le_trans _ _ _ A3 L)|].
        eapply pc_hist_mono; eassumption.
      - intros j c r Hc Hr. eapply fin_hist_mono; [exact L|]. eapply B; eassumption.
    Qed.

    Lemma hist_init : HistInv 0.
    Proof.
      intros t ts Ht. unfold tst in Ht. rewrite st_0 in Ht.
      assert (P : prog t = t_calls ts) by (unfold prog; rewrite Ht; reflexivity).
      cbn [init_c g_thr] in Ht. apply tget_init in Ht. destruct Ht as (cs & _ & ->).
      cbn [t_calls t_res t_pc length] in *. split.
      - left. split; [reflexivity|exact P].
      - intros j c r _ E. destruct j; discriminate E.
    Qed.

    Lemma hist_step_inv n : (n < NN)%nat -> HistInv n -> HistInv (S n).
    Proof.
      intros Hn IH t ts' Ht'.
      destruct (trace_edge n t Hn) as [E|(-> & ts & p' & cs' & out & sh & Ht & E & Ht2)].
      { rewrite E in Ht'. eapply thr_hist_mono; [apply Nat.le_succ_diag_r|apply IH, Ht']. }
      rewrite Ht2 in Ht'. injection Ht' as <-.
      destruct (IH _ _ Ht) as [A B].
      (* the call c the step works on, taken at step s *)
      assert (X : exists c s, skipn (length (t_res ts)) (prog (who n)) = c :: cs' /\
                starts_at s (who n) (length (t_res ts)) c /\ (s <= n)%nat /\
                match out with
                | Some r => fin_now n s c (who n) (length (t_res ts)) r
                | None => pc_hist (S n) s c (who n) (length (t_res ts)) p'
                end).
      { destruct A as [[Hpc Hsk]|(c & s & Hsk & Hst & Hs & Hh)].
        - rewrite Hpc in E. destruct (edge_start n _ (length (t_res ts)) _ _ _ _ _ E) as (c & Hc & Hm).
          exists c, n. rewrite <- Hc. split; [exact Hsk|]. split; [|split; [apply le_n|exact Hm]].
          split; [exact Hn|]. split; [reflexivity|]. exists ts. split; [exact Ht|].
          split; [exact Hpc|]. split; [reflexivity|]. rewrite Hc. reflexivity.
        - destruct (edge_hist n ts _ _ _ _ _ _ s c Hn Hs Ht eq_refl E Hh) as [-> Hm].
          exists c, s. split; [exact Hsk|]. split; [exact Hst|].
          split; [apply Nat.lt_le_incl, Hs|exact Hm]. }
      destruct X as (c & s & Hsk & Hst & Hs & Hm).
      destruct (skipn_cons_nth _ _ _ _ Hsk) as [Hnth Hsk'].
      apply edge_out in E. destruct out as [r|]; cbn [emit] in *.
      - (* the call returns *)
        subst p'. destruct Hm as (q & Bq & Lq & Hl & Ho & Hw). split; cbn [t_pc t_res t_calls].
        + left. split; [reflexivity|]. rewrite app_length, Nat.add_1_r. exact Hsk'.
        + intros j c' r' Hc' Hr'.
          destruct (nth_error_snoc _ _ _ _ Hr') as [[Hr'' _]|[-> ->]].
          { eapply fin_hist_mono; [apply Nat.le_succ_diag_r|eapply B; eassumption]. }
          assert (c' = c) by congruence. subst c'.
          exists s, n, q. split; [exact Hst|]. split.
          { split; [exact Hn|]. split; [reflexivity|]. eexists ts, _.
            split; [exact Ht|]. split; [exact Ht2|]. split; reflexivity. }
          split; [apply Nat.lt_succ_diag_r|]. split; [exact Bq|]. split; [exact Lq|].
          split; [exact Hl|]. split; [exact Ho|].
          intros W. destruct (Hw W) as (p & o & Bp & Ip). exists p, o. split; [exact Bp|].
          eapply wlog_mono; [apply Nat.le_succ_diag_r|exact Ip].
      - (* the call goes on *)
        split; cbn [t_pc t_res t_calls].
        + right. exists c, s. split; [exact Hsk|]. split; [exact Hst|].
          split; [apply Nat.lt_succ_r, Hs|exact Hm].
        + intros j c' r' Hc' Hr'. eapply fin_hist_mono; [apply Nat.le_succ_diag_r|eapply B; eassumption].
    Qed.

    Theorem hist_inv n : (n <= NN)%nat -> HistInv n.
    Proof. revert n. apply trace_ind; [apply hist_init|apply hist_step_inv]. Qed.

    (* each call applies at most one operation: a second measure, 2 * finished calls + 1
       once the operation of the call in progress has been applied *)
    Definition mu2 (ts : tstate) : nat :=
      (2 * length (t_res ts) + (if applied_pc (t_pc ts) then 1 else 0))%nat.
    Definition mu2_at (i t : nat) : nat := match tst i t with Some ts => mu2 ts | None => 0%nat end.

    Lemma mu2_S t i : (i < NN)%nat -> (mu2_at i t <= mu2_at (S i) t)%nat.
    Proof. apply (phase_S applied_pc). intros g u p cs p' cs' sh. apply edge_applied. Qed.

    Lemma mu2_lt t i i' : (i <= NN)%nat -> (mu2_at i t < mu2_at i' t)%nat -> (i < i')%nat.
    Proof. apply (mono_lt NN (fun i => mu2_at i t)), mu2_S. Qed.

    (* an entry of the log records a WLockW step *)
    Lemma wlog_entry_at n e : In e (wlog n) ->
      (wl_p e < n)%nat /\ who (wl_p e) = wl_t e /\
      exists ts w, tst (wl_p e) (wl_t e) = Some ts /\ t_pc ts = WLockW w /\
                   wl_j e = length (t_res ts) /\ wl_o e = wop w.
    Proof.
      intros I. split; [apply wlog_lt, I|]. induction n as [|n IH]; [destruct I|].
      cbn [wlog] in I. apply in_app_or in I. destruct I as [I|I]; [apply IH, I|].
      apply wev_In in I. destruct I as (-> & -> & ts & w & A & B & C & D).
      split; [reflexivity|]. exists ts, w. repeat split; assumption.
    Qed.

    Lemma entry_mu2 n e : (n <= NN)%nat -> In e (wlog n) ->
      mu2_at (wl_p e) (wl_t e) = (2 * wl_j e)%nat /\
      mu2_at (S (wl_p e)) (wl_t e) = (2 * wl_j e + 1)%nat.
    Proof.
      intros Hn I. destruct (wlog_entry_at n e I) as (Hp & Hw & ts & w & Ht & Hpc & Hj & _).
      rewrite <- Hw in *. unfold mu2_at. rewrite Ht.
      destruct (wlockw_step (wl_p e) ts w ltac:(lia) Ht Hpc) as (un & rolled & _ & _ & Ht').
      rewrite Ht'. unfold mu2. cbn [t_pc t_res applied_pc]. rewrite Hpc, Hj. cbn [applied_pc].
      split; [apply Nat.add_0_r|reflexivity].
    Qed.

    (* at most one entry per (thread, call number) *)
    Theorem wlog_key_unique n e1 e2 : (n <= NN)%nat -> In e1 (wlog n) -> In e2 (wlog n) ->
      wl_t e1 = wl_t e2 -> wl_j e1 = wl_j e2 -> e1 = e2.
    Proof.
      intros Hn I1 I2 Et Ej.
      destruct (entry_mu2 n e1 Hn I1) as [A1 B1]. destruct (entry_mu2 n e2 Hn I2) as [A2 B2].
      destruct (wlog_entry_at n e1 I1) as (P1 & W1 & ts1 & w1 & T1 & C1 & J1 & O1).
      destruct (wlog_entry_at n e2 I2) as (P2 & W2 & ts2 & w2 & T2 & C2 & J2 & O2).
      assert (L : wl_p e1 = wl_p e2).
      { pose proof (mu2_lt (wl_t e2) (wl_p e1) (S (wl_p e2))).
        pose proof (mu2_lt (wl_t e2) (wl_p e2) (S (wl_p e1))). rewrite Et in *. lia. }
      rewrite L, Et, T2 in T1. injection T1 as <-. rewrite C2 in C1. injection C1 as <-.
      destruct e1, e2. cbn [wl_p wl_t wl_j wl_o] in *. congruence.
    Qed.

    (* every entry of thread t is for a finished call or for the call in progress, after its
       apply step *)
    Lemma wlog_phase n e ts : (n <= NN)%nat -> In e (wlog n) -> tst n (wl_t e) = Some ts ->
      (2 * wl_j e + 1 <= mu2 ts)%nat.
    Proof.
      intros Hn I Ht. destruct (entry_mu2 n e Hn I) as [_ B].
      pose proof (wlog_lt n e I) as P.
      pose proof (mono_le NN (fun i => mu2_at i (wl_t e)) (mu2_S _) (S (wl_p e)) n P Hn) as M.
      unfold mu2_at in M at 2. rewrite Ht in M. lia.
    Qed.

    (* the existence of a thread is preserved along the trace *)
    Lemma tst_exists t n : (n <= NN)%nat -> tst 0 t <> None -> tst n t <> None.
    Proof.
      intros Hn E. revert n Hn. apply trace_ind; [exact E|]. intros n Hn IH.
      destruct (trace_edge n t Hn) as [->|(_ & ts & p' & cs' & out & sh & _ & _ & ->)];
        [exact IH|discriminate].
    Qed.

    Lemma prog_in t j c : nth_error (prog t) j = Some c ->
      exists cs, In (t, cs) thr0 /\ prog t = cs /\ tst 0 t <> None.
    Proof.
      unfold prog, tst. rewrite st_0. destruct (tget (g_thr g0) t) as [ts|] eqn:Ht.
      - intros _. cbn [init_c g_thr] in Ht. apply tget_init in Ht.
        destruct Ht as (cs & I & ->). exists cs. split; [exact I|]. split; [reflexivity|discriminate].
      - destruct j; discriminate.
    Qed.

    (* every finished call has an interval, a linearisation step inside it whose key map
       justifies the result and, when it writes, an entry in the log inside the interval *)
    Theorem C05_calls_linearizable n t ts j c r : (n <= NN)%nat -> tst n t = Some ts ->
      nth_error (prog t) j = Some c -> nth_error (t_res ts) j = Some r -> fin_hist n t j c r.
    Proof. intros Hn Ht Hc Hr. exact (proj2 (hist_inv n Hn t ts Ht) j c r Hc Hr). Qed.

    (* the same, stated from the end step *)
    Lemma ended_call e t j r c : ends_at e t j r -> nth_error (prog t) j = Some c ->
      fin_hist (S e) t j c r.
    Proof.
      intros (He & Hw & ts & ts' & G1 & G2 & Hj & Hr) Hc.
      apply (C05_calls_linearizable (S e) t ts'); [exact He|exact G2|exact Hc|].
      rewrite Hr, <- Hj, nth_error_app2, Nat.sub_diag by apply le_n. reflexivity.
    Qed.

    (* the value of key k at position i: hash and size of its item *)
    Definition val (i : nat) (k : bytes) : option (bytes * N) :=
      option_map (fun it => (ihash it, isize it)) (sm_get cmp (kmap i) k).

    Definition final_res (t j : nat) (r : cres) : Prop :=
      exists ts, tget (g_thr (run g0 sched)) t = Some ts /\ nth_error (t_res ts) j = Some r.

    Lemma final_fin t j c r : nth_error (prog t) j = Some c -> final_res t j r ->
      fin_hist NN t j c r.
    Proof.
      intros Hc (ts & Ht & Hr). rewrite <- st_final in Ht.
      eapply C05_calls_linearizable; [apply le_n|exact Ht|exact Hc|exact Hr].
    Qed.

    (* without faults no result is the I/O error *)
    Lemma final_res_no_err t j r : (forall h, bad h = false) -> ckbad = false ->
      final_res t j r -> r <> CErr.
    Proof.
      intros NB NC (ts & Ht & Hr) ->. apply nth_error_In in Hr. revert Hr.
      apply (at_setting no_faults_no_errors _ NB NC (st_reach NN) t ts).
      rewrite st_final. exact Ht.
    Qed.

    (* a finished call that observes the key map: its interval and, strictly inside it and not
       after its return, a step q of the thread itself whose key map justifies the result *)
    Lemma observed_call t j c r :
      nth_error (prog t) j = Some c -> final_res t j r -> observes c = true ->
      (can_err c = true -> r <> CErr) ->
      exists s e q, starts_at s t j c /\ ends_at e t j r /\ (s < q <= e)%nat /\ own q t c /\
                    lin_spec0 c r (kmap q).
    Proof.
      intros Hc Hf Ob NE.
      destruct (final_fin _ _ _ _ Hc Hf) as (s & e & q & A & B & _ & D & E & F & G & _).
      exists s, e, q. split; [exact A|]. split; [exact B|]. split; [|split; [exact (G Ob)|]].
      - assert (Im : immediate c = false) by (destruct c; try discriminate Ob; reflexivity).
        exact (conj (E Im) (proj2 D)).
      - destruct F as [[Ce ->]|F]; [destruct (NE Ce eq_refl)|exact F].
    Qed.

    (* the three reads at once.  The blob named by the item the key held at q is stored at q
       ([stored_item]), so the content the result was cut from is that blob *)
    Lemma rd_linearizable md t j k r :
      nth_error (prog t) j = Some (rd_call k md) -> final_res t j r ->
      (can_err (rd_call k md) = true -> r <> CErr) ->
      exists s e q, starts_at s t j (rd_call k md) /\ ends_at e t j r /\ (s < q <= e)%nat /\
        own q t (rd_call k md) /\
        ((r = absent_result md /\ val q k = None) \/
         (exists x, val q k = Some (H x, len x) /\
                    sm_get lex_cmp (g_cas (st q)) (H x) = Some x /\
                    r = match pre_open md (mkItem (H x) (len x)) with
                        | Some r' => r'
                        | None => read_result md (mkItem (H x) (len x)) x
                        end)).
    Proof.
      intros Hc Hf NE.
      destruct (observed_call _ _ _ _ Hc Hf (observes_rd k md) NE) as (s & e & q & A & B & C & D & F).
      exists s, e, q. do 4 (split; [assumption|]).
      apply rd_spec_lin in F. unfold rd_spec in F. unfold val.
      destruct (sm_get cmp (kmap q) k) as [it|] eqn:Gk; [right|left; split; [exact F|reflexivity]].
      destruct (at_cmp (stored_item H) bad thr0 cas0 NoCollideC _ _ _ (st_inv q) Gk) as (x & Gc & -> & U).
      cbn [ihash] in *.
      exists x. split; [reflexivity|]. split; [exact Gc|].
      destruct (pre_open md (mkItem (H x) (len x))); [exact F|].
      destruct F as (x' & -> & Ix' & Hh' & _). rewrite (U x' Ix' Hh'). reflexivity.
    Qed.

    (* a get returns 'absent' or the complete content that the key held at some position q
       strictly after the call was taken and not after its return; q is the thread's own
       last lookup step *)
    Theorem C05_read_linearizable t j k r :
      nth_error (prog t) j = Some (KGet k) -> final_res t j r -> r <> CErr ->
      exists s e q, starts_at s t j (KGet k) /\ ends_at e t j r /\ (s < q <= e)%nat /\
        own q t (KGet k) /\
        exists o, r = CBytes o /\ val q k = option_map (fun x => (H x, len x)) o /\
                  (forall x, o = Some x -> sm_get lex_cmp (g_cas (st q)) (H x) = Some x).
    Proof.
      intros Hc Hf NE.
      destruct (rd_linearizable MFull t j k r Hc Hf (fun _ => NE)) as (s & e & q & A & B & C & D & F).
      exists s, e, q. do 4 (split; [assumption|]).
      destruct F as [[-> V]|(x & V & Gc & ->)]; [exists None|exists (Some x)];
        (split; [reflexivity|]); (split; [exact V|]); intros x' Ex; [discriminate|].
      injection Ex as <-. exact Gc.
    Qed.

    (* the same, in the two-case form *)
    Corollary C05_read_linearizable_cases t j k r :
      nth_error (prog t) j = Some (KGet k) -> final_res t j r -> r <> CErr ->
      exists s e q, starts_at s t j (KGet k) /\ ends_at e t j r /\ (s < q <= e)%nat /\
        ((r = CBytes None /\ sm_get cmp (kmap q) k = None) \/
         (exists x it, r = CBytes (Some x) /\ sm_get cmp (kmap q) k = Some it /\
                       H x = ihash it /\ len x = isize it)).
    Proof.
      intros Hc Hf NE.
      destruct (observed_call _ _ _ _ Hc Hf eq_refl (fun _ => NE)) as (s & e & q & A & B & C & _ & F).
      exists s, e, q. do 3 (split; [assumption|]).
      cbn [lin_spec0] in F. destruct (sm_get cmp (kmap q) k) as [it|].
      - right. destruct F as (x & -> & _ & Hh & Hl). exists x, it. repeat split; assumption.
      - left. split; [exact F|reflexivity].
    Qed.

    Theorem C05_get_size_linearizable t j k r :
      nth_error (prog t) j = Some (KGetSize k) -> final_res t j r ->
      exists s e q, starts_at s t j (KGetSize k) /\ ends_at e t j r /\ (s < q <= e)%nat /\
        own q t (KGetSize k) /\ r = CSize (option_map snd (val q k)).
    Proof.
      intros Hc Hf.
      destruct (rd_linearizable MSize t j k r Hc Hf ltac:(discriminate)) as (s & e & q & A & B & C & D & F).
      exists s, e, q. do 4 (split; [assumption|]).
      destruct F as [[-> ->]|(x & -> & _ & ->)]; reflexivity.
    Qed.

    (* C05_read_linearizable in terms of the programs thr0 and of the final state *)
    Corollary C05_read_linearizable_thr0 t cs ts j k r :
      In (t, cs) thr0 -> nth_error cs j = Some (KGet k) ->
      tget (g_thr (run g0 sched)) t = Some ts -> nth_error (t_res ts) j = Some r -> r <> CErr ->
      exists s e q, starts_at s t j (KGet k) /\ ends_at e t j r /\ (s < q <= e)%nat /\
        ((r = CBytes None /\ val q k = None) \/
         (exists x, r = CBytes (Some x) /\ val q k = Some (H x, len x) /\
                    sm_get lex_cmp (g_cas (st q)) (H x) = Some x)).
    Proof.
      intros I Hc Ht Hr NE. rewrite <- (prog_thr0 t cs I) in Hc.
      destruct (rd_linearizable MFull t j k r Hc (ex_intro _ ts (conj Ht Hr)) (fun _ => NE))
        as (s & e & q & A & B & C & _ & F).
      exists s, e, q. do 3 (split; [assumption|]).
      destruct F as [F|(x & V & Gc & ->)]; [left; exact F|right].
      exists x. repeat split; assumption.
    Qed.

    (* a finished get_range(k, a, b) returns 'absent' or exactly what the
       sequential get_range computes from the item (H x, len x) that the key held at position q
       and from the blob x stored under that hash at position q: the answers decided from the
       item alone (empty range / InvalidRange: [pre_open]), else the bytes [a, min b (len x)) of
       x.  q is a step of the thread itself (its lookup, or the lookup / open of its retry),
       strictly after the call was taken and not after its return: never a mixture of two
       values, and never a range clamped with the size of one value and cut from another *)
    Theorem C05_range_read_linearizable t j k a b r :
      nth_error (prog t) j = Some (KGetRange k a b) -> final_res t j r -> r <> CErr ->
      exists s e q, starts_at s t j (KGetRange k a b) /\ ends_at e t j r /\ (s < q <= e)%nat /\
        own q t (KGetRange k a b) /\
        ((r = CBytes None /\ val q k = None) \/
         (exists x, val q k = Some (H x, len x) /\
                    sm_get lex_cmp (g_cas (st q)) (H x) = Some x /\
                    r = match pre_open (MRange a b) (mkItem (H x) (len x)) with
                        | Some r' => r'
                        | None => CBytes (Some (slice x a (N.min b (len x))))
                        end)).
    Proof. intros Hc Hf NE. exact (rd_linearizable (MRange a b) t j k r Hc Hf (fun _ => NE)). Qed.

    Corollary C05_range_read_linearizable_thr0 t cs ts j k a b r :
      In (t, cs) thr0 -> nth_error cs j = Some (KGetRange k a b) ->
      tget (g_thr (run g0 sched)) t = Some ts -> nth_error (t_res ts) j = Some r -> r <> CErr ->
      exists s e q, starts_at s t j (KGetRange k a b) /\ ends_at e t j r /\ (s < q <= e)%nat /\
        ((r = CBytes None /\ val q k = None) \/
         (exists x, val q k = Some (H x, len x) /\
                    sm_get lex_cmp (g_cas (st q)) (H x) = Some x /\
                    r = match pre_open (MRange a b) (mkItem (H x) (len x)) with
                        | Some r' => r'
                        | None => CBytes (Some (slice x a (N.min b (len x))))
                        end)).
    Proof.
      intros I Hc Ht Hr NE. rewrite <- (prog_thr0 t cs I) in Hc.
      destruct (C05_range_read_linearizable t j k a b r Hc (ex_intro _ ts (conj Ht Hr)) NE)
        as (s & e & q & A & B & C & _ & K).
      exists s, e, q. split; [exact A|]. split; [exact B|]. split; [exact C|exact K].
    Qed.

    (* iteration returns the key list of ONE position q (a snapshot): the thread's own IRead
       step, strictly after the call was taken and not after its return *)
    Theorem C05_iteration_is_a_snapshot t j r :
      nth_error (prog t) j = Some KIter -> final_res t j r ->
      exists s e q, starts_at s t j KIter /\ ends_at e t j r /\ (s < q <= e)%nat /\
        own q t KIter /\ r = CKeys (map fst (kmap q)).
    Proof. intros Hc Hf. exact (observed_call _ _ _ _ Hc Hf eq_refl ltac:(discriminate)). Qed.

    Corollary C05_iteration_is_a_snapshot_thr0 t cs ts j r :
      In (t, cs) thr0 -> nth_error cs j = Some KIter ->
      tget (g_thr (run g0 sched)) t = Some ts -> nth_error (t_res ts) j = Some r ->
      exists s e q, starts_at s t j KIter /\ ends_at e t j r /\ (s < q <= e)%nat /\
        r = CKeys (map fst (kmap q)).
    Proof.
      intros I Hc Ht Hr. rewrite <- (prog_thr0 t cs I) in Hc.
      destruct (C05_iteration_is_a_snapshot t j r Hc (ex_intro _ ts (conj Ht Hr)))
        as (s & e & q & A & B & C & _ & K).
      exists s, e, q. split; [exact A|]. split; [exact B|]. split; [exact C|exact K].
    Qed.

    (* remove reports the presence of the key as of its own scan step (parked at RRead) *)
    Theorem C05_remove_linearizable t j k r :
      nth_error (prog t) j = Some (KRemove k) -> final_res t j r -> r <> CErr ->
      exists s e q, starts_at s t j (KRemove k) /\ ends_at e t j r /\ (s < q <= e)%nat /\
        own q t (KRemove k) /\
        r = CBool (match val q k with Some _ => true | None => false end).
    Proof.
      intros Hc Hf NE.
      destruct (observed_call _ _ _ _ Hc Hf eq_refl (fun _ => NE)) as (s & e & q & A & B & C & D & F).
      exists s, e, q. do 4 (split; [assumption|]).
      cbn [lin_spec0] in F. rewrite F. unfold val. destruct (sm_get cmp (kmap q) k); reflexivity.
    Qed.

    (* remove_range reports the number of keys in range as of its own scan step (RRRead) *)
    Theorem C05_remove_range_linearizable t j lo hi r :
      nth_error (prog t) j = Some (KRemoveRange lo hi) -> final_res t j r -> r <> CErr ->
      exists s e q, starts_at s t j (KRemoveRange lo hi) /\ ends_at e t j r /\ (s < q <= e)%nat /\
        own q t (KRemoveRange lo hi) /\
        r = CNum (N.of_nat (length (keys_in cmp (kmap q) lo hi))).
    Proof. intros Hc Hf NE. exact (observed_call _ _ _ _ Hc Hf eq_refl (fun _ => NE)). Qed.

    (* operation o is the write of call c (taken at step s) applied at step p *)
    Definition op_of_call (s p t : nat) (c : ccall) (o : rawop) : Prop :=
      match o with
      | RPut k h sz => exists x, c = KPut k x /\ h = H x /\ sz = len x
      | RRemove ks => exists q r, (s < q < p)%nat /\ own q t c /\ rm_scan q c ks r
      end.

    Lemma wk_op p s c t w : wk_hist p s c t w -> op_of_call s p t c (wop w).
    Proof.
      destruct w as [k h sz|ks r]; cbn [wk_hist wop op_of_call]; [auto|].
      intros (q & B & O & R). exists q, r. split; [exact B|split; [exact O|exact R]].
    Qed.

    (* a call that returns from beyond its apply step reports a write, or fails *)
    Lemma applied_return g t p cs p' cs' r sh m s c j : edge g t p cs p' cs' (Some r) sh ->
      applied_pc p = true -> pc_hist m s c t j p -> may_write c r.
    Proof.
      intros E. remember (Some r) as out eqn:Eo.
      destruct E; cbn [applied_pc pc_hist]; intros X Hh; try discriminate X; try discriminate Eo;
        injection Eo as <-.
      - (* E_unlink_fail *) right. reflexivity.
      - (* E_released *) left. eapply wk_writes, Hh.
      - (* E_ck_skip *) destruct e; [discriminate X|]. left. apply Hh.
      - (* E_ck *) destruct ckbad; [right; reflexivity|].
        destruct e; [discriminate X|]. left. apply Hh.
    Qed.

    (* every entry of the log is the write of a call, applied after the call was taken and
       before it returns; the call reports a write *)
    Theorem wlog_entry_call n e : (n <= NN)%nat -> In e (wlog n) ->
      exists c s, nth_error (prog (wl_t e)) (wl_j e) = Some c /\
        starts_at s (wl_t e) (wl_j e) c /\ (s < wl_p e)%nat /\
        op_of_call s (wl_p e) (wl_t e) c (wl_o e) /\
        (forall e' r, ends_at e' (wl_t e) (wl_j e) r -> (wl_p e < e')%nat /\ may_write c r).
    Proof.
      intros Hn I. destruct (wlog_entry_at n e I) as (Hp & Hw & ts & w & Ht & Hpc & Hj & Ho).
      destruct (entry_mu2 n e Hn I) as [_ M2].
      pose proof (Nat.lt_le_trans _ _ _ Hp Hn) as HpN.
      destruct (proj1 (hist_inv (wl_p e) (Nat.lt_le_incl _ _ HpN) _ _ Ht))
        as [[X _]|(c & s & Hsk & Hst & Hs & Hh)]; [rewrite Hpc in X; discriminate|].
      rewrite Hpc in Hh. cbn [pc_hist] in Hh. rewrite <- Hj in *.
      destruct (skipn_cons_nth _ _ _ _ Hsk) as [Hnth _].
      exists c, s. split; [exact Hnth|]. split; [exact Hst|]. split; [exact Hs|].
      split; [rewrite Ho; apply wk_op, Hh|].
      intros e' r (He' & Hw' & tse & tse' & G1 & G2 & L1 & R1).
      (* the end step takes mu2 beyond the 2j+1 to which the apply step has raised it *)
      assert (Lp : (wl_p e < e')%nat).
      { apply Nat.succ_lt_mono, (mu2_lt (wl_t e)); [exact HpN|]. rewrite M2.
        unfold mu2_at. rewrite G2. unfold mu2. rewrite R1, <- L1. apply (phase_emit true). }
      split; [exact Lp|].
      (* at the end step the thread is past its apply step *)
      pose proof (mono_le NN (fun i => mu2_at i (wl_t e)) (mu2_S _) (S (wl_p e)) e' Lp
                    (Nat.lt_le_incl _ _ He')) as M.
      unfold mu2_at in M at 2. rewrite G1, M2, <- L1 in M. apply phase_true in M.
      assert (Lr : length (t_res tse') = S (length (t_res tse)))
        by (rewrite R1, app_length, Nat.add_1_r; reflexivity).
      destruct (trace_edge e' (wl_t e) He') as [X|(_ & ts2 & p' & cs' & out & sh & Ht2 & Ed & Ht2')].
      { rewrite X, G1 in G2. injection G2 as <-. destruct (Nat.neq_succ_diag_r _ Lr). }
      rewrite G1 in Ht2. injection Ht2 as <-. rewrite G2 in Ht2'. injection Ht2' as ->.
      cbn [t_res] in R1, Lr.
      destruct out as [r2|]; cbn [emit] in R1, Lr; [|destruct (Nat.neq_succ_diag_r _ Lr)].
      apply app_inv_head in R1. injection R1 as ->.
      destruct (proj1 (hist_inv e' (Nat.lt_le_incl _ _ He') _ _ G1))
        as [[X _]|(c2 & s2 & Hsk2 & _ & _ & Hh2)]; [rewrite X in M; discriminate|].
      rewrite L1 in Hsk2. destruct (skipn_cons_nth _ _ _ _ Hsk2) as [Hnth2 _].
      assert (c2 = c) by congruence. subst c2.
      exact (applied_return _ _ _ _ _ _ _ _ _ _ _ _ Ed M Hh2).
    Qed.

    (* real time: if the call of e1 returned before the call of e2 was taken, e1 precedes e2 *)
    Theorem C05_write_order_respects_real_time n e1 e2 eA rA sB cB :
      (n <= NN)%nat -> In e1 (wlog n) -> In e2 (wlog n) ->
      ends_at eA (wl_t e1) (wl_j e1) rA -> starts_at sB (wl_t e2) (wl_j e2) cB ->
      (eA < sB)%nat -> (wl_p e1 < wl_p e2)%nat.
    Proof.
      intros Hn I1 I2 EA SB L.
      destruct (wlog_entry_call n e1 Hn I1) as (c1 & s1 & _ & _ & _ & _ & K1).
      destruct (wlog_entry_call n e2 Hn I2) as (c2 & s2 & _ & S2 & L2 & _).
      destruct (K1 _ _ EA) as [L1 _].
      destruct (starts_at_unique _ _ _ _ _ _ SB S2) as [-> _].
      exact (Nat.lt_trans _ _ _ L1 (Nat.lt_trans _ _ _ L L2)).
    Qed.

    (* when every thread has finished, every call has returned *)
    Lemma all_finished_res t j c : all_finished (run g0 sched) = true ->
      nth_error (prog t) j = Some c -> exists r, final_res t j r.
    Proof.
      intros AF Hc. destruct (prog_in t j c Hc) as (cs & _ & _ & Ex).
      apply (tst_exists t NN (le_n _)) in Ex. destruct (tst NN t) as [ts|] eqn:Ht; [|contradiction].
      pose proof Ht as Ht0. unfold tst in Ht0. rewrite st_final in Ht0.
      destruct (all_finished_In _ _ _ AF (tget_In _ _ _ Ht0)) as [Hpc Hcs].
      destruct (proj1 (hist_inv NN (le_n _) _ _ Ht)) as [[_ Hsk]|(c2 & s2 & _ & _ & _ & Hh)];
        [|rewrite Hpc in Hh; destruct Hh].
      destruct (nth_error (t_res ts) j) as [r|] eqn:Hr; [exists r, ts; split; assumption|].
      (* no call is left, so the j-th has returned *)
      apply nth_error_None in Hr.
      assert (Lj : (j < length (prog t))%nat) by (apply nth_error_Some; congruence).
      pose proof (skipn_length (length (t_res ts)) (prog t)) as SL.
      rewrite Hsk, Hcs in SL. cbn [length] in SL. lia.
    Qed.

    (* after a complete run the key map is the fold, over the write log, of the
       operations of the calls; the log is ordered by the WLockW steps, each of which lies
       strictly inside the interval of its call (so the order respects real time); each call
       that reports a write has exactly one entry, and the others have none *)
    Theorem C05_final_is_linearization : all_finished (run g0 sched) = true ->
      let ws := wlog NN in
      km (g_idx (run g0 sched)) = fold_left (kstep cmp) (map wl_o ws) [] /\
      StronglySorted lt (map wl_p ws) /\
      (forall e, In e ws ->
         exists c s e' r, nth_error (prog (wl_t e)) (wl_j e) = Some c /\
           starts_at s (wl_t e) (wl_j e) c /\ ends_at e' (wl_t e) (wl_j e) r /\
           (s < wl_p e < e')%nat /\ may_write c r /\
           op_of_call s (wl_p e) (wl_t e) c (wl_o e)) /\
      (forall t j c r, nth_error (prog t) j = Some c -> final_res t j r -> writes c r = true ->
         exists e, In e ws /\ wl_t e = t /\ wl_j e = j) /\
      (forall e1 e2, In e1 ws -> In e2 ws -> wl_t e1 = wl_t e2 -> wl_j e1 = wl_j e2 -> e1 = e2).
    Proof.
      intros AF ws. split; [|split; [|split; [|split]]].
      - rewrite <- st_final. apply (C05_km_is_fold_of_writes NN (le_n _)).
      - apply wlog_sorted.
      - intros e I. destruct (wlog_entry_call NN e (le_n _) I) as (c & s & Hc & Hs & Ls & Ho & K).
        destruct (all_finished_res _ _ _ AF Hc) as (r & Hf).
        destruct (final_fin _ _ _ _ Hc Hf) as (s' & e' & _ & _ & B & _).
        destruct (K _ _ B) as [Lp W]. exists c, s, e', r.
        split; [exact Hc|]. split; [exact Hs|]. split; [exact B|]. split; [lia|].
        split; [exact W|exact Ho].
      - intros t j c r Hc Hf W.
        destruct (final_fin _ _ _ _ Hc Hf) as (s & e & q & _ & _ & _ & _ & _ & _ & _ & K).
        destruct (K W) as (p & o & _ & I). exists (mkWl p t j o).
        split; [exact I|split; reflexivity].
      - intros e1 e2. apply wlog_key_unique. apply le_n.
    Qed.

    (* a put that has returned is seen by every later read *)

    (* once a put of k is in the log, k holds its item unless a later entry writes k *)
    Lemma put_in_log n e k h sz : (n <= NN)%nat -> In e (wlog n) -> wl_o e = RPut k h sz ->
      sm_get cmp (kmap n) k = Some (mkItem h sz) \/
      exists e', In e' (wlog n) /\ (wl_p e < wl_p e')%nat /\ touches (wl_o e') k.
    Proof.
      revert n. refine (trace_ind _ _ _); [intros []|]. intros n Hn IH I Ho.
      assert (S : sorted cmp (kmap n)) by apply (ci_idx _ _ _ _ _ _ (st_inv n)).
      cbn [wlog] in *.
      destruct (log_step n Hn) as [(Ev & K & _)|(ts & w & _ & _ & Ev & K & _)];
        rewrite Ev in *; rewrite K.
      - rewrite app_nil_r in *. exact (IH I Ho).
      - apply in_app_or in I. destruct I as [I|[<-|[]]].
        + (* an older entry: the operation of this step overwrites k, or leaves it alone *)
          destruct (touches_dec (wop w) k) as [T|T].
          * right. eexists. split; [apply in_elt|].
            split; [apply (wlog_lt n e I)|exact T].
          * rewrite (kstep_untouched _ _ _ S T).
            destruct (IH I Ho) as [G|(e' & I' & L & T')]; [left; exact G|right].
            exists e'. split; [apply in_or_app; left; exact I'|]. split; assumption.
        + left. cbn [wl_o] in Ho. rewrite Ho. apply (at_cmp get_ins_same).
    Qed.

    (* a put that has returned without error has its entry in the log, between its start and
       its end steps *)
    Lemma put_entry t j k x e rp :
      nth_error (prog t) j = Some (KPut k x) -> ends_at e t j rp -> rp <> CErr ->
      exists s p, starts_at s t j (KPut k x) /\ (s < p < e)%nat /\
        In (mkWl p t j (RPut k (H x) (len x))) (wlog e).
    Proof.
      intros Hc He NEp.
      assert (Wp : writes (KPut k x) rp = true)
        by (cbn [writes]; rewrite (is_err_false _ NEp); reflexivity).
      destruct (ended_call _ _ _ _ _ He Hc) as (s0 & e0 & _ & A0 & B0 & _ & _ & _ & _ & _ & K0).
      destruct (ends_at_unique _ _ _ _ _ _ B0 He) as [-> _].
      destruct (K0 Wp) as (p & o & Bp & Ip).
      destruct (wlog_entry_call (S e) _ (proj1 He) Ip) as (c' & s' & Hc' & _ & _ & Ho & _).
      apply (wlog_cut e (S e)) in Ip; [|apply Nat.le_succ_diag_r|apply Bp].
      cbn [wl_t wl_j wl_o wl_p] in *. rewrite Hc in Hc'. injection Hc' as <-.
      exists s0, p. split; [exact A0|]. split; [exact Bp|].
      destruct o as [k' h sz|ks]; cbn [op_of_call] in Ho.
      - destruct Ho as (x' & Ex & -> & ->). injection Ex as -> ->. exact Ip.
      - destruct Ho as (q & r & _ & _ & [(k' & X & _)|(lo & hi & X & _)]); discriminate X.
    Qed.

    Theorem C05_put_visible t j k x e rp u ju s ru :
      nth_error (prog t) j = Some (KPut k x) -> ends_at e t j rp -> rp <> CErr ->
      nth_error (prog u) ju = Some (KGet k) -> starts_at s u ju (KGet k) -> (e < s)%nat ->
      final_res u ju ru -> ru <> CErr ->
      exists p q eu, (p < e)%nat /\ ends_at eu u ju ru /\ (s < q <= eu)%nat /\
        In (mkWl p t j (RPut k (H x) (len x))) (wlog q) /\
        (ru = CBytes (Some x) \/
         exists e', In e' (wlog q) /\ (p < wl_p e')%nat /\ touches (wl_o e') k).
    Proof.
      intros Hc He NEp Hcu Hsu L Hf NEu.
      destruct (put_entry _ _ _ _ _ _ Hc He NEp) as (s0 & p & _ & Bp & Ip).
      destruct (observed_call _ _ _ _ Hcu Hf eq_refl (fun _ => NEu))
        as (s1 & e1 & q & A1 & B1 & C1 & _ & F1).
      destruct (starts_at_unique _ _ _ _ _ _ A1 Hsu) as [-> _].
      assert (Hq : (q <= NN)%nat)
        by exact (Nat.le_trans _ _ _ (proj2 C1) (Nat.lt_le_incl _ _ (proj1 B1))).
      apply (wlog_mono e q) in Ip; [|exact (Nat.lt_le_incl _ _ (Nat.lt_trans _ _ _ L (proj1 C1)))].
      exists p, q, e1. split; [apply Bp|]. split; [exact B1|]. split; [exact C1|]. split; [exact Ip|].
      destruct (put_in_log q _ k (H x) (len x) Hq Ip eq_refl) as [G|K]; [left|right; exact K].
      cbn [lin_spec0] in F1. rewrite G in F1. cbn [ihash isize] in F1.
      destruct F1 as (x' & -> & Ix' & Hh & _).
      destruct (prog_in _ _ _ Hc) as (cs & Ics & Ep & _).
      assert (Ix : In x (allc thr0 cas0)).
      { unfold allc. apply in_or_app. left. eapply contents_in; [exact Ics|].
        rewrite <- Ep. eapply nth_error_In. exact Hc. }
      rewrite (NoCollideC x' x Ix' Ix Hh). reflexivity.
    Qed.

    (* the weaker form of C05_put_visible, at the return of the put itself: at position e (the put's end
       step) the key holds the item of x, unless an entry applied after the put's own WLockW
       step p (and before e) has replaced or removed it *)
    Theorem C05_put_applied_at_return t j k x e rp :
      nth_error (prog t) j = Some (KPut k x) -> ends_at e t j rp -> rp <> CErr ->
      exists s p, starts_at s t j (KPut k x) /\ (s < p < e)%nat /\
        In (mkWl p t j (RPut k (H x) (len x))) (wlog e) /\
        (sm_get cmp (kmap e) k = Some (mkItem (H x) (len x)) \/
         exists e', In e' (wlog e) /\ (p < wl_p e')%nat /\ touches (wl_o e') k).
    Proof.
      intros Hc He NEp.
      destruct (put_entry _ _ _ _ _ _ Hc He NEp) as (s & p & A & Bp & Ip).
      exists s, p. split; [exact A|]. split; [exact Bp|]. split; [exact Ip|].
      exact (put_in_log e _ k (H x) (len x) (Nat.lt_le_incl _ _ (proj1 He)) Ip eq_refl).
    Qed.

  End Trace.
End Lin.

Arguments edge_applied {H cmp nops bad ckbad g t p cs p' cs' sh}.

Print Assumptions ctrace_nth.
Print Assumptions starts_at_unique.
Print Assumptions ends_at_unique.
Print Assumptions hist_inv.
Print Assumptions C05_calls_linearizable.
Print Assumptions C05_read_linearizable.
Print Assumptions C05_read_linearizable_cases.
Print Assumptions C05_read_linearizable_thr0.
Print Assumptions C05_get_size_linearizable.
Print Assumptions C05_range_read_linearizable.
Print Assumptions C05_range_read_linearizable_thr0.
Print Assumptions C05_iteration_is_a_snapshot.
Print Assumptions C05_iteration_is_a_snapshot_thr0.
Print Assumptions C05_remove_linearizable.
Print Assumptions C05_remove_range_linearizable.
Print Assumptions C05_km_is_fold_of_writes.
Print Assumptions wlog_key_unique.
Print Assumptions wlog_entry_call.
Print Assumptions C05_write_order_respects_real_time.
Print Assumptions C05_final_is_linearization.
Print Assumptions C05_put_visible.
Print Assumptions C05_put_applied_at_return.

(* the answer of C05_range_read_linearizable is the answer of the sequential model of get_range
   (theories/Range.v: CasInner::get_range + read_blob_range with its read_at loop, for every
   short-read behaviour [chunk] of the kernel) on the blob x with recorded size len x *)
Definition cres_of_rres (r : rres) : cres :=
  match r with RBytes b => CBytes (Some b) | RInvalidRange => CInvalid end.

Lemma range_answer_is_get_range (chunk : N -> N -> N) (h x : bytes) (a b : N) :
  match pre_open (MRange a b) (mkItem h (len x)) with
  | Some r' => r'
  | None => CBytes (Some (slice x a (N.min b (len x))))
  end = cres_of_rres (fst (get_range chunk (len x) x a b)).
Proof.
  cbn [pre_open isize]. unfold get_range.
  destruct (len x <=? a) eqn:E1; [reflexivity|]. apply N.leb_gt in E1.
  destruct (N.ltb_spec (N.min b (len x)) a) as [L|L].
  - rewrite read_blob_range_invalid by exact L. reflexivity.
  - rewrite read_blob_range_ok by exact L. cbn [fst cres_of_rres].
    rewrite slice_inside; [reflexivity|exact L|apply N.le_min_r].
Qed.
Print Assumptions range_answer_is_get_range.

(* a reader racing an overwriting writer, by computation (toyH, lex_cmp) *)

Definition progR : list (nat * list ccall) :=
  [(1%nat, [KPut [1] [10]; KPut [1] [20; 21]]); (2%nat, [KGet [1]])].

Lemma progR_nodup : NoDup (map fst progR).
Proof. cbn. repeat constructor; cbn; intuition discriminate. Qed.

Lemma progR_nocollide :
  forall a b, In a (allc progR []) -> In b (allc progR []) -> toyH a = toyH b -> a = b.
Proof. apply nocollide_list_sound. vm_compute. reflexivity. Qed.

(* schedule 1: the first put completes (steps 0..8); the reader takes its call (step 9) and
   looks the key up (step 10: it sees the item of [10]); the writer overwrites the key and
   unlinks the old blob (steps 11..20); the reader fails to open the old blob (21, 22),
   looks the key up again under the state lock (23) and opens the new blob (24) *)
Definition schedR1 : list nat :=
  repeat 1%nat 9 ++ [2; 2]%nat ++ repeat 1%nat 10 ++ [2; 2; 2; 2]%nat.

(* schedule 2: as before up to the lookup (step 10); the writer runs up to and including its
   WLockW step (11..17: the key now holds [20; 21]); the reader opens the OLD blob, which is
   still there (18, 19); the writer unlinks it and returns (20..22) *)
Definition schedR2 : list nat :=
  repeat 1%nat 9 ++ [2; 2]%nat ++ repeat 1%nat 7 ++ [2; 2]%nat ++ repeat 1%nat 3.

Notation stR := (st toyH lex_cmp 100 nobad false progR []).
Notation tstR := (tst toyH lex_cmp 100 nobad false progR []).
Notation valR := (val toyH lex_cmp 100 nobad false progR []).
Notation wlogR := (wlog toyH lex_cmp 100 nobad false progR []).

(* schedule 1: the reader returns the NEW content; witness position q = 24 (its open under
   the shared lock), inside its interval [9, 24]; at its first lookup (10) the key held the
   old content *)
Example race1_trace :
  tstR schedR1 9 2%nat = Some (mkT [KGet [1]] Idle []) /\
  valR schedR1 10 [1] = Some (toyH [10], 1) /\
  tstR schedR1 24 2%nat = Some (mkT [] (GOpenL [1] (mkItem (toyH [20; 21]) 2) MFull) []) /\
  valR schedR1 24 [1] = Some (toyH [20; 21], 2) /\
  tstR schedR1 25 2%nat = Some (mkT [] Idle [CBytes (Some [20; 21])]) /\
  wlogR schedR1 25 = [mkWl 6 1 0 (RPut [1] (toyH [10]) 1); mkWl 17 1 1 (RPut [1] (toyH [20; 21]) 2)] /\
  all_finished (stR schedR1 25) = true.
Proof. vm_compute. repeat split. Qed.

Example race1_witness :
  starts_at toyH lex_cmp 100 nobad false progR [] schedR1 9 2 0 (KGet [1]) /\
  ends_at toyH lex_cmp 100 nobad false progR [] schedR1 24 2 0 (CBytes (Some [20; 21])) /\
  own toyH lex_cmp 100 nobad false progR [] schedR1 24 2 (KGet [1]) /\
  valR schedR1 24 [1] = Some (toyH [20; 21], len [20; 21]).
Proof.
  destruct race1_trace as (T9 & _ & T24 & V24 & T25 & _). split; [|split; [|split; [|exact V24]]].
  - eapply starts_at_tst; [reflexivity|reflexivity|exact T9|reflexivity].
  - eapply ends_at_tst; [reflexivity|reflexivity|exact T24|exact T25|reflexivity].
  - eapply own_tst; [reflexivity|reflexivity|exact T24|]. right; right. eexists. reflexivity.
Qed.

(* schedule 2: the reader returns the OLD content although the key holds the new one when it
   returns (position 19); witness position q = 10 (its lookup), inside its interval [9, 19];
   the overwrite is linearised at its WLockW step 17, between q and the reader's return *)
Example race2_trace :
  tstR schedR2 9 2%nat = Some (mkT [KGet [1]] Idle []) /\
  tstR schedR2 10 2%nat = Some (mkT [] (GRead [1] MFull) []) /\
  valR schedR2 10 [1] = Some (toyH [10], 1) /\
  valR schedR2 19 [1] = Some (toyH [20; 21], 2) /\
  tstR schedR2 20 2%nat = Some (mkT [] Idle [CBytes (Some [10])]) /\
  wlogR schedR2 23 = [mkWl 6 1 0 (RPut [1] (toyH [10]) 1); mkWl 17 1 1 (RPut [1] (toyH [20; 21]) 2)] /\
  all_finished (stR schedR2 23) = true.
Proof. vm_compute. repeat split. Qed.

Example race2_witness :
  starts_at toyH lex_cmp 100 nobad false progR [] schedR2 9 2 0 (KGet [1]) /\
  ends_at toyH lex_cmp 100 nobad false progR [] schedR2 19 2 0 (CBytes (Some [10])) /\
  own toyH lex_cmp 100 nobad false progR [] schedR2 10 2 (KGet [1]) /\
  valR schedR2 10 [1] = Some (toyH [10], len [10]).
Proof.
  destruct race2_trace as (T9 & T10 & V10 & _ & T20 & _). split; [|split; [|split; [|exact V10]]].
  - eapply starts_at_tst; [reflexivity|reflexivity|exact T9|reflexivity].
  - eapply ends_at_tst; [reflexivity|reflexivity|vm_compute; reflexivity|exact T20|reflexivity].
  - eapply own_tst; [reflexivity|reflexivity|exact T10|]. left. reflexivity.
Qed.

(* the general theorems on this program, for EVERY schedule *)

Example progR_reads_linearizable sched r :
  final_res toyH lex_cmp 100 nobad false progR [] sched 2 0 r ->
  exists s e q, starts_at toyH lex_cmp 100 nobad false progR [] sched s 2 0 (KGet [1]) /\
    ends_at toyH lex_cmp 100 nobad false progR [] sched e 2 0 r /\ (s < q <= e)%nat /\
    own toyH lex_cmp 100 nobad false progR [] sched q 2 (KGet [1]) /\
    exists o, r = CBytes o /\ valR sched q [1] = option_map (fun x => (toyH x, len x)) o /\
              (forall x, o = Some x -> sm_get lex_cmp (g_cas (stR sched q)) (toyH x) = Some x).
Proof.
  intros Hf.
  apply (toy C05_read_linearizable nobad false progR progR_nodup progR_nocollide sched 2 0 [1] r eq_refl Hf).
  exact (toy final_res_no_err nobad false progR progR_nodup progR_nocollide sched 2%nat 0%nat r
           (fun _ => eq_refl) eq_refl Hf).
Qed.

Example progR_final_linearization sched :
  all_finished (crun toyH lex_cmp 100 nobad false (init_c progR []) sched) = true ->
  km (g_idx (crun toyH lex_cmp 100 nobad false (init_c progR []) sched)) =
  fold_left (kstep lex_cmp) (map wl_o (wlogR sched (NN sched))) [].
Proof. intros AF. apply (toy C05_final_is_linearization nobad false progR progR_nodup progR_nocollide sched AF). Qed.

Print Assumptions race1_trace.
Print Assumptions race1_witness.
Print Assumptions race2_trace.
Print Assumptions race2_witness.
Print Assumptions progR_reads_linearizable.
Print Assumptions progR_final_linearization.

(* a ranged read racing an overwrite by a LONGER value, and an iteration racing a put
   (program ConcExamples.progRI: thread 1 puts [1] := 3 bytes, [1] := 5 bytes, [2] := 1 byte;
   thread 2 reads the range [1, 4) of [1]; thread 3 iterates) *)
Notation valRI := (val toyH lex_cmp 100 nobad false progRI []).
Notation kmapRI := (kmap toyH lex_cmp 100 nobad false progRI []).

(* old value: the reader looks the key up at step 10 (3-byte item), the overwrite is applied at
   step 18, the reader opens the old blob at step 20 and returns bytes [1, min 4 3) of it;
   witness q = 10 *)
Example range_race_old_witness :
  starts_at toyH lex_cmp 100 nobad false progRI [] schedRI_old 9 2 0 (KGetRange [1] 1 4) /\
  ends_at toyH lex_cmp 100 nobad false progRI [] schedRI_old 20 2 0 (CBytes (Some [11; 12])) /\
  own toyH lex_cmp 100 nobad false progRI [] schedRI_old 10 2 (KGetRange [1] 1 4) /\
  valRI schedRI_old 10 [1] = Some (toyH [10; 11; 12], len [10; 11; 12]) /\
  valRI schedRI_old 20 [1] = Some (toyH [20; 21; 22; 23; 24], 5) /\
  CBytes (Some [11; 12]) = CBytes (Some (slice [10; 11; 12] 1 (N.min 4 (len [10; 11; 12])))).
Proof.
  split; [|split; [|split; [|repeat split; vm_compute; reflexivity]]].
  - eapply starts_at_tst; vm_compute; reflexivity.
  - eapply ends_at_tst; vm_compute; reflexivity.
  - eapply own_tst; [vm_compute; reflexivity..|]. left. reflexivity.
Qed.

(* new value: the old blob is gone when the reader opens it (step 22); the retry looks the key
   up again (step 23: the 5-byte item) and opens its blob under the shared lock (step 24):
   bytes [1, min 4 5) of the NEW value; witness q = 24 *)
Example range_race_new_witness :
  starts_at toyH lex_cmp 100 nobad false progRI [] schedRI_new 9 2 0 (KGetRange [1] 1 4) /\
  ends_at toyH lex_cmp 100 nobad false progRI [] schedRI_new 24 2 0 (CBytes (Some [21; 22; 23])) /\
  own toyH lex_cmp 100 nobad false progRI [] schedRI_new 24 2 (KGetRange [1] 1 4) /\
  valRI schedRI_new 10 [1] = Some (toyH [10; 11; 12], 3) /\
  valRI schedRI_new 24 [1] = Some (toyH [20; 21; 22; 23; 24], len [20; 21; 22; 23; 24]) /\
  CBytes (Some [21; 22; 23]) =
    CBytes (Some (slice [20; 21; 22; 23; 24] 1 (N.min 4 (len [20; 21; 22; 23; 24])))).
Proof.
  split; [|split; [|split; [|repeat split; vm_compute; reflexivity]]].
  - eapply starts_at_tst; vm_compute; reflexivity.
  - eapply ends_at_tst; vm_compute; reflexivity.
  - eapply own_tst; [vm_compute; reflexivity..|]. right; right. eexists. reflexivity.
Qed.

(* the iteration racing the put of key [2] (applied at step 26): run before it (step 25) it
   returns the keys of position 25, run after it (step 27) those of position 27 *)
Definition schedIt_before : list nat := schedI0 ++ repeat 1%nat 5 ++ [3%nat].
Definition schedIt_after : list nat := schedI0 ++ repeat 1%nat 7 ++ [3%nat].

Example iter_race_witness :
  starts_at toyH lex_cmp 100 nobad false progRI [] schedIt_before 19 3 0 KIter /\
  ends_at toyH lex_cmp 100 nobad false progRI [] schedIt_before 25 3 0 (CKeys [[1]]) /\
  own toyH lex_cmp 100 nobad false progRI [] schedIt_before 25 3 KIter /\
  map fst (kmapRI schedIt_before 25) = [[1]] /\
  starts_at toyH lex_cmp 100 nobad false progRI [] schedIt_after 19 3 0 KIter /\
  ends_at toyH lex_cmp 100 nobad false progRI [] schedIt_after 27 3 0 (CKeys [[1]; [2]]) /\
  own toyH lex_cmp 100 nobad false progRI [] schedIt_after 27 3 KIter /\
  map fst (kmapRI schedIt_after 26) = [[1]] /\
  map fst (kmapRI schedIt_after 27) = [[1]; [2]].
Proof.
  split; [|split; [|split; [|split; [vm_compute; reflexivity|split; [|split; [|split;
    [|split; vm_compute; reflexivity]]]]]]].
  - eapply starts_at_tst; vm_compute; reflexivity.
  - eapply ends_at_tst; vm_compute; reflexivity.
  - eapply own_tst; [vm_compute; reflexivity..|]. reflexivity.
  - eapply starts_at_tst; vm_compute; reflexivity.
  - eapply ends_at_tst; vm_compute; reflexivity.
  - eapply own_tst; [vm_compute; reflexivity..|]. reflexivity.
Qed.

(* the general theorems on this program, for EVERY schedule *)

Example progRI_range_reads_linearizable sched r :
  final_res toyH lex_cmp 100 nobad false progRI [] sched 2 0 r ->
  exists s e q, starts_at toyH lex_cmp 100 nobad false progRI [] sched s 2 0 (KGetRange [1] 1 4) /\
    ends_at toyH lex_cmp 100 nobad false progRI [] sched e 2 0 r /\ (s < q <= e)%nat /\
    own toyH lex_cmp 100 nobad false progRI [] sched q 2 (KGetRange [1] 1 4) /\
    ((r = CBytes None /\ valRI sched q [1] = None) \/
     (exists x, valRI sched q [1] = Some (toyH x, len x) /\
                sm_get lex_cmp (g_cas (st toyH lex_cmp 100 nobad false progRI [] sched q)) (toyH x) = Some x /\
                r = match pre_open (MRange 1 4) (mkItem (toyH x) (len x)) with
                    | Some r' => r'
                    | None => CBytes (Some (slice x 1 (N.min 4 (len x))))
                    end)).
Proof.
  intros Hf.
  apply (toy C05_range_read_linearizable nobad false progRI progRI_nodup progRI_nocollide sched 2 0 [1] 1 4 r
           eq_refl Hf).
  exact (toy final_res_no_err nobad false progRI progRI_nodup progRI_nocollide sched 2%nat 0%nat r
           (fun _ => eq_refl) eq_refl Hf).
Qed.

Example progRI_iteration_is_a_snapshot sched r :
  final_res toyH lex_cmp 100 nobad false progRI [] sched 3 0 r ->
  exists s e q, starts_at toyH lex_cmp 100 nobad false progRI [] sched s 3 0 KIter /\
    ends_at toyH lex_cmp 100 nobad false progRI [] sched e 3 0 r /\ (s < q <= e)%nat /\
    own toyH lex_cmp 100 nobad false progRI [] sched q 3 KIter /\
    r = CKeys (map fst (kmapRI sched q)).
Proof.
  intros Hf.
  exact (toy C05_iteration_is_a_snapshot nobad false progRI progRI_nodup progRI_nocollide sched 3 0 r eq_refl Hf).
Qed.

Print Assumptions range_race_old_witness.
Print Assumptions range_race_new_witness.
Print Assumptions iter_race_witness.
Print Assumptions progRI_range_reads_linearizable.
Print Assumptions progRI_iteration_is_a_snapshot.
