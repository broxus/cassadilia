(* StoreFS.v -- facts about the filesystem model (theories/FS.v) and the world monad, for
   fault-free runs.  In order: reflection of path_eqb; lookup / set_path / remove_path on file
   lists; [FsWf] (no path listed twice) and the file updates [upd] / [del] / [ren], which every
   successful call keeps well-formed; [Frame T] ("only paths in T were touched"), [Step T P]
   (a frame between two worlds whose new trace events satisfy P) and [Ext P] (the trace part
   alone); do_call in a fault-free world; [call_on T] (the call names paths in T only), and a
   create as a [Step] (call_create).  What each call does to the filesystem is
   StoreRun.apply_call_eff. *)
From Cas Require Import History.
From CasProofs Require Import BaseProofs.
Open Scope N_scope.

(* also what path_eqb does on two paths under cas/: its local fixpoint is dir_eqb *)
Lemma dir_eqb_true_iff : forall a b, dir_eqb a b = true <-> a = b.
Proof.
  induction a as [|x a IH]; intros [|y b]; cbn [dir_eqb]; split; intros E;
    try reflexivity; try discriminate.
  - apply andb_true_iff in E. destruct E as [E1 E2].
    apply beqb_true_iff in E1. apply IH in E2. congruence.
  - inversion E; subst. apply andb_true_iff. split; [apply beqb_refl|]. now apply IH.
Qed.

Lemma path_eqb_true_iff : forall p q, path_eqb p q = true <-> p = q.
Proof.
  intros p q. destruct p, q; cbn [path_eqb]; split; intros E;
    try reflexivity; try discriminate.
  - apply N.eqb_eq in E. congruence.
  - inversion E. apply N.eqb_refl.
  - apply N.eqb_eq in E. congruence.
  - inversion E. apply N.eqb_refl.
  - apply dir_eqb_true_iff in E. congruence.
  - inversion E. now apply dir_eqb_true_iff.
Qed.

Lemma path_eqb_refl : forall p, path_eqb p p = true.
Proof. intros p. now apply path_eqb_true_iff. Qed.

Lemma path_eqb_neq : forall p q, p <> q -> path_eqb p q = false.
Proof.
  intros p q N. destruct (path_eqb p q) eqn:E; [|reflexivity].
  apply path_eqb_true_iff in E. contradiction.
Qed.

Lemma path_eqb_spec : forall p q, reflect (p = q) (path_eqb p q).
Proof.
  intros p q. destruct (path_eqb p q) eqn:E; constructor.
  - now apply path_eqb_true_iff.
  - intros N. apply path_eqb_true_iff in N. congruence.
Qed.

Lemma path_eq_dec : forall p q : path, {p = q} + {p <> q}.
Proof. intros p q. destruct (path_eqb_spec p q); [left|right]; assumption. Qed.

Lemma has_dir_iff : forall s d, has_dir s d = true <-> In d (dirs s).
Proof.
  intros s d. unfold has_dir. rewrite existsb_exists. split.
  - intros (x & I & E). apply dir_eqb_true_iff in E. now subst.
  - intros I. exists d. split; [exact I|]. now apply dir_eqb_true_iff.
Qed.

Definition paths (l : list (path * file)) : list path := map fst l.

Lemma lookup_none_iff : forall l p, lookup l p = None <-> ~ In p (paths l).
Proof.
  induction l as [|[q f] l IH]; intros p; cbn [lookup paths map fst In].
  - split; [intros _ []|reflexivity].
  - destruct (path_eqb_spec p q) as [E|E].
    + split; [discriminate|]. intros N. exfalso. apply N. left. now symmetry.
    + rewrite IH. unfold paths. split.
      * intros N [X|X]; [apply E; now symmetry|now apply N].
      * intros N X. apply N. now right.
Qed.

Lemma lookup_set_path : forall l p f q,
  lookup (set_path l p f) q = if path_eqb q p then Some f else lookup l q.
Proof.
  induction l as [|[r g] l IH]; intros p f q; cbn [set_path lookup].
  - reflexivity.
  - destruct (path_eqb_spec p r) as [E|E]; cbn [lookup].
    + subst r. destruct (path_eqb q p); reflexivity.
    + rewrite IH. destruct (path_eqb_spec q r) as [E2|E2]; [|reflexivity].
      subst r. rewrite path_eqb_neq; [reflexivity|]. intros X. apply E. now symmetry.
Qed.

Lemma lookup_remove_other : forall l p q, q <> p ->
  lookup (remove_path l p) q = lookup l q.
Proof.
  induction l as [|[r g] l IH]; intros p q N; cbn [remove_path lookup]; [reflexivity|].
  destruct (path_eqb_spec p r) as [E|E]; cbn [lookup].
  - subst r. now rewrite path_eqb_neq.
  - rewrite IH by exact N. reflexivity.
Qed.

Lemma paths_remove_incl : forall l p q, In q (paths (remove_path l p)) -> In q (paths l).
Proof.
  induction l as [|[r g] l IH]; intros p q; cbn [remove_path paths map fst In]; [tauto|].
  destruct (path_eqb p r); cbn [map fst In].
  - intros I. now right.
  - intros [I|I]; [now left|right; eapply IH; exact I].
Qed.

Lemma paths_remove_nodup : forall l p, NoDup (paths l) -> NoDup (paths (remove_path l p)).
Proof.
  induction l as [|[r g] l IH]; intros p ND; cbn [remove_path paths map fst]; [constructor|].
  inversion ND as [|? ? N1 ND']; subst.
  destruct (path_eqb p r); cbn [map fst]; [exact ND'|].
  constructor; [|apply IH, ND']. intros I. apply N1. eapply paths_remove_incl. exact I.
Qed.

Lemma lookup_remove_same : forall l p, NoDup (paths l) -> lookup (remove_path l p) p = None.
Proof.
  induction l as [|[r g] l IH]; intros p ND; cbn [remove_path lookup]; [reflexivity|].
  inversion ND as [|? ? N1 ND']; subst. cbn [fst] in N1.
  destruct (path_eqb_spec p r) as [E|E]; cbn [lookup].
  - subst r. now apply lookup_none_iff.
  - rewrite path_eqb_neq by exact E. apply IH, ND'.
Qed.

Lemma set_path_absent : forall l p f, lookup l p = None -> set_path l p f = l ++ [(p, f)].
Proof.
  induction l as [|[r g] l IH]; intros p f; cbn [lookup set_path app]; [reflexivity|].
  destruct (path_eqb p r); [discriminate|]. intros E. now rewrite IH.
Qed.

Lemma set_path_last : forall l p f g, lookup l p = None ->
  set_path (l ++ [(p, f)]) p g = l ++ [(p, g)].
Proof.
  induction l as [|[r h] l IH]; intros p f g; cbn [lookup set_path app].
  - now rewrite path_eqb_refl.
  - destruct (path_eqb p r); [discriminate|]. intros E. now rewrite IH.
Qed.

Lemma remove_path_last : forall l p f, lookup l p = None -> remove_path (l ++ [(p, f)]) p = l.
Proof.
  induction l as [|[r h] l IH]; intros p f; cbn [lookup remove_path app].
  - now rewrite path_eqb_refl.
  - destruct (path_eqb p r); [discriminate|]. intros E. now rewrite IH.
Qed.


Lemma paths_set_path : forall l p f,
  paths (set_path l p f) = match lookup l p with Some _ => paths l | None => paths l ++ [p] end.
Proof.
  induction l as [|[r g] l IH]; intros p f; cbn [set_path lookup paths map fst app]; [reflexivity|].
  destruct (path_eqb_spec p r) as [E|E]; cbn [map fst].
  - now subst.
  - fold (paths (set_path l p f)). rewrite IH. fold (paths l).
    destruct (lookup l p); reflexivity.
Qed.

Lemma paths_set_nodup : forall l p f, NoDup (paths l) -> NoDup (paths (set_path l p f)).
Proof.
  intros l p f ND. rewrite paths_set_path. destruct (lookup l p) eqn:E; [exact ND|].
  apply lookup_none_iff in E.
  apply NoDup_rev in ND. rewrite <- (rev_involutive (paths l ++ [p])).
  apply NoDup_rev. rewrite rev_app_distr. cbn [rev app]. constructor; [|exact ND].
  intros I. apply E. now apply in_rev.
Qed.

(* no path is listed twice: every filesystem reachable from [empty_fs] by calls has this
   property (apply_call_wf, empty_fs_wf); without it, CUnlink p may leave a second entry for p
   behind, so exact reclamation (Clean) would not be preserved *)
Definition FsWf (s : fs) : Prop := NoDup (paths (files s)).

Lemma empty_fs_wf : FsWf empty_fs.
Proof. constructor. Qed.

(* why FsWf is needed: the list representation allows duplicate entries, and then an unlink
   does not make the path disappear *)
Example unlink_with_duplicate_entry :
  let f := mkFile [] 0 in
  let s := mkFs [(PLock, f); (PLock, f)] [] 0 in
  exists s', apply_call (CUnlink PLock) s = Ok s' /\ fget s' PLock = Some f.
Proof. eexists. split; reflexivity. Qed.

Definition upd (s : fs) (p : path) (f : file) : fs := with_files s (set_path (files s) p f).
Definition del (s : fs) (p : path) : fs := with_files s (remove_path (files s) p).
Definition ren (s : fs) (p q : path) (f : file) : fs :=
  with_files s (set_path (remove_path (files s) p) q f).

Lemma fget_upd : forall s p f q, fget (upd s p f) q = if path_eqb q p then Some f else fget s q.
Proof. intros. unfold fget, upd. cbn [with_files files]. apply lookup_set_path. Qed.
Lemma fget_upd_same : forall s p f, fget (upd s p f) p = Some f.
Proof. intros. now rewrite fget_upd, path_eqb_refl. Qed.
Lemma fget_upd_other : forall s p f q, q <> p -> fget (upd s p f) q = fget s q.
Proof. intros. now rewrite fget_upd, path_eqb_neq. Qed.
Lemma fget_del_other : forall s p q, q <> p -> fget (del s p) q = fget s q.
Proof. intros. unfold fget, del. cbn [with_files files]. now apply lookup_remove_other. Qed.
Lemma fget_del_same : forall s p, FsWf s -> fget (del s p) p = None.
Proof. intros. unfold fget, del. cbn [with_files files]. now apply lookup_remove_same. Qed.
Lemma fget_ren : forall s p q f r,
  fget (ren s p q f) r = if path_eqb r q then Some f else fget (del s p) r.
Proof. intros. unfold fget, ren, del. cbn [with_files files]. apply lookup_set_path. Qed.

Lemma upd_wf : forall s p f, FsWf s -> FsWf (upd s p f).
Proof. intros. unfold FsWf, upd. cbn [with_files files]. now apply paths_set_nodup. Qed.
Lemma del_wf : forall s p, FsWf s -> FsWf (del s p).
Proof. intros. unfold FsWf, del. cbn [with_files files]. now apply paths_remove_nodup. Qed.
Lemma ren_wf : forall s p q f, FsWf s -> FsWf (ren s p q f).
Proof.
  intros. unfold FsWf, ren. cbn [with_files files]. now apply paths_set_nodup, paths_remove_nodup.
Qed.

Lemma apply_call_wf : forall c s s', apply_call c s = Ok s' -> FsWf s -> FsWf s'.
Proof.
  intros c s s' E W. destruct c; cbn [apply_call] in E.
  - destruct (has_dir s d); [discriminate|].
    destruct (removelast d); [|destruct (has_dir s _)]; inversion E; subst; exact W.
  - destruct (parent_ok s p); inversion E; subst. now apply upd_wf.
  - destruct (parent_ok s p); [|discriminate]. destruct (fget s p); inversion E; subst.
    unfold FsWf. cbn [files]. now apply paths_set_nodup.
  - destruct (parent_ok s p); [|discriminate]. destruct (fget s p); inversion E; subst;
      [exact W|now apply upd_wf].
  - destruct (fget s p); inversion E; subst. now apply upd_wf.
  - destruct (fget s p); inversion E; subst. now apply upd_wf.
  - destruct (fget s p); [|discriminate]. destruct (parent_ok s q); inversion E; subst.
    now apply ren_wf.
  - destruct (fget s p); inversion E; subst. now apply del_wf.
Qed.

(* only paths in T were touched; directories and the staging counter are unchanged *)
Record Frame (T : path -> Prop) (s s' : fs) : Prop := mkFrame {
  fr_get : forall q, T q \/ fget s' q = fget s q;
  fr_dirs : dirs s' = dirs s;
  fr_nstage : nstage s' = nstage s;
  fr_wf : FsWf s -> FsWf s'
}.

Lemma frame_refl : forall T s, Frame T s s.
Proof. intros. constructor; auto. Qed.

Lemma frame_trans : forall T s1 s2 s3, Frame T s1 s2 -> Frame T s2 s3 -> Frame T s1 s3.
Proof.
  intros T s1 s2 s3 [G1 D1 N1 W1] [G2 D2 N2 W2]. constructor.
  - intros q. destruct (G1 q) as [X|X]; [now left|]. destruct (G2 q) as [Y|Y]; [now left|].
    right. congruence.
  - congruence.
  - congruence.
  - auto.
Qed.

Lemma frame_weaken : forall (T T' : path -> Prop) s s',
  (forall q, T q -> T' q) -> Frame T s s' -> Frame T' s s'.
Proof.
  intros T T' s s' I [G D N W]. constructor; auto.
  intros q. destruct (G q); auto.
Qed.

Lemma frame_upd : forall (T : path -> Prop) s p f, T p -> Frame T s (upd s p f).
Proof.
  intros T s p f Tp. constructor; try reflexivity; [|apply upd_wf].
  intros q. destruct (path_eq_dec q p) as [E|E]; [subst; now left|right].
  now apply fget_upd_other.
Qed.

Lemma frame_del : forall (T : path -> Prop) s p, T p -> Frame T s (del s p).
Proof.
  intros T s p Tp. constructor; try reflexivity; [|apply del_wf].
  intros q. destruct (path_eq_dec q p) as [E|E]; [subst; now left|right].
  now apply fget_del_other.
Qed.

Lemma frame_ren : forall (T : path -> Prop) s p q f, T p -> T q -> Frame T s (ren s p q f).
Proof.
  intros T s p q f Tp Tq. constructor; try reflexivity; [|apply ren_wf].
  intros r. destruct (path_eq_dec r q) as [E|E]; [subst; now left|].
  destruct (path_eq_dec r p) as [E2|E2]; [subst; now left|right].
  rewrite fget_ren, path_eqb_neq by exact E. now apply fget_del_other.
Qed.

(* from w to w' without a fault: the filesystem moved within the frame T, and the trace grew by
   events that satisfy P *)
Record Step (T : path -> Prop) (P : tev -> Prop) (w w' : world) : Prop := mkStep {
  st_fault : wfault w' = None;
  st_trace : exists tr, wtrace w' = tr ++ wtrace w /\ Forall P tr;
  st_frame : Frame T (wfs w) (wfs w')
}.

Lemma step_refl : forall T P w, wfault w = None -> Step T P w w.
Proof.
  intros. constructor; [assumption| |apply frame_refl]. exists []. split; [reflexivity|constructor].
Qed.

Lemma step_trans : forall T P w1 w2 w3, Step T P w1 w2 -> Step T P w2 w3 -> Step T P w1 w3.
Proof.
  intros T P w1 w2 w3 [F1 (t1 & E1 & A1) R1] [F2 (t2 & E2 & A2) R2]. constructor.
  - exact F2.
  - exists (t2 ++ t1). split; [rewrite E2, E1; apply app_assoc|]. apply Forall_app. now split.
  - eapply frame_trans; eassumption.
Qed.

Lemma step_weaken : forall (T T' : path -> Prop) (P P' : tev -> Prop) w w',
  (forall q, T q -> T' q) -> (forall e, P e -> P' e) -> Step T P w w' -> Step T' P' w w'.
Proof.
  intros T T' P P' w w' IT IP [F (t & E & A) R]. constructor.
  - exact F.
  - exists t. split; [exact E|]. eapply Forall_impl; [|exact A]. exact IP.
  - eapply frame_weaken; eassumption.
Qed.

Section StepProj.
  Context {T : path -> Prop} {P : tev -> Prop} {w w' : world} (S : Step T P w w').
  Lemma step_fault : wfault w' = None.
  Proof. exact (st_fault _ _ _ _ S). Qed.
  Lemma step_get : forall q, T q \/ fget (wfs w') q = fget (wfs w) q.
  Proof. exact (fr_get _ _ _ (st_frame _ _ _ _ S)). Qed.
  Lemma step_off : forall q, ~ T q -> fget (wfs w') q = fget (wfs w) q.
  Proof. intros q N. destruct (step_get q); [contradiction|assumption]. Qed.
  Lemma step_dirs : dirs (wfs w') = dirs (wfs w).
  Proof. exact (fr_dirs _ _ _ (st_frame _ _ _ _ S)). Qed.
  Lemma step_nstage : nstage (wfs w') = nstage (wfs w).
  Proof. exact (fr_nstage _ _ _ (st_frame _ _ _ _ S)). Qed.
  Lemma step_wf : FsWf (wfs w) -> FsWf (wfs w').
  Proof. exact (fr_wf _ _ _ (st_frame _ _ _ _ S)). Qed.
End StepProj.

(* trace extension alone (for programs that also create directories / staging files) *)
Definition Ext (P : tev -> Prop) (w w' : world) : Prop :=
  wfault w' = None /\ exists tr, wtrace w' = tr ++ wtrace w /\ Forall P tr.

Lemma ext_refl : forall P w, wfault w = None -> Ext P w w.
Proof. intros. split; [assumption|]. exists []. split; [reflexivity|constructor]. Qed.

Lemma ext_trans : forall P w1 w2 w3, Ext P w1 w2 -> Ext P w2 w3 -> Ext P w1 w3.
Proof.
  intros P w1 w2 w3 [F1 (t1 & E1 & A1)] [F2 (t2 & E2 & A2)]. split; [exact F2|].
  exists (t2 ++ t1). split; [rewrite E2, E1; apply app_assoc|]. apply Forall_app. now split.
Qed.

Lemma ext_weaken : forall (P P' : tev -> Prop) w w',
  (forall e, P e -> P' e) -> Ext P w w' -> Ext P' w w'.
Proof.
  intros P P' w w' I [F (t & E & A)]. split; [exact F|]. exists t. split; [exact E|].
  eapply Forall_impl; [|exact A]. exact I.
Qed.

Lemma step_ext : forall T P w w', Step T P w w' -> Ext P w w'.
Proof. intros T P w w' [F E _]. now split. Qed.

Lemma bind_eq : forall {A B} (m : M A) (f : A -> M B) w a w1,
  m w = (a, w1) -> bind m f w = f a w1.
Proof. intros A B m f w a w1 E. unfold bind. now rewrite E. Qed.

Lemma replay_app : forall a b s, replay_calls (a ++ b) s = replay_calls b (replay_calls a s).
Proof.
  induction a as [|e a IH]; intros b s; cbn [app replay_calls]; [reflexivity|].
  destruct e as [c|c]; [|apply IH]. destruct (apply_call c s); apply IH.
Qed.

Lemma do_call_ok : forall c w s',
  wfault w = None -> apply_call c (wfs w) = Ok s' ->
  do_call c w = (Ok tt, mkWorld s' (TCall c :: wtrace w) (S (wcount w)) None).
Proof. intros c w s' F E. unfold do_call. now rewrite E, F. Qed.

Lemma do_call_err : forall c w e, apply_call c (wfs w) = Err e -> do_call c w = (Err e, w).
Proof. intros c w e E. unfold do_call. now rewrite E. Qed.

(* every path the call names is in T (no mkdir).  StoreRun.call_in is the same without
   CreateExcl: the calls after which [Frame T] holds *)
Definition call_on (T : path -> Prop) (c : call) : Prop :=
  match c with
  | CMkdir _ => False
  | CCreate p | CCreateExcl p | COpenAppend p | CAppend p _ | CSync p | CUnlink p => T p
  | CRename p q => T p /\ T q
  end.
Definition ev_on (T : path -> Prop) (e : tev) : Prop :=
  match e with TCall c => call_on T c | TFault _ => False end.

Lemma ev_on_weaken : forall (T T' : path -> Prop) e, (forall q, T q -> T' q) -> ev_on T e -> ev_on T' e.
Proof.
  intros T T' [c|c] I; cbn [ev_on]; [|tauto]. destruct c; cbn [call_on]; auto.
  intros [X Y]; auto.
Qed.

Lemma call_create : forall (T : path -> Prop) w p, wfault w = None -> T p ->
  parent_ok (wfs w) p = true ->
  exists w', do_call (CCreate p) w = (Ok tt, w') /\
             wfs w' = upd (wfs w) p (mkFile [] 0) /\ Step T (ev_on T) w w'.
Proof.
  intros T w p F Tp G. eexists. split; [apply do_call_ok; [exact F|cbn [apply_call]; now rewrite G]|].
  split; [reflexivity|]. constructor; cbn [wfault wtrace wfs]; [reflexivity| |now apply frame_upd].
  exists [TCall (CCreate p)]. split; [reflexivity|]. now repeat constructor.
Qed.
