(* AtRest.v -- C20, at-rest part: a disk satisfying [DiskOk] is well-formed.  Every WAL
   segment file parses (parse_segment) into records whose versions lie in the window of the
   segment, versions increase strictly along ascending segment ids, every version above the
   snapshot version and below the next version is present, the snapshot file (if any) decodes
   (dec_snapshot) to the persisted version, and decoding snapshot + log with the model's readers
   (dec_snapshot, load_entries, parse_segment, dec_op, apply_op) yields the abstract map. *)
From Cas Require Import History.
From CasProofs Require Import BaseProofs CodecBase CodecProofs SMapProofs IndexProofs
  StoreFS StoreInv StoreWrite StoreRead StoreHist DiskInv Recover.
From Coq Require Import ZifyBool ZifyNat ZifyN.
Open Scope N_scope.

Section AtRest.
  Variable H : bytes -> bytes.
  Hypothesis H_len : forall b, length (H b) = 32%nat.
  Hypothesis H_byte : forall b, Forall (fun x => x < 256) (H b).
  Variable cfg : config.
  Hypothesis n_pos : 0 < c_n cfg.
  Let cmp := key_cmp (c_kt cfg).

  Local Notation km_of := (km_of H).
  Local Notation seg_of := (seg_of cfg).
  Local Notation DiskW := (DiskW H cfg).
  Local Notation DiskOk := (DiskOk H cfg).
  Local Notation kstep := (kstep cfg).
  Local Notation KX L :=
    (L cmp (key_cmp_refl _) (key_cmp_eq _) (key_cmp_antisym _) (key_cmp_trans _)) (only parsing).
  Local Notation DX L := (L H H_len H_byte cfg n_pos) (only parsing).

  (* apply, in order, every record with a version above c *)
  Fixpoint apply_recs (c : N) (recs : list (N * bytes)) (st : istate) : option istate :=
    match recs with
    | [] => Some st
    | (v, p) :: r =>
      if c <? v then
        match dec_op p with
        | Ok o => match apply_op cmp st o with
                  | Ok (st', _) => apply_recs c r st'
                  | Err _ => None
                  end
        | Err _ => None
        end
      else apply_recs c r st
    end.

  Fixpoint apply_segs (c : N) (s : fs) (ids : list N) (st : istate) : option istate :=
    match ids with
    | [] => Some st
    | i :: r =>
      match fget s (PWal i) with
      | None => None
      | Some f =>
        match parse_segment H (fdata f) with
        | Err _ => None
        | Ok recs => match apply_recs c recs st with
                     | Some st' => apply_segs c s r st'
                     | None => None
                     end
        end
      end
    end.

  (* snapshot version and state; no snapshot file = version 0, empty state *)
  Definition decode_snapshot (s : fs) : option (N * istate) :=
    match fget s PIndex with
    | None => Some (0, empty_istate)
    | Some f =>
      match dec_snapshot (fdata f) with
      | Err _ => None
      | Ok (ver, es) =>
        match load_entries cmp (c_kt cfg) ver es with
        | None => None
        | Some st => Some (ver, recompute_stats st (len (fdata f)))
        end
      end
    end.

  (* decode the snapshot, then apply every record with version > snapshot version, segment by
     segment in ascending id order *)
  Definition spec_decode (s : fs) : option (smap item) :=
    match decode_snapshot s with
    | None => None
    | Some (c, st0) => option_map km (apply_segs c s (sort_ids (wal_ids s)) st0)
    end.

  Lemma apply_recs_of_replay : forall c recs st hi cnt st' h' c',
    replay_records cfg c recs st hi cnt = Ok (st', h', c') -> apply_recs c recs st = Some st'.
  Proof.
    intros c. induction recs as [|[v p] recs IH]; intros st hi cnt st' h' c' E.
    - rewrite replay_records_nil in E. inversion E. reflexivity.
    - rewrite replay_records_cons in E. cbn [apply_recs].
      destruct (v <=? c) eqn:Le.
      + replace (c <? v) with false by lia. eapply IH; exact E.
      + replace (c <? v) with true by lia.
        destruct (dec_op p) as [raw|e]; [|discriminate].
        destruct (from_raw (c_kt cfg) raw) as [o|e] eqn:Fr; [|discriminate].
        apply from_raw_ok_inv in Fr. destruct Fr as [-> _].
        fold cmp in E. destruct (apply_op cmp st raw) as [[st1 un]|e]; [|discriminate].
        eapply IH; exact E.
  Qed.

  Lemma apply_segs_of_replay : forall c s ids st hi cnt st' h' c',
    replay_segments H cfg c s ids st hi cnt = Ok (st', h', c') -> apply_segs c s ids st = Some st'.
  Proof.
    intros c s. induction ids as [|i ids IH]; intros st hi cnt st' h' c' E;
      cbn [replay_segments apply_segs] in *; [now inversion E|].
    destruct (fget s (PWal i)) as [f|]; [|discriminate].
    unfold parse_segment. rewrite read_segment_of_lazy.
    destruct (read_segment_lazy H (S (length (fdata f))) (fdata f)) as [recs e]. cbn [fst snd].
    destruct (replay_records cfg c recs st hi cnt) as [[[st1 h1] c1]|x] eqn:R; [|discriminate].
    destruct e; [discriminate|]. rewrite (apply_recs_of_replay _ _ _ _ _ _ _ _ R). eapply IH, E.
  Qed.

  Lemma decode_of_loaded : forall s st0,
    loaded_of cfg s = Ok st0 -> decode_snapshot s = Some (lpv st0, st0).
  Proof.
    intros s st0. unfold loaded_of, decode_snapshot. fold cmp.
    destruct (fget s PIndex) as [f|]; [|now intros [= <-]].
    destruct (fdata f) as [|b l]; [discriminate|].
    destruct (dec_snapshot (b :: l)) as [[ver es]|]; [|discriminate].
    destruct (load_entries cmp (c_kt cfg) ver es) as [st|] eqn:El; [|discriminate].
    intros [= <-]. destruct (KX C12_load (c_kt cfg) ver es st El) as (_ & _ & <- & _).
    reflexivity.
  Qed.

  Lemma seg_window : forall v i, 0 < v -> seg_of v = i ->
    i * c_n cfg < v /\ v <= (i + 1) * c_n cfg.
  Proof.
    intros v i Pv <-. unfold Store.seg_of.
    assert (Nz : c_n cfg <> 0) by lia.
    pose proof (N.mul_div_le (v - 1) (c_n cfg) Nz) as L1.
    pose proof (N.mul_succ_div_gt (v - 1) (c_n cfg) Nz) as L2.
    set (q := (v - 1) / c_n cfg) in *. rewrite (N.mul_comm q), (N.mul_comm (q + 1)).
    replace (N.succ q) with (q + 1) in L2 by lia. lia.
  Qed.

  Lemma asc_flat : forall (rf : N -> list (N * bytes)) ids, asc ids ->
    (forall i, In i ids -> asc (map fst (rf i)) /\ Forall (fun r => seg_of (fst r) = i) (rf i)) ->
    asc (map fst (flat_map rf ids)).
  Proof.
    intros rf. induction ids as [|a ids IH]; intros A Hs; [exact I|].
    destruct A as [Ha A]. cbn [flat_map]. rewrite map_app. apply asc_app.
    split; [apply Hs; now left|]. split; [apply IH; [exact A|intros i Ii; apply Hs; now right]|].
    intros x y Ix Iy. apply in_map_iff in Ix. destruct Ix as (rx & <- & Ix).
    apply in_map_iff in Iy. destruct Iy as (ry & <- & Iy).
    apply in_flat_map in Iy. destruct Iy as (j & Ij & Iy).
    destruct (Hs a (or_introl eq_refl)) as [_ Fa]. destruct (Hs j (or_intror Ij)) as [_ Fj].
    rewrite Forall_forall in Fa, Fj. specialize (Fa _ Ix). specialize (Fj _ Iy).
    specialize (Ha j Ij). destruct (N.lt_ge_cases (fst rx) (fst ry)) as [L|L]; [exact L|].
    apply (seg_of_mono cfg n_pos) in L. lia.
  Qed.

  (* the clauses of C20 for a disk described by [DiskW], whatever handle (or none) goes with it *)
  Lemma DiskW_well_formed : forall c nv sb pre s sg ids0 rf sf km_c ops,
    DiskW c nv sb pre (fdat s) sg ids0 rf sf km_c ops -> FsWf s ->
    let n := c_n cfg in
    let ids := sort_ids (wal_ids s) in
    (forall i f, fget s (PWal i) = Some f ->
       parse_segment H (fdata f) = Ok (rf i) /\
       Forall (fun r => i * n < fst r /\ fst r <= (i + 1) * n) (rf i)) /\
    asc ids /\ asc (map fst (flat_map rf ids)) /\
    (forall v, c < v -> v < nv -> exists p, In (v, p) (flat_map rf ids)) /\
    (forall r, In r (flat_map rf ids) -> fst r < nv) /\
    match fget s PIndex with
    | None => c = 0
    | Some f => 0 < c /\ exists es, dec_snapshot (fdata f) = Ok (c, es)
    end /\
    spec_decode s = Some (km_of sg).
  Proof.
    intros c nv sb pre s sg ids0 rf sf km_c ops Dw Wf n ids. unfold ids.
    destruct (DX loaded_ok _ _ _ _ _ _ _ _ _ _ _ Dw) as (st0 & El & Iv0 & K0 & L0 & _).
    destruct (DX replay_ok _ _ _ _ _ _ _ _ _ _ _ st0 Wf Dw Iv0 K0) as (st & E & _ & K & _).
    apply decode_of_loaded in El. rewrite L0 in El. apply apply_segs_of_replay in E.
    unfold spec_decode. rewrite El, E. clear Iv0 K0 L0 E.
    rewrite (disk_ids H cfg _ _ _ _ _ _ _ _ _ _ _ Wf Dw). pose proof Dw as [].
    split; [|split; [exact dw_asc|split; [|split; [|split; [|split]]]]].
    - intros i f G.
      assert (Ii : In i ids0).
      { apply (dw_ids H cfg Dw). intros X. apply fdat_none in X. congruence. }
      destruct (dw_read_lazy H H_len cfg _ _ _ _ _ _ _ _ _ _ _ s Dw i Ii eq_refl) as (f' & G' & R).
      rewrite G in G'. injection G' as <-.
      split; [unfold parse_segment; now rewrite read_segment_of_lazy, R|].
      destruct (dw_seg i Ii) as (S1 & S2 & _).
      rewrite Forall_forall in *. intros r Ir. apply seg_window; [|now apply S2].
      destruct (S1 r Ir) as [[P0 _] _]. exact P0.
    - apply asc_flat; [exact dw_asc|]. intros i Ii.
      destruct (dw_seg i Ii) as (_ & S2 & S3 & _). now split.
    - intros v L1 L2. destruct (enc_from_in ops (c + 1) v) as (p & Ip); [lia|lia|].
      exists p. rewrite <- dw_filter in Ip. apply filter_In in Ip. tauto.
    - eapply all_lt_nv; eassumption.
    - unfold decode_snapshot in El. unfold snap_ok, fdat in dw_snap.
      destruct (fget s PIndex) as [f|]; cbn [option_map] in dw_snap; [|apply dw_snap].
      split; [apply dw_snap|].
      destruct (dec_snapshot (fdata f)) as [[ver es]|]; [|discriminate].
      destruct (load_entries _ _ ver es); [|discriminate]. injection El as -> _. now exists es.
    - cbn [option_map]. now rewrite K.
  Qed.

  Theorem C20_at_rest : forall m s sg, DiskOk m s sg -> FsWf s ->
    let n := c_n cfg in
    let c := lpv (idx m) in
    let ids := sort_ids (wal_ids s) in
    exists rf : N -> list (N * bytes),
      (* every segment file parses; its records lie in the version window of the segment *)
      (forall i f, fget s (PWal i) = Some f ->
         parse_segment H (fdata f) = Ok (rf i) /\
         Forall (fun r => i * n < fst r /\ fst r <= (i + 1) * n) (rf i)) /\
      (* versions increase strictly across ascending segment ids *)
      asc ids /\ asc (map fst (flat_map rf ids)) /\
      (* every version above the snapshot version, up to the last one written, is present *)
      (forall v, c < v -> v < nextv (mwal m) -> exists p, In (v, p) (flat_map rf ids)) /\
      (forall r, In r (flat_map rf ids) -> fst r < nextv (mwal m)) /\
      (* the snapshot file, if any, decodes to the persisted version *)
      match fget s PIndex with
      | None => c = 0
      | Some f => 0 < c /\ exists es, dec_snapshot (fdata f) = Ok (c, es)
      end /\
      (* snapshot + log decode to the abstract map *)
      spec_decode s = Some (km_of sg).
  Proof.
    intros m s sg (ids0 & rf & sf & km_c & ops & Dw) Wf n c ids.
    exists rf. exact (DiskW_well_formed _ _ _ _ _ _ _ _ _ _ _ Dw Wf).
  Qed.
End AtRest.

Print Assumptions C20_at_rest.
