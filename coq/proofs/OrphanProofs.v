(* OrphanProofs.v -- property C08 (sequential part): the start-up orphan scan is exact, and the
   clean-up built on it is complete and harmless.  About theories/Store.v: index_hashes,
   scan_orphans, delete_orphan_list, remove_paths, delete_orphans, quarantine_orphans,
   delete_orphan.

   Setting.  [Live0m m sg] is [Live0] without the filesystem clauses (in particular WITHOUT
   lv_cas: a missing blob is what the scan has to report): sg sorted, km (idx m) = km_of sg,
   IdxInv, NoCollide.  The filesystem s is only required to be well formed (FsWf: no path listed
   twice); it may hold arbitrary planted files under cas/ (1, 2, 3 ... components, any names)
   and under staging/.

     ref_hash sg h        := exists k c, In (k, c) sg /\ H c = h
     blob_entry s comps f := fget s (PCas comps) = Some f /\ length comps = 3
     wfhash h             := length h = 32 /\ all bytes < 256
     parse_canon comps = Some h <-> comps = hexpath h /\ wfhash h          (parse_canon_iff)
     canonical_names s    := every 3-component entry whose name hex-decodes (parse_path) to h sits at
                             hexpath h.  NOT a hypothesis of any theorem here: the scan tests names
                             with parse_canon, so non-canonical spellings are invalid files; the
                             definition only describes the examples of finding F5 near the end.

   In the order of the file:
     - partial maps over lists (omap), lookup, deleting a list of paths (del_all);
     - hex decoding produces well-formed hashes; parse_canon;
     - the scan in closed form (scan_orphans_unfold): with T the (hash, file) pairs of the entries
       taken for blobs, orphans and corrupted are filters of T, seen is the map of T's keys,
       invalid and staging are filters of the directory listing;
     - membership and NoDup of every list of the report: C08_scan_exact, scan_orphans_spec;
     - runs of delete_orphan_list / remove_paths in a fault-free world; quarantine_list as a
       simulation of delete_orphan_list;
     - the clean-up: delete_orphans_spec, quarantine_orphans_spec, delete_orphan_spec,
       C08_cleanup_rechecks, C08_cleanup_safe_seq, C08_cleanup_restores_C07;
     - finding F5 as computed examples; a computed instance with toyH. *)
From Cas Require Import History.
From CasProofs Require Import BaseProofs SMapProofs IndexProofs StoreFS StoreInv StoreHist.
Open Scope N_scope.

(* partial maps over lists, lookup, deleting a list of paths *)

(* the elements of l on which g is defined, mapped by g *)
Definition olist {A} (o : option A) : list A := match o with Some a => [a] | None => [] end.
Definition omap {A B} (g : A -> option B) (l : list A) : list B := flat_map (fun x => olist (g x)) l.

Lemma omap_app : forall {A B} (g : A -> option B) l l', omap g (l ++ l') = omap g l ++ omap g l'.
Proof. intros. apply flat_map_app. Qed.

Lemma In_omap : forall {A B} (g : A -> option B) l y, In y (omap g l) <-> exists x, In x l /\ g x = Some y.
Proof.
  intros A B g l y. unfold omap. rewrite in_flat_map. split; intros (x & I & E); exists x; (split; [exact I|]).
  - destruct (g x) as [b|]; [|destruct E]. destruct E as [E|[]]. now subst.
  - rewrite E. now left.
Qed.

Lemma NoDup_omap : forall {A B} (g : A -> option B) l,
  (forall x x' y, In x l -> In x' l -> g x = Some y -> g x' = Some y -> x = x') ->
  NoDup l -> NoDup (omap g l).
Proof.
  induction l as [|a l IH]; intros Inj ND; [constructor|].
  change (omap g (a :: l)) with (olist (g a) ++ omap g l).
  inversion ND as [|? ? N1 ND']; subst.
  assert (NDl : NoDup (omap g l)) by (apply IH; [|exact ND']; intros x x' y Ix Ix'; apply Inj; now right).
  destruct (g a) as [b|] eqn:E; [|exact NDl]. constructor; [|exact NDl].
  intros I. apply In_omap in I. destruct I as (x & Ix & Ex).
  apply N1. now rewrite (Inj a x b (or_introl eq_refl) (or_intror Ix) E Ex).
Qed.

Lemma lookup_some_iff : forall l p f, NoDup (paths l) -> (lookup l p = Some f <-> In (p, f) l).
Proof.
  induction l as [|[q g] l IH]; intros p f ND; cbn [lookup In].
  - split; [discriminate|tauto].
  - inversion ND as [|? ? N1 ND']; subst. cbn [fst] in N1.
    destruct (path_eqb_spec p q) as [E|E].
    + subst q. split.
      * intros X. inversion X. now left.
      * intros [X|X]; [congruence|]. exfalso. apply N1.
        change (In (fst (p, f)) (map fst l)). now apply in_map.
    + rewrite (IH p f ND'). split; [tauto|]. intros [X|X]; [|exact X]. inversion X. congruence.
Qed.

Lemma fget_in_iff : forall s p f, FsWf s -> (fget s p = Some f <-> In (p, f) (files s)).
Proof. intros s p f W. unfold fget. now apply lookup_some_iff. Qed.

Lemma files_nodup : forall s, FsWf s -> NoDup (files s).
Proof. intros s W. eapply NoDup_map_inv. exact W. Qed.

Lemma remove_path_absent : forall l p, lookup l p = None -> remove_path l p = l.
Proof.
  induction l as [|[q g] l IH]; intros p; cbn [lookup remove_path]; [reflexivity|].
  destruct (path_eqb p q); [discriminate|]. intros E. now rewrite IH.
Qed.

Lemma del_missing : forall s p, fget s p = None -> del s p = s.
Proof.
  intros [fl ds n] p E. unfold fget in E. cbn [files] in E. unfold del, with_files.
  cbn [files dirs nstage]. now rewrite remove_path_absent.
Qed.

(* delete a list of paths, one after the other *)
Definition del_all (ps : list path) (s : fs) : fs := fold_left del ps s.

Lemma del_all_app : forall ps qs s, del_all (ps ++ qs) s = del_all qs (del_all ps s).
Proof. intros. unfold del_all. apply fold_left_app. Qed.

Lemma frame_del_all : forall ps s, Frame (fun q => In q ps) s (del_all ps s).
Proof.
  induction ps as [|p ps IH]; intros s; cbn [del_all fold_left]; [apply frame_refl|].
  eapply frame_trans.
  - apply (frame_del (fun q => In q (p :: ps))). now left.
  - eapply frame_weaken; [|apply IH]. intros q I. now right.
Qed.

Lemma del_all_wf : forall ps s, FsWf s -> FsWf (del_all ps s).
Proof. intros ps s. apply (fr_wf _ _ _ (frame_del_all ps s)). Qed.

Lemma fget_del_all : forall ps s q, FsWf s ->
  fget (del_all ps s) q = if existsb (path_eqb q) ps then None else fget s q.
Proof.
  induction ps as [|p ps IH]; intros s q W; cbn [del_all fold_left existsb]; [reflexivity|].
  fold (del_all ps (del s p)). rewrite IH by now apply del_wf.
  destruct (path_eqb_spec q p) as [E|E]; cbn [orb].
  - subst q. rewrite fget_del_same by exact W. now destruct (existsb _ ps).
  - now rewrite fget_del_other.
Qed.

Lemma existsb_path_iff : forall q ps, existsb (path_eqb q) ps = true <-> In q ps.
Proof.
  intros q ps. rewrite existsb_exists. split.
  - intros (x & I & E). apply path_eqb_true_iff in E. now subst.
  - intros I. exists q. split; [exact I|apply path_eqb_refl].
Qed.

Lemma fget_del_all_in : forall ps s q, FsWf s -> In q ps -> fget (del_all ps s) q = None.
Proof.
  intros ps s q W I. rewrite fget_del_all by exact W.
  apply existsb_path_iff in I. now rewrite I.
Qed.

Lemma fget_del_all_other : forall ps s q, ~ In q ps -> fget (del_all ps s) q = fget s q.
Proof. intros ps s q N. now destruct (fr_get _ _ _ (frame_del_all ps s) q). Qed.

(* a well-formed hash: 32 bytes *)
Definition wfhash (h : bytes) : Prop := length h = 32%nat /\ Forall (fun b => b < 256) h.

(* whatever parse_path accepts is a 32-byte string of bytes *)
Lemma parse_path_wf : forall comps h, parse_path comps = Some h -> wfhash h.
Proof.
  intros comps h. unfold parse_path. destruct (rev comps) as [|c3 [|c2 [|c1 r]]]; try discriminate.
  unfold hex_dec. destruct (Nat.eqb_spec (length (c1 ++ c2 ++ c3)) (2 * 32)) as [L|L]; [|discriminate].
  intros E. apply hex_dec_pairs_wf in E. destruct E as [L2 F]. split; [lia|exact F].
Qed.

(* the scan's test: an entry names the blob of h only at the canonical
   path of h; upper-case digits and re-split components are rejected *)
Lemma parse_canon_iff : forall comps h,
  parse_canon comps = Some h <-> comps = hexpath h /\ wfhash h.
Proof.
  intros comps h. unfold parse_canon. split.
  - destruct (parse_path comps) as [h'|] eqn:P; [|discriminate].
    destruct (dir_eqb comps (hexpath h')) eqn:D; [|discriminate].
    intros X. inversion X; subst h'. apply dir_eqb_true_iff in D.
    split; [exact D|exact (parse_path_wf _ _ P)].
  - intros [-> [L F]]. rewrite (parse_hexpath [] h L F : parse_path (hexpath h) = Some h).
    now rewrite (proj2 (dir_eqb_true_iff (hexpath h) (hexpath h)) eq_refl).
Qed.

Lemma parse_canon_hexpath : forall h, wfhash h -> parse_canon (hexpath h) = Some h.
Proof. intros h Wh. apply parse_canon_iff. now split. Qed.

Lemma parse_canon_len3 : forall comps h, parse_canon comps = Some h -> length comps = 3%nat.
Proof. intros comps h P. apply parse_canon_iff in P. destruct P as [-> _]. reflexivity. Qed.

(* parse_path alone accepts more: anything that decodes (finding F5 is about the difference) *)
Lemma parse_canon_parse_path : forall comps h, parse_canon comps = Some h -> parse_path comps = Some h.
Proof.
  intros comps h P. apply parse_canon_iff in P. destruct P as [-> [L F]].
  apply (parse_hexpath [] h L F).
Qed.

Lemma cas_path_inj : forall h1 h2, wfhash h1 -> wfhash h2 -> cas_path h1 = cas_path h2 -> h1 = h2.
Proof.
  intros h1 h2 [L1 F1] [L2 F2] E. unfold cas_path in E.
  assert (hexpath h1 = hexpath h2) by congruence. now apply hexpath_inj.
Qed.

Lemma index_hashes_sorted : forall m, sorted lex_cmp (index_hashes m).
Proof.
  intros m.
  apply (fold_ins_spec lex_cmp lex_refl lex_eq lex_antisym lex_trans (fun e : bytes * item => ihash (snd e)) (fun e => isize (snd e)) (km (idx m)) [] I).
Qed.

(* the scan in closed form *)
Section ScanFold.
  Variable H : bytes -> bytes.
  Variable ih : smap N.
  Variable verify : bool.

  (* a directory entry the scan takes for a blob (three components below cas/ that parse_canon
     accepts), as the hash it stands for and its file *)
  Definition taken1 (pf : path * file) : option (bytes * file) :=
    match fst pf with
    | PCas ([_; _; _] as comps) => option_map (fun h => (h, snd pf)) (parse_canon comps)
    | _ => None
    end.
  Definition taken (l : list (path * file)) : list (bytes * file) := omap taken1 l.

  Definition bad_blob (f : file) (sz : N) (h : bytes) : bool :=
    negb ((len (fdata f) =? sz) && beqb (H (fdata f)) h).
  (* the tests that sort entries into the lists of the report *)
  Definition unindexed (hf : bytes * file) : bool :=
    match sm_get lex_cmp ih (fst hf) with None => true | Some _ => false end.
  Definition damaged (hf : bytes * file) : bool :=
    match sm_get lex_cmp ih (fst hf) with
    | Some sz => verify && bad_blob (snd hf) sz (fst hf)
    | None => false
    end.
  Definition stray (pf : path * file) : bool :=
    match fst pf with PCas _ => match taken1 pf with None => true | Some _ => false end | _ => false end.
  Definition staged (pf : path * file) : bool :=
    match fst pf with PStaging _ => true | _ => false end.
  Definition see (seen : smap unit) (hf : bytes * file) : smap unit := sm_ins lex_cmp seen (fst hf) tt.

  (* the report of a scan over l, from a report o whose total is 0 *)
  Definition scanned (o : ostats) (l : list (path * file)) : ostats :=
    mkOstats (o_orphans o ++ map fst (filter unindexed (taken l))) (o_invalid o ++ map fst (filter stray l))
             (o_missing o) (o_corrupted o ++ map fst (filter damaged (taken l)))
             (o_staging o ++ map fst (filter staged l)) 0.

  (* the loop, for any step function that sorts one entry the way [scanned] says *)
  Lemma scan_fold : forall step : ostats * smap unit -> path * file -> ostats * smap unit,
    (forall o seen pf, o_total o = 0 ->
       step (o, seen) pf = (scanned o [pf], fold_left see (taken [pf]) seen)) ->
    forall l o seen, o_total o = 0 ->
    fold_left step l (o, seen) = (scanned o l, fold_left see (taken l) seen).
  Proof using.
    intros step St. induction l as [|pf l IH]; intros o seen T; cbn [fold_left].
    - destruct o. cbn in T |- *. subst. unfold scanned. cbn. now rewrite !app_nil_r.
    - rewrite (St _ _ _ T), IH by reflexivity.
      change (pf :: l) with ([pf] ++ l). unfold scanned, taken.
      cbn [o_orphans o_invalid o_missing o_corrupted o_staging].
      now rewrite omap_app, !filter_app, !map_app, fold_left_app, <- !app_assoc.
  Qed.

  (* an entry is taken for h exactly at the canonical path of the well-formed h *)
  Lemma taken1_iff : forall pf h f, taken1 pf = Some (h, f) <-> pf = (cas_path h, f) /\ wfhash h.
  Proof using.
    intros [p g] h f. unfold taken1. cbn [fst snd]. split.
    - destruct p as [| | | | | i | i | [|x [|y [|z [|u r]]]]]; try discriminate.
      destruct (parse_canon [x; y; z]) as [h'|] eqn:P; [|discriminate]. intros E. injection E as -> ->.
      apply parse_canon_iff in P. destruct P as [E Wh]. unfold cas_path. now rewrite <- E.
    - intros [E Wh]. injection E as -> ->.
      change (option_map (fun h0 => (h0, f)) (parse_canon (hexpath h)) = Some (h, f)).
      now rewrite (parse_canon_hexpath h Wh).
  Qed.
End ScanFold.

(* scan_orphans in terms of the above *)
Lemma scan_orphans_unfold : forall H m s verify,
  let ih := index_hashes m in
  let T := taken (files s) in
  let seen := fold_left see T [] in
  scan_orphans H m s verify =
  mkOstats (map fst (filter (unindexed ih) T)) (map fst (filter stray (files s)))
           (map fst (filter (fun e => match sm_get lex_cmp seen (fst e) with None => true | Some _ => false end) ih))
           (map fst (filter (damaged H ih verify) T)) (map fst (filter staged (files s)))
           (N.of_nat (length seen)).
Proof.
  intros H m s verify ih T seen. unfold scan_orphans. cbv zeta. fold ih.
  (* the loop body of scan_orphans is such a step function *)
  erewrite (scan_fold H ih verify); [reflexivity| |reflexivity].
  intros [a b c d e t] sn [p f] T0. cbn [o_total] in T0. subst t.
  unfold scanned, taken, omap, stray, staged, taken1.
  cbn [fst snd flat_map o_orphans o_invalid o_missing o_corrupted o_staging].
  destruct p as [| | | | | i | i | [|x [|y [|z [|u r]]]]]; cbn [olist filter map fst app fold_left];
    rewrite ?app_nil_r; try reflexivity.
  destruct (parse_canon [x; y; z]) as [h|]; cbn [option_map olist filter map fst app fold_left];
    rewrite ?app_nil_r; [|reflexivity].
  unfold unindexed, damaged, see, bad_blob. cbn [fst snd].
  destruct (sm_get lex_cmp ih h) as [sz|]; [destruct (verify && _)|];
    cbn [map fst]; rewrite ?app_nil_r; reflexivity.
Qed.

(* the scan is exact *)
Section Orphans.
  Variable H : bytes -> bytes.
  Hypothesis H_len : forall b, length (H b) = 32%nat.
  Hypothesis H_byte : forall b, Forall (fun x => x < 256) (H b).
  Variable cfg : config.
  Let cmp := key_cmp (c_kt cfg).

  (* Live0 without the filesystem: in particular without lv_cas *)
  Record Live0m (m : mem) (sg : smap bytes) : Prop := mkLive0m {
    lm_sorted : sorted cmp sg;
    lm_km : km (idx m) = km_of H sg;
    lm_idx : IdxInv cmp (idx m);
    lm_nocollide : NoCollide H (map snd sg)
  }.

  Lemma Live0_Live0m : forall m s sg, Live0 H cfg m s sg -> Live0m m sg.
  Proof using. intros m s sg L. destruct L. now constructor. Qed.

  Definition ref_hash (sg : smap bytes) (h : bytes) : Prop := exists k c, In (k, c) sg /\ H c = h.
  Definition blob_entry (s : fs) (comps : list bytes) (f : file) : Prop :=
    fget s (PCas comps) = Some f /\ length comps = 3%nat.
  (* what a scan that tested names with parse_path would need as a hypothesis (finding F5); the
     scan tests them with parse_canon and this is assumed nowhere, it only describes the F5
     examples *)
  Definition canonical_names (s : fs) : Prop :=
    forall comps f h, blob_entry s comps f -> parse_path comps = Some h -> comps = hexpath h.

  Lemma ref_hash_wf : forall sg h, ref_hash sg h -> wfhash h.
  Proof using H_len H_byte. intros sg h (k & c & _ & <-). split; [apply H_len|apply H_byte]. Qed.

  (* the hashes of the index entries are the referenced hashes *)
  Lemma ref_hash_km : forall m sg h, Live0m m sg ->
    (ref_hash sg h <-> exists e, In e (km (idx m)) /\ ihash (snd e) = h).
  Proof using.
    intros m sg h L. rewrite (lm_km _ _ L). split.
    - intros (k & c & I & E). exists (k, item_of H c). split; [|exact E].
      apply StoreWrite.In_km_of. now exists c.
    - intros ([k i] & I & E). apply StoreWrite.In_km_of in I. destruct I as (c & I & ->). now exists k, c.
  Qed.

  Lemma referenced_iff : forall m sg h, Live0m m sg -> (referenced m h = true <-> ref_hash sg h).
  Proof using.
    intros m sg h L. rewrite (ref_hash_km m sg h L).
    pose proof (C12_known_iff_referenced _ _ (lm_idx _ _ L) h) as K. unfold referenced.
    destruct (rc_get (rc (idx m)) h); split.
    - intros _. destruct (proj1 K) as (k & i & I & E); [discriminate|]. now exists (k, i).
    - reflexivity.
    - discriminate.
    - intros ([k i] & I & E). exfalso. apply (proj2 K); [now exists k, i|reflexivity].
  Qed.

  Section Scan.
    Variables (m : mem) (s : fs) (sg : smap bytes) (verify : bool).
    Hypothesis L : Live0m m sg.
    Hypothesis W : FsWf s.
    Let o := scan_orphans H m s verify.
    Let ih := index_hashes m.

    (* index_hashes maps exactly the referenced hashes, each to the length of its content: by
       NoCollide the content of a hash is unique *)
    Lemma ih_get_sg : forall h z,
      sm_get lex_cmp ih h = Some z <-> exists k c, In (k, c) sg /\ H c = h /\ len c = z.
    Proof using L.
      destruct (fold_ins_spec lex_cmp lex_refl lex_eq lex_antisym lex_trans (fun e : bytes * item => ihash (snd e)) (fun e => isize (snd e))
                             (km (idx m)) [] I) as (_ & G & D).
      fold (index_hashes m) in G, D. fold ih in G, D. intros h z. split.
      - intros E. destruct (G h z E) as [X|([k i] & Ii & E1 & E2)]; [discriminate|].
        rewrite (lm_km _ _ L) in Ii. apply StoreWrite.In_km_of in Ii. destruct Ii as (c & Ic & ->).
        now exists k, c.
      - intros (k & c & Ic & E1 & E2).
        destruct (sm_get lex_cmp ih h) as [z'|] eqn:E.
        + destruct (G h z' E) as [X|([k' i'] & Ii & E1' & E2')]; [discriminate|].
          rewrite (lm_km _ _ L) in Ii. apply StoreWrite.In_km_of in Ii. destruct Ii as (c' & Ic' & ->).
          cbn [snd item_of ihash isize] in E1', E2'. f_equal. rewrite <- E2, <- E2'. f_equal.
          apply (lm_nocollide _ _ L); [now apply (in_map snd _ (k', c'))|now apply (in_map snd _ (k, c))|].
          congruence.
        + exfalso. revert E. apply D. right. apply (proj1 (ref_hash_km m sg h L)). now exists k, c.
    Qed.

    Lemma ih_ref : forall h, sm_get lex_cmp ih h <> None <-> ref_hash sg h.
    Proof using L.
      intros h. split.
      - destruct (sm_get lex_cmp ih h) as [z|] eqn:E; [intros _|contradiction].
        apply ih_get_sg in E. destruct E as (k & c & I & E & _). now exists k, c.
      - intros (k & c & I & E). rewrite (proj2 (ih_get_sg h (len c))); [discriminate|now exists k, c].
    Qed.

    Lemma unindexed_iff : forall h f, unindexed ih (h, f) = true <-> ~ ref_hash sg h.
    Proof using L.
      intros h f. rewrite <- ih_ref. unfold unindexed. cbn [fst].
      destruct (sm_get lex_cmp ih h); split; try discriminate; try reflexivity.
      - intros X. exfalso. apply X. discriminate.
      - intros _ X. now apply X.
    Qed.

    Lemma ref_hash_dec : forall h, ref_hash sg h \/ ~ ref_hash sg h.
    Proof using L.
      intros h. destruct (referenced m h) eqn:R.
      - left. now apply (referenced_iff m sg h L).
      - right. intros X. apply (referenced_iff m sg h L) in X. congruence.
    Qed.

    (* the entries taken for blobs: one for each canonical path that holds a file *)
    Lemma In_taken : forall h f, In (h, f) (taken (files s)) <-> wfhash h /\ fget s (cas_path h) = Some f.
    Proof using W.
      intros h f. unfold taken. rewrite In_omap. split.
      - intros (pf & I & E). apply taken1_iff in E. destruct E as [-> Wh].
        split; [exact Wh|now apply fget_in_iff].
      - intros [Wh G]. exists (cas_path h, f). split; [now apply fget_in_iff|now apply taken1_iff].
    Qed.

    Lemma taken_nodup : NoDup (map fst (taken (files s))).
    Proof using W.
      apply NoDup_map_inj_on.
      - intros [h f] [h' f'] I I' E. cbn [fst] in E. subst h'. apply In_taken in I, I'.
        destruct I as [_ G], I' as [_ G']. congruence.
      - apply NoDup_omap; [|now apply files_nodup]. intros x x' [h f] I I' E E'.
        apply taken1_iff in E, E'. destruct E as [-> _], E' as [-> _]. reflexivity.
    Qed.

    Lemma taken_keys : forall h,
      In h (map fst (taken (files s))) <-> wfhash h /\ fget s (cas_path h) <> None.
    Proof using W.
      intros h. rewrite in_map_iff. split.
      - intros ([h' f] & <- & I). apply In_taken in I. destruct I as [Wh G]. split; [exact Wh|].
        cbn [fst]. congruence.
      - intros [Wh G]. destruct (fget s (cas_path h)) as [f|] eqn:E; [|contradiction].
        exists (h, f). split; [reflexivity|now apply In_taken].
    Qed.

    Lemma seen_spec :
      let seen := fold_left see (taken (files s)) [] in
      sorted lex_cmp seen /\
      forall h, sm_get lex_cmp seen h <> None <-> wfhash h /\ fget s (cas_path h) <> None.
    Proof using W.
      destruct (fold_ins_spec lex_cmp lex_refl lex_eq lex_antisym lex_trans fst (fun _ : bytes * file => tt) (taken (files s)) [] I) as (S & G & D).
      split; [exact S|]. intros h. rewrite <- taken_keys, in_map_iff. split.
      - intros N. destruct (sm_get lex_cmp _ h) as [u|] eqn:E; [|contradiction].
        destruct (G h u E) as [X|(x & Ix & Ex & _)]; [discriminate|]. now exists x.
      - intros (x & Ex & Ix). apply D. right. now exists x.
    Qed.

    Theorem scan_In_orphans : forall h,
      In h (o_orphans o) <-> wfhash h /\ fget s (cas_path h) <> None /\ ~ ref_hash sg h.
    Proof using L W.
      intros h. unfold o. rewrite scan_orphans_unfold. cbn [o_orphans]. fold ih. rewrite in_map_iff. split.
      - intros ([h' f] & <- & I). apply filter_In in I. destruct I as [I U]. apply In_taken in I.
        destruct I as [Wh G]. cbn [fst]. split; [exact Wh|]. split; [congruence|now apply (unindexed_iff h' f)].
      - intros (Wh & G & NR). destruct (fget s (cas_path h)) as [f|] eqn:E; [|contradiction].
        exists (h, f). split; [reflexivity|]. apply filter_In.
        split; [now apply In_taken|now apply unindexed_iff].
    Qed.

    Theorem scan_In_missing : forall h,
      In h (o_missing o) <-> ref_hash sg h /\ ~ (wfhash h /\ fget s (cas_path h) <> None).
    Proof using L W.
      intros h. unfold o. rewrite scan_orphans_unfold. cbn [o_missing]. fold ih.
      destruct seen_spec as [_ Sn]. set (seen := fold_left see _ []) in *.
      rewrite in_map_iff, <- ih_ref, <- Sn. split.
      - intros ([h' z] & <- & I). apply filter_In in I. destruct I as [I F]. cbn [fst] in *.
        apply (lex_get_in _ _ _ (index_hashes_sorted m)) in I. fold ih in I. split; [congruence|].
        now destruct (sm_get lex_cmp seen h').
      - intros [R N]. destruct (sm_get lex_cmp ih h) as [z|] eqn:E; [|contradiction].
        exists (h, z). split; [reflexivity|]. apply filter_In.
        split; [now apply (lex_get_in _ _ _ (index_hashes_sorted m))|]. cbn [fst].
        destruct (sm_get lex_cmp seen h); [|reflexivity]. exfalso. apply N. discriminate.
    Qed.

    (* the cas entries not taken for a blob: those that are not at the canonical path of any hash *)
    Lemma stray_iff : forall p f,
      stray (p, f) = true <-> exists comps, p = PCas comps /\ ~ exists h, wfhash h /\ comps = hexpath h.
    Proof using.
      intros p f. unfold stray. cbn [fst].
      destruct p as [| | | | | i | i | comps]; try (split; [|intros (c & X & _)]; discriminate).
      destruct (taken1 (PCas comps, f)) as [[h g]|] eqn:T; split; try discriminate; try reflexivity.
      - intros (c & X & N). injection X as <-. apply taken1_iff in T. destruct T as [E Wh].
        exfalso. apply N. exists h. split; [exact Wh|]. unfold cas_path in E. congruence.
      - intros _. exists comps. split; [reflexivity|]. intros (h & Wh & ->).
        assert (X : taken1 (PCas (hexpath h), f) = Some (h, f)) by (apply taken1_iff; now split).
        congruence.
    Qed.

    Theorem scan_In_invalid : forall p,
      In p (o_invalid o) <->
      exists comps f, p = PCas comps /\ fget s p = Some f /\ ~ exists h, wfhash h /\ comps = hexpath h.
    Proof using W.
      intros p. unfold o. rewrite scan_orphans_unfold. cbn [o_invalid]. rewrite in_map_iff. split.
      - intros ([q f] & <- & I). apply filter_In in I. destruct I as [I St]. cbn [fst].
        apply stray_iff in St. destruct St as (comps & -> & N). exists comps, f.
        split; [reflexivity|]. split; [now apply fget_in_iff|exact N].
      - intros (comps & f & -> & G & N). exists (PCas comps, f). split; [reflexivity|]. apply filter_In.
        split; [now apply fget_in_iff|]. apply stray_iff. now exists comps.
    Qed.

    Theorem scan_In_staging : forall p,
      In p (o_staging o) <-> exists i f, p = PStaging i /\ fget s p = Some f.
    Proof using W.
      intros p. unfold o. rewrite scan_orphans_unfold. cbn [o_staging]. rewrite in_map_iff. split.
      - intros ([q f] & <- & I). apply filter_In in I. destruct I as [I St]. cbn [fst].
        destruct q as [| | | | | j | i | comps]; try discriminate St. exists i, f.
        split; [reflexivity|now apply fget_in_iff].
      - intros (i & f & -> & G). exists (PStaging i, f). split; [reflexivity|]. apply filter_In.
        split; [now apply fget_in_iff|reflexivity].
    Qed.

    Lemma bad_blob_iff : forall f sz h,
      bad_blob H f sz h = true <-> ~ (len (fdata f) = sz /\ H (fdata f) = h).
    Proof using.
      intros f sz h. unfold bad_blob. rewrite negb_true_iff, andb_false_iff, N.eqb_neq, beqb_false_iff. split.
      - intros [X|X] [Y Z]; contradiction.
      - intros X. destruct (N.eq_dec (len (fdata f)) sz) as [Y|Y]; [right|now left].
        intros Z. apply X. now split.
    Qed.

    (* verify = true: a referenced hash whose file has the wrong length or the wrong hash; the
       recorded size of h is the length of the (by NoCollide unique) content c with H c = h *)
    Theorem scan_In_corrupted : verify = true -> forall h,
      In h (o_corrupted o) <->
      wfhash h /\ exists f k c, fget s (cas_path h) = Some f /\ In (k, c) sg /\ H c = h /\
                                ~ (len (fdata f) = len c /\ H (fdata f) = h).
    Proof using L W.
      intros V h. unfold o. rewrite scan_orphans_unfold. cbn [o_corrupted]. fold ih.
      rewrite V, in_map_iff. unfold damaged. split.
      - intros ([h' f] & <- & I). apply filter_In in I. destruct I as [I D]. apply In_taken in I.
        cbn [fst snd andb] in *. destruct (sm_get lex_cmp ih h') as [sz|] eqn:G; [|discriminate].
        apply ih_get_sg in G. destruct G as (k & c & Ik & E1 & <-). split; [apply I|]. exists f, k, c.
        split; [apply I|]. split; [exact Ik|]. split; [exact E1|now apply bad_blob_iff].
      - intros (Wh & f & k & c & G & Ik & E & Bad). exists (h, f). split; [reflexivity|]. apply filter_In.
        split; [now apply In_taken|].
        cbn [fst snd]. rewrite (proj2 (ih_get_sg h (len c))) by now exists k, c.
        now apply bad_blob_iff.
    Qed.

    Theorem scan_corrupted_off : verify = false -> o_corrupted o = [].
    Proof using.
      intros V. unfold o. rewrite scan_orphans_unfold. cbn [o_corrupted]. rewrite V.
      rewrite filter_none; [reflexivity|]. intros hf _. unfold damaged.
      now destruct (sm_get lex_cmp (index_hashes m) (fst hf)).
    Qed.

    (* o_total = number of distinct hashes that some entry is taken for *)
    Theorem scan_total : exists hs,
      NoDup hs /\ (forall h, In h hs <-> wfhash h /\ fget s (cas_path h) <> None) /\
      o_total o = N.of_nat (length hs).
    Proof using W.
      destruct seen_spec as [S Sn].
      exists (sm_keys (fold_left see (taken (files s)) [])). split; [now apply lex_keys_nodup|]. split.
      - intros h. rewrite <- Sn. unfold sm_keys. rewrite in_map_iff. split.
        + intros ([h' u] & <- & I). apply (lex_get_in _ _ _ S) in I. cbn [fst]. congruence.
        + intros N. destruct (sm_get lex_cmp _ h) as [u|] eqn:E; [|contradiction].
          exists (h, u). split; [reflexivity|now apply (lex_get_in _ _ _ S)].
      - unfold o. rewrite scan_orphans_unfold. cbn [o_total]. unfold sm_keys. now rewrite map_length.
    Qed.

    (* multiplicities: every list is a sublist of a list without repetitions *)
    Theorem scan_orphans_nodup : NoDup (o_orphans o).
    Proof using W. unfold o. rewrite scan_orphans_unfold. apply NoDup_map_filter, taken_nodup. Qed.

    Theorem scan_corrupted_nodup : NoDup (o_corrupted o).
    Proof using W. unfold o. rewrite scan_orphans_unfold. apply NoDup_map_filter, taken_nodup. Qed.

    Theorem scan_invalid_nodup : NoDup (o_invalid o).
    Proof using W. unfold o. rewrite scan_orphans_unfold. apply NoDup_map_filter, W. Qed.

    Theorem scan_staging_nodup : NoDup (o_staging o).
    Proof using W. unfold o. rewrite scan_orphans_unfold. apply NoDup_map_filter, W. Qed.

    Theorem scan_missing_nodup : NoDup (o_missing o).
    Proof using.
      unfold o. rewrite scan_orphans_unfold. cbn [o_missing].
      apply (lex_keys_nodup (filter _ (index_hashes m))), lex_sorted_filter, index_hashes_sorted.
    Qed.

    (* the scan speaks about hashes (no assumption on names) *)
    Theorem C08_scan_exact :
      (* orphans: the canonical CAS files of unreferenced hashes *)
      (forall h, In h (o_orphans o) <->
                 wfhash h /\ fget s (cas_path h) <> None /\ ~ ref_hash sg h) /\
      (* missing: the referenced hashes without a file at their canonical path *)
      (forall h, In h (o_missing o) <-> ref_hash sg h /\ fget s (cas_path h) = None) /\
      (* invalid: the files under cas/ that are not at the canonical path of any hash; this
         includes upper-case and re-split spellings of a hash *)
      (forall p, In p (o_invalid o) <->
                 exists comps f, p = PCas comps /\ fget s p = Some f /\
                                 ~ exists h, wfhash h /\ comps = hexpath h) /\
      (forall p, In p (o_staging o) <-> exists i f, p = PStaging i /\ fget s p = Some f) /\
      (* corrupted: referenced, present, but of the wrong length or with the wrong hash *)
      (verify = true -> forall h, In h (o_corrupted o) <->
         exists f k c, fget s (cas_path h) = Some f /\ In (k, c) sg /\ H c = h /\
                       ~ (len (fdata f) = len c /\ H (fdata f) = h)) /\
      (verify = false -> o_corrupted o = []) /\
      NoDup (o_orphans o) /\ NoDup (o_missing o) /\ NoDup (o_invalid o) /\
      NoDup (o_staging o) /\ NoDup (o_corrupted o) /\
      (* total: the number of canonical CAS files *)
      (exists hs, NoDup hs /\ (forall h, In h hs <-> wfhash h /\ fget s (cas_path h) <> None) /\
                  o_total o = N.of_nat (length hs)).
    Proof using H_len H_byte L W.
      split; [exact scan_In_orphans|]. split; [|split; [exact scan_In_invalid|]].
      { intros h. eapply iff_trans; [apply scan_In_missing|]. split; intros [R X]; (split; [exact R|]).
        - destruct (fget s (cas_path h)) eqn:E; [|reflexivity]. exfalso. apply X.
          split; [exact (ref_hash_wf sg h R)|discriminate].
        - intros [_ Y]. contradiction. }
      split; [exact scan_In_staging|]. split; [|split; [exact scan_corrupted_off|]].
      { intros V h. eapply iff_trans; [apply (scan_In_corrupted V)|]. split; [intros [_ X]; exact X|].
        intros (f & k & c & G & Ik & E & Bad). split; [apply (ref_hash_wf sg); now exists k, c|].
        exists f, k, c. repeat (split; [assumption|]). exact Bad. }
      split; [exact scan_orphans_nodup|]. split; [exact scan_missing_nodup|].
      split; [exact scan_invalid_nodup|]. split; [exact scan_staging_nodup|].
      split; [exact scan_corrupted_nodup|exact scan_total].
    Qed.

    (* the same in terms of directory entries and the scan's test on their names *)
    Lemma canonical_entry : forall h,
      (exists comps f, blob_entry s comps f /\ parse_canon comps = Some h) <->
      wfhash h /\ fget s (cas_path h) <> None.
    Proof using.
      intros h. split.
      - intros (comps & f & [G _] & P). apply parse_canon_iff in P. destruct P as [-> Wh].
        split; [exact Wh|]. unfold cas_path. congruence.
      - intros [Wh G]. destruct (fget s (cas_path h)) as [f|] eqn:E; [|contradiction].
        exists (hexpath h), f. split; [now split|now apply parse_canon_hexpath].
    Qed.

    Lemma not_canonical_iff : forall comps,
      (length comps <> 3%nat \/ parse_canon comps = None) <-> ~ exists h, wfhash h /\ comps = hexpath h.
    Proof using.
      intros comps. split.
      - intros B (h & Wh & ->). pose proof (parse_canon_hexpath h Wh) as P.
        destruct B as [B|B]; [now apply B|congruence].
      - intros N. destruct (parse_canon comps) as [h|] eqn:P; [|now right].
        exfalso. apply N. exists h. apply parse_canon_iff in P. now split.
    Qed.

    Theorem scan_orphans_spec :
      (forall h, In h (o_orphans o) <->
         exists comps f, blob_entry s comps f /\ parse_canon comps = Some h /\ ~ ref_hash sg h) /\
      (forall p, In p (o_invalid o) <->
         exists comps f, p = PCas comps /\ fget s p = Some f /\
                         (length comps <> 3%nat \/ parse_canon comps = None)) /\
      (forall h, In h (o_missing o) <->
         ref_hash sg h /\ ~ exists comps f, blob_entry s comps f /\ parse_canon comps = Some h) /\
      (forall p, In p (o_staging o) <-> exists i f, p = PStaging i /\ fget s p = Some f) /\
      (verify = true -> forall h, In h (o_corrupted o) <->
         exists comps f k c, blob_entry s comps f /\ parse_canon comps = Some h /\
                             In (k, c) sg /\ H c = h /\
                             ~ (len (fdata f) = len c /\ H (fdata f) = h)) /\
      (verify = false -> o_corrupted o = []) /\
      (exists hs, NoDup hs /\
         (forall h, In h hs <-> exists comps f, blob_entry s comps f /\ parse_canon comps = Some h) /\
         o_total o = N.of_nat (length hs)).
    Proof using L W.
      split; [|split; [|split; [|split; [|split; [|split]]]]].
      - intros h. eapply iff_trans; [apply scan_In_orphans|]. split.
        + intros (Wh & G & NR). destruct (proj2 (canonical_entry h) (conj Wh G)) as (comps & f & B & P).
          now exists comps, f.
        + intros (comps & f & B & P & NR).
          destruct (proj1 (canonical_entry h)) as [Wh G]; [now exists comps, f|].
          split; [exact Wh|]. now split.
      - intros p. eapply iff_trans; [apply scan_In_invalid|].
        split; intros (comps & f & E & G & B); exists comps, f; (split; [exact E|]); (split; [exact G|]);
          now apply not_canonical_iff.
      - intros h. eapply iff_trans; [apply scan_In_missing|].
        split; intros [R X]; (split; [exact R|]); intros Y; apply X, canonical_entry, Y.
      - exact scan_In_staging.
      - intros V h. eapply iff_trans; [apply (scan_In_corrupted V)|]. split.
        + intros (Wh & f & k & c & G & Ik & E & Bad). exists (hexpath h), f, k, c. split; [now split|].
          split; [now apply parse_canon_hexpath|]. repeat (split; [assumption|]). exact Bad.
        + intros (comps & f & k & c & [G _] & P & Ik & E & Bad). apply parse_canon_iff in P.
          destruct P as [-> Wh]. split; [exact Wh|]. exists f, k, c. repeat (split; [assumption|]). exact Bad.
      - exact scan_corrupted_off.
      - destruct scan_total as (hs & ND & Ih & T). exists hs. split; [exact ND|]. split; [|exact T].
        intros h. eapply iff_trans; [apply Ih|]. apply iff_sym, canonical_entry.
    Qed.
  End Scan.
End Orphans.

(* runs of the clean-up loops in a fault-free world *)

(* unlink in a fault-free world: afterwards the filesystem is [del _ p], whether the file was there
   (Ok) or not (ENOENT, nothing recorded) *)
Lemma unlink_run : forall w p, wfault w = None ->
  exists w', do_call (CUnlink p) w =
             (match fget (wfs w) p with Some _ => Ok tt | None => Err ENOENT end, w') /\
    wfault w' = None /\ wfs w' = del (wfs w) p /\ (fget (wfs w) p = None -> w' = w).
Proof.
  intros w p F. destruct (fget (wfs w) p) as [f|] eqn:G.
  - eexists. split; [apply do_call_ok; [exact F|cbn [apply_call]; now rewrite G]|].
    split; [reflexivity|]. split; [reflexivity|discriminate].
  - exists w. split; [apply do_call_err; cbn [apply_call]; now rewrite G|].
    split; [exact F|]. split; [symmetry; now apply del_missing|reflexivity].
Qed.

Definition unref (m : mem) (h : bytes) : bool := negb (referenced m h).

(* one round of delete_orphan_list: a referenced hash is skipped, the file of any other is gone
   afterwards, and was counted as deleted if it was there *)
Lemma dol_cons : forall m h hs acc w, wfault w = None ->
  exists acc' w1, delete_orphan_list m (h :: hs) acc w = delete_orphan_list m hs acc' w1 /\
    wfault w1 = None /\ r_errors acc' = r_errors acc /\
    if referenced m h
    then w1 = w /\ r_skipped acc' = r_skipped acc + 1
    else wfs w1 = del (wfs w) (cas_path h) /\ r_skipped acc <= r_skipped acc' /\
         (fget (wfs w) (cas_path h) <> None ->
          r_deleted acc' = r_deleted acc + 1 /\ r_skipped acc' = r_skipped acc).
Proof.
  intros m h hs acc w F. cbn [delete_orphan_list]. destruct (referenced m h).
  - eexists _, w. split; [reflexivity|]. now repeat split.
  - destruct (unlink_run w (cas_path h) F) as (w1 & E1 & F1 & S1 & _). rewrite (bind_eq _ _ _ _ _ E1).
    destruct (fget (wfs w) (cas_path h)); eexists _, w1; (split; [reflexivity|]);
      cbn [r_errors r_deleted r_skipped]; (split; [exact F1|]); (split; [reflexivity|]);
      (split; [exact S1|]); (split; [clear; lia|]); [now split|]. intros X. now contradiction X.
Qed.

Lemma dol_run : forall m hs acc w r w', wfault w = None -> delete_orphan_list m hs acc w = (r, w') ->
  wfault w' = None /\ wfs w' = del_all (map cas_path (filter (unref m) hs)) (wfs w) /\
  r_errors r = r_errors acc /\
  r_skipped acc + N.of_nat (length (filter (referenced m) hs)) <= r_skipped r.
Proof.
  intros m. induction hs as [|h hs IH]; intros acc w r w' F E.
  - injection E as <- <-. cbn [filter map length del_all fold_left]. repeat split; try assumption. lia.
  - destruct (dol_cons m h hs acc w F) as (acc' & w1 & E1 & F1 & Er & C). rewrite E1 in E.
    destruct (IH _ _ _ _ F1 E) as (F' & S & Er' & Sk). rewrite Er in Er'. cbn [filter]. unfold unref at 1.
    destruct (referenced m h); cbn [negb map length del_all fold_left].
    + destruct C as [-> C]. repeat split; try assumption. clear - Sk C. lia.
    + destruct C as (S1 & C & _). rewrite <- S1. repeat split; try assumption. clear - Sk C. lia.
Qed.

(* when nothing is skipped: no listed hash is referenced, every file is there, under its own path *)
Lemma dol_exact : forall m hs acc w r w', wfault w = None -> delete_orphan_list m hs acc w = (r, w') ->
  FsWf (wfs w) -> NoDup (map cas_path hs) ->
  (forall h, In h hs -> referenced m h = false /\ fget (wfs w) (cas_path h) <> None) ->
  r_deleted r = r_deleted acc + N.of_nat (length hs) /\ r_skipped r = r_skipped acc.
Proof.
  intros m. induction hs as [|h hs IH]; intros acc w r w' F E Wf ND A.
  - injection E as <- <-. cbn [length]. lia.
  - destruct (dol_cons m h hs acc w F) as (acc' & w1 & E1 & F1 & _ & C). rewrite E1 in E.
    destruct (A h (or_introl eq_refl)) as [R G]. rewrite R in C. destruct C as (S1 & _ & C).
    destruct (C G) as [D1 D2]. inversion ND as [|? ? N1 ND']; subst.
    destruct (IH acc' w1 r w' F1 E) as [D3 D4];
      [rewrite S1; now apply del_wf|exact ND'| |cbn [length]; clear - D1 D2 D3 D4; lia].
    intros h' I'. destruct (A h' (or_intror I')) as [R' G']. split; [exact R'|].
    rewrite S1, fget_del_other; [exact G'|]. intros X. apply N1. rewrite <- X. now apply in_map.
Qed.

(* quarantine_list is delete_orphan_list with the successes counted as quarantined *)
Definition as_quarantine (r : recovery) : recovery :=
  mkRecovery 0 (r_deleted r) (r_skipped r) 0 0 (r_errors r).

Lemma quarantine_as_delete : forall m hs acc q w, q = as_quarantine acc ->
  quarantine_list m hs q w = let (r, w') := delete_orphan_list m hs acc w in (as_quarantine r, w').
Proof.
  intros m. induction hs as [|h hs IH]; intros acc q w ->; cbn [quarantine_list delete_orphan_list];
    [reflexivity|].
  destruct (referenced m h); [now apply IH|]. unfold bind.
  destruct (do_call (CUnlink (cas_path h)) w) as [[u|[| |]] w1]; now apply IH.
Qed.

Lemma rp_run : forall ps okc errc w r w', wfault w = None -> remove_paths ps okc errc w = (r, w') ->
  wfault w' = None /\ wfs w' = del_all ps (wfs w) /\ snd r = errc /\
  (FsWf (wfs w) -> NoDup ps -> (forall p, In p ps -> fget (wfs w) p <> None) ->
   fst r = okc + N.of_nat (length ps)).
Proof.
  induction ps as [|p ps IH]; intros okc errc w r w' F E; cbn [remove_paths] in E.
  - injection E as <- <-. cbn [length del_all fold_left fst snd]. repeat split; try assumption. lia.
  - rewrite (bind_eq get_fs _ w (wfs w) w eq_refl) in E. cbn [del_all fold_left].
    destruct (fget (wfs w) p) as [f|] eqn:G.
    + destruct (unlink_run w p F) as (w1 & E1 & F1 & S1 & _). rewrite G in E1.
      rewrite (bind_eq _ _ _ _ _ E1) in E. destruct (IH _ _ _ _ _ F1 E) as (F' & S & Er & Ex).
      rewrite <- S1. repeat split; try assumption. intros Wf ND A. inversion ND as [|? ? N1 ND']; subst.
      rewrite Ex; [cbn [length]; clear; lia|rewrite S1; now apply del_wf|exact ND'|].
      intros q Iq. rewrite S1, fget_del_other; [apply A; now right|]. intros X. now subst q.
    + destruct (IH _ _ _ _ _ F E) as (F' & S & Er & Ex). rewrite (del_missing _ _ G).
      repeat split; try assumption. intros Wf ND A. exfalso. apply (A p); [now left|exact G].
Qed.

(* the clean-up is complete and harmless *)

Lemma existsb_beqb_iff : forall h l, existsb (beqb h) l = true <-> In h l.
Proof.
  intros h l. rewrite existsb_exists. split.
  - intros (x & I & E). apply beqb_true_iff in E. now subst.
  - intros I. exists h. split; [exact I|apply beqb_refl].
Qed.

(* everything the clean-up unlinks *)
Definition cleaned (o : ostats) : list path :=
  map cas_path (o_orphans o) ++ o_invalid o ++ o_staging o.

(* single-hash deletion, any stats, any (later) memory *)
Theorem delete_orphan_run : forall m' o h w, wfault w = None ->
  exists b w', delete_orphan m' o h w = (Ok b, w') /\ wfault w' = None /\
    ((b = true /\ In h (o_orphans o) /\ referenced m' h = false /\
      fget (wfs w) (cas_path h) <> None /\ wfs w' = del (wfs w) (cas_path h)) \/
     (b = false /\ w' = w /\
      (~ In h (o_orphans o) \/ referenced m' h = true \/ fget (wfs w) (cas_path h) = None))).
Proof.
  intros m' o h w F. unfold delete_orphan.
  destruct (existsb (beqb h) (o_orphans o)) eqn:E; cbn [negb].
  - apply existsb_beqb_iff in E. destruct (referenced m' h) eqn:R.
    + exists false, w. split; [reflexivity|]. split; [exact F|]. right. split; [reflexivity|].
      split; [reflexivity|]. right. now left.
    + destruct (unlink_run w (cas_path h) F) as (w1 & E1 & F1 & S1 & Same).
      rewrite (bind_eq _ _ _ _ _ E1). destruct (fget (wfs w) (cas_path h)) eqn:G.
      * exists true, w1. split; [reflexivity|]. split; [exact F1|]. left.
        split; [reflexivity|]. split; [exact E|]. split; [reflexivity|]. split; [discriminate|exact S1].
      * rewrite (Same eq_refl). exists false, w. split; [reflexivity|]. split; [exact F|]. right.
        split; [reflexivity|]. split; [reflexivity|]. right. now right.
  - exists false, w. split; [reflexivity|]. split; [exact F|]. right. split; [reflexivity|].
    split; [reflexivity|]. left. intros I. apply existsb_beqb_iff in I. congruence.
Qed.

(* C08_cleanup_rechecks, general form: the list loop consults the memory it is given (a later
   one than the scan's, say): a hash referenced there is skipped and counted, and its file stays,
   provided no other listed hash shares its path *)
Theorem delete_orphan_list_rechecks : forall m' hs acc w h,
  wfault w = None -> FsWf (wfs w) ->
  In h hs -> referenced m' h = true ->
  (forall h', In h' hs -> cas_path h' = cas_path h -> h' = h) ->
  exists r w', delete_orphan_list m' hs acc w = (r, w') /\
    fget (wfs w') (cas_path h) = fget (wfs w) (cas_path h) /\
    r_skipped acc + N.of_nat (length (filter (referenced m') hs)) <= r_skipped r /\
    r_skipped acc + 1 <= r_skipped r /\ r_errors r = r_errors acc.
Proof.
  intros m' hs acc w h F Wf Ih R Inj. destruct (delete_orphan_list m' hs acc w) as [r w'] eqn:E.
  destruct (dol_run m' hs acc w r w' F E) as (_ & S & Er & Sk).
  exists r, w'. split; [reflexivity|]. split; [|split; [exact Sk|split; [|exact Er]]].
  - rewrite S. apply fget_del_all_other. intros I. apply in_map_iff in I.
    destruct I as (h' & E' & I'). apply filter_In in I'. destruct I' as [I' U].
    apply Inj in E'; [|exact I']. subst h'. unfold unref in U. rewrite R in U. discriminate.
  - assert (In h (filter (referenced m') hs)) as X by (apply filter_In; now split).
    destruct (filter (referenced m') hs); [destruct X|]. cbn [length] in Sk. clear - Sk. lia.
Qed.

Section Cleanup.
  Variable H : bytes -> bytes.
  Hypothesis H_len : forall b, length (H b) = 32%nat.
  Hypothesis H_byte : forall b, Forall (fun x => x < 256) (H b).
  Variable cfg : config.
  Let cmp := key_cmp (c_kt cfg).
  Local Notation Live0m := (Live0m H cfg).
  Local Notation Live0 := (Live0 H cfg).
  Local Notation ref_hash := (ref_hash H).

  Section WithScan.
    Variables (m : mem) (s : fs) (sg : smap bytes) (verify : bool).
    Hypothesis L : Live0m m sg.
    Hypothesis W : FsWf s.
    Let o := scan_orphans H m s verify.

    Lemma orphan_facts : forall h, In h (o_orphans o) ->
      wfhash h /\ fget s (cas_path h) <> None /\ ~ ref_hash sg h /\ referenced m h = false.
    Proof using L W.
      intros h I. apply (scan_In_orphans H cfg m s sg verify L W) in I. destruct I as (Wh & G & NR).
      split; [exact Wh|]. split; [exact G|]. split; [exact NR|].
      destruct (referenced m h) eqn:R; [|reflexivity].
      apply (referenced_iff H cfg m sg h L) in R. contradiction.
    Qed.

    Lemma invalid_facts : forall p, In p (o_invalid o) ->
      fget s p <> None /\ (exists comps, p = PCas comps) /\ forall h, wfhash h -> p <> cas_path h.
    Proof using W.
      intros p I. apply (scan_In_invalid H m s verify W) in I.
      destruct I as (comps & f & -> & G & N). split; [congruence|]. split; [now exists comps|].
      intros h Wh E. apply N. exists h. split; [exact Wh|]. unfold cas_path in E. congruence.
    Qed.

    Lemma staging_facts : forall p, In p (o_staging o) -> fget s p <> None /\ exists i, p = PStaging i.
    Proof using W.
      intros p I. apply (scan_In_staging H m s verify W) in I. destruct I as (i & f & -> & G).
      split; [congruence|now exists i].
    Qed.

    Lemma cleaned_kind : forall p, In p (cleaned o) ->
      (exists comps, p = PCas comps) \/ exists i, p = PStaging i.
    Proof using W.
      intros p I. unfold cleaned in I. apply in_app_or in I. destruct I as [I|I].
      - apply in_map_iff in I. destruct I as (h & <- & _). left. now exists (hexpath h).
      - apply in_app_or in I. destruct I as [I|I].
        + left. apply invalid_facts, I.
        + right. apply staging_facts, I.
    Qed.

    (* the path of a referenced blob is never unlinked (no assumption on names) *)
    Lemma ref_not_cleaned : forall h, ref_hash sg h -> ~ In (cas_path h) (cleaned o).
    Proof using H_len H_byte L W.
      intros h R I. pose proof (ref_hash_wf H H_len H_byte sg h R) as Wh.
      unfold cleaned in I. apply in_app_or in I. destruct I as [I|I].
      - apply in_map_iff in I. destruct I as (h' & E & Ih').
        destruct (orphan_facts h' Ih') as (Wh' & _ & NR & _).
        apply cas_path_inj in E; [|exact Wh'|exact Wh]. subst h'. contradiction.
      - apply in_app_or in I. destruct I as [I|I].
        + destruct (invalid_facts _ I) as (_ & _ & N). now apply (N h Wh).
        + destruct (staging_facts _ I) as (_ & i & E). discriminate.
    Qed.

    Lemma orphan_paths_nodup : NoDup (map cas_path (o_orphans o)).
    Proof using L W.
      apply NoDup_map_inj_on; [|now apply scan_orphans_nodup].
      intros x y Ix Iy. apply cas_path_inj; now apply orphan_facts.
    Qed.

    (* the list loop over the scan's orphans: none is referenced, each has its file, so all go *)
    Lemma dol_orphans : forall w r w', wfs w = s -> wfault w = None ->
      delete_orphan_list m (o_orphans o) (mkRecovery 0 0 0 0 0 0) w = (r, w') ->
      wfault w' = None /\ wfs w' = del_all (map cas_path (o_orphans o)) s /\
      r_deleted r = N.of_nat (length (o_orphans o)) /\ r_skipped r = 0 /\ r_errors r = 0.
    Proof using L W.
      intros w r w' Ws F E. destruct (dol_run m _ _ w r w' F E) as (F' & S & Er & _).
      rewrite filter_all, Ws in S
        by (intros h I; unfold unref; now rewrite (proj2 (proj2 (proj2 (orphan_facts h I))))).
      destruct (dol_exact m _ _ w r w' F E) as [D Sk]; [now rewrite Ws|exact orphan_paths_nodup| |].
      { intros h I. rewrite Ws. split; apply orphan_facts, I. }
      repeat split; assumption.
    Qed.

    Theorem delete_orphans_run : forall w r w', wfs w = s -> wfault w = None ->
      delete_orphans m o w = (r, w') ->
      wfault w' = None /\ wfs w' = del_all (cleaned o) s /\
      r_deleted r = N.of_nat (length (o_orphans o)) /\ r_quarantined r = 0 /\ r_skipped r = 0 /\
      r_invalid r = N.of_nat (length (o_invalid o)) /\
      r_staging r = N.of_nat (length (o_staging o)) /\ r_errors r = 0.
    Proof using L W.
      intros w r w' Ws F E. unfold delete_orphans in E.
      destruct (delete_orphan_list m (o_orphans o) (mkRecovery 0 0 0 0 0 0) w) as [r1 w1] eqn:E1.
      destruct (dol_orphans w r1 w1 Ws F E1) as (F1 & S1 & D1 & Sk1 & Er1).
      rewrite (bind_eq _ _ _ _ _ E1) in E.
      assert (W1 : FsWf (wfs w1)) by (rewrite S1; now apply del_all_wf).
      destruct (remove_paths (o_invalid o) 0 0 w1) as [r2 w2] eqn:E2.
      destruct (rp_run _ _ _ w1 r2 w2 F1 E2) as (F2 & S2 & Er2 & N2).
      rewrite (bind_eq _ _ _ _ _ E2) in E.
      assert (W2 : FsWf (wfs w2)) by (rewrite S2; now apply del_all_wf).
      destruct (remove_paths (o_staging o) 0 0 w2) as [r3 w3] eqn:E3.
      destruct (rp_run _ _ _ w2 r3 w3 F2 E3) as (F3 & S3 & Er3 & N3).
      rewrite (bind_eq _ _ _ _ _ E3) in E. injection E as <- <-.
      cbn [r_deleted r_quarantined r_skipped r_invalid r_staging r_errors].
      split; [exact F3|]. split; [rewrite S3, S2, S1; unfold cleaned; now rewrite !del_all_app|].
      split; [exact D1|]. split; [reflexivity|]. split; [exact Sk1|].
      split; [|split; [|rewrite Er1, Er2, Er3; reflexivity]].
      - apply N2; [exact W1|apply (scan_invalid_nodup H m s verify W)|].
        intros p Ip. destruct (invalid_facts p Ip) as (G & _ & N).
        rewrite S1, fget_del_all_other; [exact G|]. intros X. apply in_map_iff in X.
        destruct X as (h & <- & Ih). apply (N h); [apply orphan_facts, Ih|reflexivity].
      - apply N3; [exact W2|apply (scan_staging_nodup H m s verify W)|].
        intros p Ip. destruct (staging_facts p Ip) as (G & i & ->).
        rewrite S2, fget_del_all_other, S1, fget_del_all_other; [exact G| |].
        + intros X. apply in_map_iff in X. destruct X as (h & E & _). discriminate.
        + intros X. destruct (invalid_facts _ X) as (_ & (c & E) & _). discriminate.
    Qed.

    (* delete_orphans_spec.  The program has type M recovery: it only reads the memory m,
       so index and memory are untouched by construction. *)
    Theorem delete_orphans_spec : forall w, wfs w = s -> wfault w = None ->
      exists r w', delete_orphans m o w = (r, w') /\ wfault w' = None /\
        (* exactly the listed files are removed, nothing else is touched *)
        (forall q, fget (wfs w') q = if existsb (path_eqb q) (cleaned o) then None else fget s q) /\
        (forall h, In h (o_orphans o) -> fget s (cas_path h) <> None /\ fget (wfs w') (cas_path h) = None) /\
        (forall p, In p (o_invalid o) -> fget (wfs w') p = None) /\
        (forall p, In p (o_staging o) -> fget (wfs w') p = None) /\
        Frame (fun q => In q (cleaned o)) s (wfs w') /\
        (* the report *)
        r_deleted r = N.of_nat (length (o_orphans o)) /\ r_quarantined r = 0 /\ r_skipped r = 0 /\
        r_invalid r = N.of_nat (length (o_invalid o)) /\
        r_staging r = N.of_nat (length (o_staging o)) /\ r_errors r = 0.
    Proof using L W.
      intros w Ws F. destruct (delete_orphans m o w) as [r w'] eqn:E.
      destruct (delete_orphans_run w r w' Ws F E) as (F' & S & Counts).
      exists r, w'. split; [reflexivity|]. split; [exact F'|]. rewrite S.
      split; [intros q; now apply fget_del_all|].
      split; [|split; [|split; [|split; [apply frame_del_all|exact Counts]]]].
      - intros h Ih. split; [apply orphan_facts, Ih|].
        apply fget_del_all_in; [exact W|]. unfold cleaned. apply in_or_app. left. now apply in_map.
      - intros p Ip. apply fget_del_all_in; [exact W|]. unfold cleaned.
        apply in_or_app. right. apply in_or_app. now left.
      - intros p Ip. apply fget_del_all_in; [exact W|]. unfold cleaned.
        apply in_or_app. right. apply in_or_app. now right.
    Qed.

    Theorem quarantine_orphans_spec : forall w, wfs w = s -> wfault w = None ->
      exists r w', quarantine_orphans m o w = (r, w') /\ wfault w' = None /\
        wfs w' = del_all (map cas_path (o_orphans o)) s /\
        (forall q, fget (wfs w') q =
                   if existsb (path_eqb q) (map cas_path (o_orphans o)) then None else fget s q) /\
        (forall h, In h (o_orphans o) -> fget s (cas_path h) <> None /\ fget (wfs w') (cas_path h) = None) /\
        Frame (fun q => In q (map cas_path (o_orphans o))) s (wfs w') /\
        r_quarantined r = N.of_nat (length (o_orphans o)) /\ r_skipped r = 0 /\ r_errors r = 0.
    Proof using L W.
      intros w Ws F. unfold quarantine_orphans.
      rewrite (quarantine_as_delete m (o_orphans o) (mkRecovery 0 0 0 0 0 0) (mkRecovery 0 0 0 0 0 0) w
                 eq_refl).
      destruct (delete_orphan_list m (o_orphans o) (mkRecovery 0 0 0 0 0 0) w) as [r w'] eqn:E.
      destruct (dol_orphans w r w' Ws F E) as (F' & S & D & Sk & Er).
      exists (as_quarantine r), w'. split; [reflexivity|]. split; [exact F'|]. split; [exact S|]. rewrite S.
      split; [intros q; now apply fget_del_all|].
      split; [|split; [apply frame_del_all|now repeat split]].
      intros h Ih. split; [apply orphan_facts, Ih|]. apply fget_del_all_in; [exact W|]. now apply in_map.
    Qed.

    Theorem delete_orphan_spec : forall w h, wfs w = s -> wfault w = None ->
      (In h (o_orphans o) ->
         exists w', delete_orphan m o h w = (Ok true, w') /\ wfault w' = None /\
                    wfs w' = del s (cas_path h) /\ fget (wfs w') (cas_path h) = None /\
                    Frame (fun q => q = cas_path h) s (wfs w')) /\
      (~ In h (o_orphans o) -> delete_orphan m o h w = (Ok false, w)).
    Proof using L W.
      intros w h Ws F. destruct (delete_orphan_run m o h w F) as (b & w' & E & F' & Cases). split.
      - intros Ih. destruct (orphan_facts h Ih) as (_ & G & _ & R).
        destruct Cases as [(-> & _ & _ & _ & S)|(_ & _ & [X|[X|X]])].
        + exists w'. split; [exact E|]. split; [exact F'|]. rewrite Ws in S. split; [exact S|].
          rewrite S. split; [now apply fget_del_same|now apply frame_del].
        + contradiction.
        + congruence.
        + rewrite Ws in X. contradiction.
      - intros NI. destruct Cases as [(_ & Ih & _)|(-> & -> & _)]; [contradiction|exact E].
    Qed.

    (* the re-check against a later memory m': nothing happens to a hash referenced by then *)
    Theorem delete_orphan_rechecks : forall m' w h, referenced m' h = true ->
      delete_orphan m' o h w = (Ok false, w).
    Proof using.
      intros m' w h R. unfold delete_orphan. rewrite R. now destruct (negb _).
    Qed.

    Theorem C08_cleanup_rechecks : forall m' acc w h, wfs w = s -> wfault w = None ->
      In h (o_orphans o) -> referenced m' h = true ->
      exists r w', delete_orphan_list m' (o_orphans o) acc w = (r, w') /\
        fget (wfs w') (cas_path h) = fget s (cas_path h) /\
        r_skipped acc + N.of_nat (length (filter (referenced m') (o_orphans o))) <= r_skipped r /\
        r_skipped acc + 1 <= r_skipped r /\ r_errors r = r_errors acc.
    Proof using L W.
      intros m' acc w h Ws F Ih R. rewrite <- Ws.
      apply delete_orphan_list_rechecks; try assumption; [now rewrite Ws|].
      intros h' Ih'. apply cas_path_inj; now apply orphan_facts.
    Qed.
  End WithScan.

  Section Restores.
    Variables (m : mem) (s : fs) (sg : smap bytes) (verify : bool).
    Hypothesis LV : Live0 m s sg.
    Hypothesis W : FsWf s.
    Let o := scan_orphans H m s verify.
    Let L : Live0m m sg := Live0_Live0m H cfg m s sg LV.

    (* no referenced blob is removed; Live0 survives *)
    Theorem C08_cleanup_safe_seq : forall w r w', wfs w = s -> wfault w = None ->
      delete_orphans m o w = (r, w') ->
      (forall k c, In (k, c) sg -> fget (wfs w') (cas_path (H c)) = fget s (cas_path (H c))) /\
      Live0 m (wfs w') sg /\ FsWf (wfs w').
    Proof using H_len H_byte LV W.
      intros w r w' Ws F E. destruct (delete_orphans_run m s sg verify L W w r w' Ws F E) as (_ & S & _).
      fold o in S. rewrite S. pose proof (frame_del_all (cleaned o) s) as Fr.
      assert (Keep : forall k c, In (k, c) sg ->
                fget (del_all (cleaned o) s) (cas_path (H c)) = fget s (cas_path (H c))).
      { intros k c I. apply fget_del_all_other, (ref_not_cleaned m s sg verify L W). now exists k, c. }
      split; [exact Keep|]. split; [|now apply del_all_wf].
      apply (StoreWrite.Live0_transfer H cfg m s _ sg LV).
      - intros k c I. rewrite (Keep k c I). now apply (lv_cas _ _ _ _ _ LV k).
      - intros i Hi. rewrite (fr_nstage _ _ _ Fr) in Hi. rewrite fget_del_all by exact W.
        rewrite (lv_stage_fresh _ _ _ _ _ LV i Hi). now destruct (existsb _ _).
      - intros d. unfold has_dir. now rewrite (fr_dirs _ _ _ Fr).
      - intros i. rewrite fget_del_all_other; [trivial|]. intros I.
        apply (cleaned_kind m s verify W) in I. destruct I as [(c & X)|(j & X)]; discriminate X.
    Qed.

    (* the clean-up re-establishes exactness (C07), whatever was planted under cas/ and staging/ *)
    Theorem C08_cleanup_restores_C07 : forall w r w',
      wfs w = s -> wfault w = None -> delete_orphans m o w = (r, w') ->
      Clean H (wfs w') sg /\ Live0 m (wfs w') sg /\ FsWf (wfs w').
    Proof using H_len H_byte LV W.
      intros w r w' Ws F E. destruct (C08_cleanup_safe_seq w r w' Ws F E) as (_ & LV' & W').
      split; [|now split].
      destruct (delete_orphans_run m s sg verify L W w r w' Ws F E) as (_ & S & _). fold o in S.
      assert (G : forall q f, fget (wfs w') q = Some f -> fget s q = Some f /\ ~ In q (cleaned o)).
      { intros q f. rewrite S, fget_del_all by exact W.
        destruct (existsb (path_eqb q) (cleaned o)) eqn:X; [discriminate|].
        intros Gq. split; [exact Gq|]. intros I. apply existsb_path_iff in I. congruence. }
      split.
      - intros comps f Gf. apply G in Gf. destruct Gf as [Gf NI].
        destruct (parse_canon comps) as [h|] eqn:P.
        + apply parse_canon_iff in P. destruct P as [-> Wh]. change (PCas (hexpath h)) with (cas_path h) in *.
          destruct (ref_hash_dec H cfg m sg L h) as [(k & c & Ik & Eh)|NR].
          * exists k, c. split; [exact Ik|congruence].
          * exfalso. apply NI. unfold cleaned. apply in_or_app. left. apply in_map.
            apply (scan_In_orphans H cfg m s sg verify L W). split; [exact Wh|]. split; [congruence|exact NR].
        + exfalso. apply NI. unfold cleaned. apply in_or_app. right. apply in_or_app. left.
          apply (scan_In_invalid H m s verify W). exists comps, f.
          split; [reflexivity|]. split; [exact Gf|]. intros (h & Wh & ->).
          rewrite (parse_canon_hexpath h Wh) in P. discriminate.
      - intros i. destruct (fget (wfs w') (PStaging i)) as [f|] eqn:Gs; [|reflexivity]. exfalso.
        apply G in Gs. destruct Gs as [Gs NI]. apply NI. unfold cleaned.
        apply in_or_app. right. apply in_or_app. right.
        apply (scan_In_staging H m s verify W). now exists i, f.
    Qed.
  End Restores.
End Cleanup.

(* Finding F5: names that decode but are not canonical.  parse_path concatenates the last three
   components and hex-decodes them, and the decoder accepts upper-case digits.  A scan that
   tested names with parse_path would take a file at cas/AB/ab/abab... or at cas/a/bab/abab...
   for the blob with hash abab... and report it as an orphan, while every clean-up entry point
   unlinks cas_path h = cas/ab/ab/abab..., which does not exist: the orphan would be skipped for
   ever and exactness (Clean) never restored.  The scan tests names with parse_canon
   (parse_canon_iff: accepted iff the entry sits at hexpath h of a well-formed h), so such
   spellings are INVALID files: reported in o_invalid and removed by delete_orphans. *)
Definition f5_h : bytes := repeat 171 32.                                 (* hex: abab...ab *)
Definition f5_upper : list bytes := [[65; 66]; [97; 98]; skipn 4 (hex_enc f5_h)].   (* AB/ab/abab... *)
Definition f5_shift : list bytes := [[97]; [98; 97; 98]; skipn 4 (hex_enc f5_h)].   (* a/bab/abab... *)
Definition f5_m : mem := mkMem empty_istate (mkWal 1 None) false.
Definition f5_fs (comps : list bytes) : fs := mkFs [(PCas comps, mkFile [1; 2; 3] 3)] [] 0.

Lemma f5_live0m : Live0m toyH toy_cfg f5_m [].
Proof.
  constructor; [exact I|reflexivity|apply C12_empty|].
  intros a b [].
Qed.

Lemma f5_wf : forall comps, FsWf (f5_fs comps).
Proof. intros comps. repeat constructor. intros []. Qed.

(* the upper-case spelling decodes, is not canonical, is reported as invalid and is removed *)
Example F5_uppercase_orphan_is_never_deleted_fixed :
  let s := f5_fs f5_upper in
  let o := scan_orphans toyH f5_m s false in
  let rw := delete_orphans f5_m o (init_world s None) in
  parse_path f5_upper = Some f5_h /\ parse_canon f5_upper = None /\
  o = mkOstats [] [PCas f5_upper] [] [] [] 0 /\
  fst rw = mkRecovery 0 0 0 1 0 0 /\ files (wfs (snd rw)) = [] /\
  delete_orphan f5_m o f5_h (init_world s None) = (Ok false, init_world s None).
Proof. vm_compute. repeat split. Qed.

Example F5_shifted_slashes_orphan_is_never_deleted_fixed :
  let s := f5_fs f5_shift in
  let o := scan_orphans toyH f5_m s false in
  let rw := delete_orphans f5_m o (init_world s None) in
  parse_path f5_shift = Some f5_h /\ parse_canon f5_shift = None /\
  o = mkOstats [] [PCas f5_shift] [] [] [] 0 /\
  fst rw = mkRecovery 0 0 0 1 0 0 /\ files (wfs (snd rw)) = [].
Proof. vm_compute. repeat split. Qed.

(* the canonical spelling of the same hash is an orphan, and is deleted *)
Example F5_canonical_orphan_is_deleted :
  let s := f5_fs (hexpath f5_h) in
  let o := scan_orphans toyH f5_m s false in
  let rw := delete_orphans f5_m o (init_world s None) in
  o = mkOstats [f5_h] [] [] [] [] 1 /\
  fst rw = mkRecovery 1 0 0 0 0 0 /\ files (wfs (snd rw)) = [].
Proof. vm_compute. repeat split. Qed.

(* these directories do not have canonical names ... *)
Example F5_not_canonical_fixed :
  ~ canonical_names (f5_fs f5_upper) /\ ~ canonical_names (f5_fs f5_shift).
Proof.
  split; intros CN.
  - assert (P : parse_path f5_upper = Some f5_h) by (vm_compute; reflexivity).
    apply (CN f5_upper (mkFile [1; 2; 3] 3) f5_h (conj eq_refl eq_refl)) in P.
    vm_compute in P. discriminate.
  - assert (P : parse_path f5_shift = Some f5_h) by (vm_compute; reflexivity).
    apply (CN f5_shift (mkFile [1; 2; 3] 3) f5_h (conj eq_refl eq_refl)) in P.
    vm_compute in P. discriminate.
Qed.

(* ... and exactness is restored all the same *)
Example F5_clean_not_restored_fixed :
  let s := f5_fs f5_upper in
  let o := scan_orphans toyH f5_m s false in
  Live0m toyH toy_cfg f5_m [] /\ FsWf s /\
  Clean toyH (wfs (snd (delete_orphans f5_m o (init_world s None)))) [].
Proof.
  cbv zeta. split; [exact f5_live0m|]. split; [apply f5_wf|].
  set (s' := wfs _). vm_compute in s'. subst s'. split.
  - intros comps f G. discriminate G.
  - intros i. reflexivity.
Qed.

(* a computed instance *)
Definition n4_c1 : bytes := [10; 11; 12].
Definition n4_h1 : bytes := toyH n4_c1.                       (* 0303...03, referenced *)
Definition n4_h5 : bytes := repeat 5 32.                      (* 0505...05, not referenced *)
Definition n4_idx : istate := mkIstate [([1], mkItem n4_h1 3)] [(n4_h1, 1)] 0 1 3 0.
Definition n4_m : mem := mkMem n4_idx (mkWal 1 None) false.
Definition n4_sg : smap bytes := [([1], n4_c1)].
Definition n4_bad3 : path := PCas [[48; 51]; [48; 51]; [122; 122]].     (* cas/03/03/zz *)
Definition n4_lvl1 : path := PCas [[120]].                               (* cas/x *)
Definition n4_fs : fs :=
  mkFs [(cas_path n4_h1, mkFile n4_c1 3); (cas_path n4_h5, mkFile [7; 7] 2);
        (n4_bad3, mkFile [] 0); (n4_lvl1, mkFile [9] 0); (PStaging 7, mkFile [1] 0)]
       [[s_staging]; [s_cas]] 8.

Example N4_scan :
  scan_orphans toyH n4_m n4_fs true = mkOstats [n4_h5] [n4_bad3; n4_lvl1] [] [] [PStaging 7] 2.
Proof. vm_compute. reflexivity. Qed.

Example N4_cleanup :
  let rw := delete_orphans n4_m (scan_orphans toyH n4_m n4_fs true) (init_world n4_fs None) in
  fst rw = mkRecovery 1 0 0 2 1 0 /\
  files (wfs (snd rw)) = [(cas_path n4_h1, mkFile n4_c1 3)].
Proof. vm_compute. split; reflexivity. Qed.

(* the same directory with the referenced blob damaged / lost *)
Example N4_scan_corrupted_and_missing :
  let bad := mkFs [(cas_path n4_h1, mkFile [10; 11] 2)] [] 0 in
  o_corrupted (scan_orphans toyH n4_m bad true) = [n4_h1] /\
  o_corrupted (scan_orphans toyH n4_m bad false) = [] /\
  o_missing (scan_orphans toyH n4_m bad true) = [] /\
  o_missing (scan_orphans toyH n4_m empty_fs true) = [n4_h1].
Proof. vm_compute. repeat split. Qed.

(* the instance satisfies the hypotheses of the theorems above (Live0m, FsWf); its names are
   canonical as well *)
Lemma n4_wf : FsWf n4_fs.
Proof.
  unfold FsWf. cbn [n4_fs files paths map fst]. repeat constructor; cbn [In]; intros X;
    repeat (destruct X as [X|X]; [try discriminate X|]); try contradiction;
    vm_compute in X; discriminate X.
Qed.

Lemma n4_hyps : Live0m toyH toy_cfg n4_m n4_sg /\ FsWf n4_fs /\ canonical_names n4_fs.
Proof.
  split; [|split; [exact n4_wf|]].
  - constructor.
    + cbn. auto.
    + reflexivity.
    + destruct (C12_apply_ok (key_cmp (c_kt toy_cfg)) (key_cmp_refl _) (key_cmp_eq _)
                  (key_cmp_antisym _) (key_cmp_trans _) empty_istate (RPut [1] n4_h1 3))
        as (s' & un & E & Inv).
      * apply C12_empty.
      * intros k i [].
      * vm_compute in E. inversion E; subst. exact Inv.
    + intros a b [<-|[]] [<-|[]] _. reflexivity.
  - intros comps f h [G L3] P. apply (fget_in_iff _ _ _ n4_wf) in G.
    cbn [n4_fs files In] in G. unfold cas_path, n4_bad3, n4_lvl1 in G.
    destruct G as [G|[G|[G|[G|[G|[]]]]]]; try discriminate G; injection G as G1 G2; subst comps.
    + vm_compute in P. injection P as <-. vm_compute. reflexivity.
    + vm_compute in P. injection P as <-. vm_compute. reflexivity.
    + vm_compute in P. discriminate P.
    + discriminate L3.
Qed.

Print Assumptions scan_orphans_spec.
Print Assumptions C08_scan_exact.
Print Assumptions scan_orphans_nodup.
Print Assumptions delete_orphans_run.
Print Assumptions delete_orphans_spec.
Print Assumptions C08_cleanup_safe_seq.
Print Assumptions C08_cleanup_restores_C07.
Print Assumptions delete_orphan_run.
Print Assumptions delete_orphan_spec.
Print Assumptions quarantine_orphans_spec.
Print Assumptions delete_orphan_list_rechecks.
Print Assumptions C08_cleanup_rechecks.
Print Assumptions parse_canon_iff.
Print Assumptions F5_uppercase_orphan_is_never_deleted_fixed.
Print Assumptions F5_shifted_slashes_orphan_is_never_deleted_fixed.
Print Assumptions F5_clean_not_restored_fixed.
Print Assumptions N4_scan.
Print Assumptions N4_cleanup.
Print Assumptions n4_hyps.
