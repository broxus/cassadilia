(* PreTree.v -- the pre-created fan-out tree cas/<hh>/<hh> (pre_create_cas_dirs = true), the part
   that does not depend on the store invariants: PreDirs / WfDirs, and what mkdirs_pre /
   pre_create_all establish in a fault-free world.  PreCreate.v re-exports this file; it stands
   apart so that CrashOpen.v -- first-time initialisation interrupted in the middle of the mkdir
   loop -- and SettingsGate.v can use it.
     - PreDirs s  := cas/<hex2 i> and cas/<hex2 i>/<hex2 j> exist for all i, j < 256
                     (what pre_create_all establishes and what the stored flag promises);
       WfDirs s   := forall h, length h = 32 -> Forall (< 256) h -> parent_ok s (cas_path h) = true
                     (dirs_ok's third clause; PreDirs -> WfDirs).
   Never evaluate all256 / pre_create_all by computation (65,536 directories). *)
From Cas Require Import History.
From CasProofs Require Import StoreFS StoreWrite Recover WorldRel.
Open Scope N_scope.

Local Opaque all256.

Lemma hexpath_cons2 : forall b0 b1 r,
  hexpath (b0 :: b1 :: r) = [hex2 b0; hex2 b1; hex_enc r].
Proof. intros. reflexivity. Qed.

Lemma parent_dir_cas2 : forall b0 b1 r,
  parent_dir (cas_path (b0 :: b1 :: r)) = Some [s_cas; hex2 b0; hex2 b1].
Proof. intros. reflexivity. Qed.

Theorem hex2_covers : forall h, length h = 32%nat -> Forall (fun x => x < 256) h ->
  let i := nth 0 h 0 in let j := nth 1 h 0 in
  i < 256 /\ j < 256 /\
  nth 0 (hexpath h) [] = hex2 i /\ nth 1 (hexpath h) [] = hex2 j /\
  parent_dir (cas_path h) = Some [s_cas; hex2 i; hex2 j].
Proof.
  intros h L B. destruct h as [|b0 [|b1 r]]; try discriminate.
  inversion B as [|? ? B0 B']; subst. inversion B' as [|? ? B1 _]; subst.
  cbn [nth]. rewrite hexpath_cons2. cbn [nth]. repeat split; assumption.
Qed.

Definition PreDirs (s : fs) : Prop :=
  forall i j, i < 256 -> j < 256 ->
    has_dir s [s_cas; hex2 i] = true /\ has_dir s [s_cas; hex2 i; hex2 j] = true.

Definition WfHash (h : bytes) : Prop := length h = 32%nat /\ Forall (fun x => x < 256) h.

Definition WfDirs (s : fs) : Prop := forall h, WfHash h -> parent_ok s (cas_path h) = true.

Lemma PreDirs_WfDirs : forall s, PreDirs s -> WfDirs s.
Proof.
  intros s P h [L B]. destruct (hex2_covers h L B) as (I & J & _ & _ & E).
  unfold parent_ok. rewrite E. exact (proj2 (P _ _ I J)).
Qed.

(* conversely (every pair of bytes starts some well-formed hash) *)
Lemma WfDirs_PreDirs2 : forall s, WfDirs s ->
  forall i j, i < 256 -> j < 256 -> has_dir s [s_cas; hex2 i; hex2 j] = true.
Proof.
  intros s W i j I J. specialize (W (i :: j :: repeat 0 30)).
  unfold parent_ok in W. rewrite parent_dir_cas2 in W. apply W. split; [reflexivity|].
  constructor; [exact I|]. constructor; [exact J|]. apply Forall_forall. intros x Ix.
  apply repeat_spec in Ix. subst x. reflexivity.
Qed.

Lemma WfDirs_keeps : forall c, call_keeps WfDirs c.
Proof.
  intros c s s' W E h Hh. specialize (W h Hh). unfold parent_ok in *.
  cbn [cas_path parent_dir] in *. exact (has_dir_keeps _ c _ _ W E).
Qed.

Lemma PreDirs_keeps : forall c, call_keeps PreDirs c.
Proof.
  intros c s s' P E i j I J. destruct (P i j I J) as [A B].
  split; [exact (has_dir_keeps _ c _ _ A E)|exact (has_dir_keeps _ c _ _ B E)].
Qed.

Lemma in_all256 : forall i, In i all256 <-> i < 256.
Proof.
  intros i. Local Transparent all256. unfold all256. Local Opaque all256.
  rewrite in_map_iff. split.
  - intros (n & <- & I). apply in_seq in I. lia.
  - intros L. exists (N.to_nat i). split; [apply N2Nat.id|]. apply in_seq. lia.
Qed.

Lemma in_pre_list : forall i j,
  In (i, j) (flat_map (fun i => map (fun j => (i, j)) all256) all256) <-> i < 256 /\ j < 256.
Proof.
  intros i j. rewrite in_flat_map. split.
  - intros (i' & Ii & Ij). apply in_map_iff in Ij. destruct Ij as (j' & E & Ij).
    inversion E; subst. split; now apply in_all256.
  - intros [I J]. exists i. split; [now apply in_all256|]. apply in_map_iff. exists j.
    split; [reflexivity|now apply in_all256].
Qed.

Lemma mkdir_cas2_noop : forall a b w,
  has_dir (wfs w) [s_cas; a] = true -> has_dir (wfs w) [s_cas; a; b] = true ->
  mkdir_cas2 a b w = (Ok tt, w).
Proof.
  intros a b w D1 D2. unfold mkdir_cas2. rewrite (bind_eq _ _ _ _ _ (mkdir_p_exists _ _ D1)).
  now apply mkdir_p_exists.
Qed.

Theorem mkdirs_pre_ok : forall ds w, wfault w = None -> has_dir (wfs w) [s_cas] = true ->
  exists w', mkdirs_pre ds w = (Ok tt, w') /\ Grow w w' /\
    forall i j, In (i, j) ds ->
      has_dir (wfs w') [s_cas; hex2 i] = true /\ has_dir (wfs w') [s_cas; hex2 i; hex2 j] = true.
Proof.
  induction ds as [|[i j] ds IH]; intros w F Hc.
  - exists w. split; [reflexivity|]. split; [now apply grow_refl|]. intros i j [].
  - cbn [mkdirs_pre].
    destruct (mkdir_cas2_ok2 (hex2 i) (hex2 j) w F Hc) as (w1 & E1 & G1 & D1 & D2).
    rewrite (bind_eq _ _ _ _ _ E1).
    destruct (IH w1 (proj1 (gr_ext _ _ G1)) (gr_dirs _ _ G1 _ Hc)) as (w2 & E2 & G2 & D).
    exists w2. split; [exact E2|]. split; [eapply grow_trans; eassumption|].
    intros i' j' [X|X]; [|now apply D]. inversion X; subst.
    split; [exact (gr_dirs _ _ G2 _ D1)|exact (gr_dirs _ _ G2 _ D2)].
Qed.

Corollary mkdirs_pre_explicit : forall ds w, wfault w = None -> has_dir (wfs w) [s_cas] = true ->
  exists w', mkdirs_pre ds w = (Ok tt, w') /\ wfault w' = None /\
    files (wfs w') = files (wfs w) /\ nstage (wfs w') = nstage (wfs w) /\
    (forall d, has_dir (wfs w) d = true -> has_dir (wfs w') d = true) /\
    (FsWf (wfs w) -> FsWf (wfs w')) /\
    (exists tr, wtrace w' = tr ++ wtrace w /\ Forall cas_safe tr /\
                Forall (fun e => exists d, e = TCall (CMkdir d)) tr) /\
    forall i j, In (i, j) ds ->
      has_dir (wfs w') [s_cas; hex2 i] = true /\ has_dir (wfs w') [s_cas; hex2 i; hex2 j] = true.
Proof.
  intros ds w F Hc. destruct (mkdirs_pre_ok ds w F Hc) as (w' & E & G & D).
  exists w'. split; [exact E|]. destruct G as [(F' & tr & Et & At) Gf Gn Gd].
  split; [exact F'|]. split; [exact Gf|]. split; [exact Gn|]. split; [exact Gd|].
  split; [unfold FsWf; now rewrite Gf|]. split; [|exact D].
  exists tr. split; [exact Et|]. split; [|exact At].
  eapply Forall_impl; [|exact At]. apply mkdir_ev_safe.
Qed.

Theorem pre_create_all_ok : forall w, wfault w = None -> has_dir (wfs w) [s_cas] = true ->
  exists w', pre_create_all w = (Ok tt, w') /\ Grow w w' /\ PreDirs (wfs w').
Proof.
  intros w F Hc. unfold pre_create_all.
  destruct (mkdirs_pre_ok (flat_map (fun i => map (fun j => (i, j)) all256) all256) w F Hc)
    as (w' & E & G & D).
  exists w'. split; [exact E|]. split; [exact G|]. intros i j I J. apply D, in_pre_list. now split.
Qed.

Print Assumptions hex2_covers.
Print Assumptions mkdirs_pre_ok.
Print Assumptions mkdirs_pre_explicit.
Print Assumptions pre_create_all_ok.
