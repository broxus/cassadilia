(* PreCreate.v -- C19, first-time initialisation with pre_create_cas_dirs = true: the 65,536
   fan-out directories cas/<hh>/<hh> are created before the settings file is written, the
   choice is remembered in the handle (mpre), and it is not observable through the data API.

   The third clause of StoreInv.dirs_ok,
       mpre m = true -> forall h, length h = 32 -> Forall (< 256) h -> parent_ok s (cas_path h) = true,
   speaks about well-formed hashes only (all bytes < 256).  That is all [put] needs, since it applies
   the clause to [H content] (H_byte); a clause over ALL 32-element lists of [N] would demand
   infinitely many directories and make [Live0]/[Inv] unsatisfiable for mpre m = true.  As it is
   they are satisfiable for handles that remember pre-created directories
   ([open_fresh_disk_pre_Inv], [pre_dirs_after_fresh_open]).

   In the order of the file:
     - Pres for the programs of the store and a predicate that every call keeps (the pa_ lemmas);
     - a simulation ([run_sim]): on a filesystem with PreDirs if the flag is set, every API call
       on a handle m behaves exactly like the same call on [unpre m], m with the flag cleared
       (same output, same world, memories equal up to the flag, which never changes: with the
       flag no mkdir is issued, without it mkdir_cas2 finds both directories and issues no call
       either);
     - the first open of an empty directory, run once for either value of the flag:
       [first_open_gate] (up to Index::load), [first_open] (all but the on-disk invariant),
       [first_open_disk].  These three are the general statements about that open; what is said
       of it elsewhere is an instance: open_fresh_any, first_open_InvP, open_fresh_disk_pre_InvP,
       open_fresh_disk_pre_Inv and pre_dirs_after_fresh_open below,
       PreCreateHist.open_fresh_disk_gen, and, for c_pre cfg = false and proved before this
       file, StoreHist.open_fresh, Recover.open_fresh_disk, SettingsGate.open_fresh_settings;
     - LiveP m s sg := Live0 (unpre m) s sg /\ (mpre m = true -> PreDirs s);
       LiveP m -> Live0 m ([LiveP_Live0]); for mpre m = false, LiveP m <-> Live0 m;
       Live0 m -> LiveP m given mpre m = true -> PreDirs s ([Live0_LiveP]: Live0 alone does not
       say that the FIRST-level directories cas/<hh> exist, which the simulation needs);
       C01 / C06 / C07 transfer from Live0 to LiveP ([C01_full_P]);
     - C19_precreate_unobservable;
     - InvP m s sg := LiveP m s sg /\ DiskOk m s sg /\ FsWf s, established by the first open
       ([first_open_InvP]) and re-established by close + open ([restart_ok_P]);
       InvP -> Inv ([InvP_Inv]), and Inv <-> InvP given mpre m = true -> PreDirs s ([Inv_InvP_iff]).
   PreDirs, WfDirs and what needs no store invariant (mkdirs_pre_ok, pre_create_all_ok, ...) are
   in PreTree.v, re-exported here (WfDirs is dirs_ok's third clause; it gives the second-level
   directories only, so PreDirs is slightly stronger); the history theorems C01 / C02 for both
   values of c_pre are in PreCreateHist.v; a first open killed in the middle of the mkdir loop is
   covered by CrashInv.RestF / CrashOpen.a_open (first_open_crash). *)
From Cas Require Import History.
From CasProofs Require Import StoreFS StoreRun StoreInv StoreWrite StoreHist
  WorldRel DiskInv Recover SettingsGate CrashInv.
From CasProofs Require Export PreTree.
Open Scope N_scope.

Local Opaque all256.

Section PresAll.
  Variable H : bytes -> bytes.
  Variable cfg : config.
  Variable P : fs -> Prop.
  Hypothesis K : forall c, call_keeps P c.

  Lemma pa_mkdir_cas2 : forall a b, Pres P (mkdir_cas2 a b).
  Proof. intros. apply pres_prog, prog_mkdir_cas2; intros; apply K. Qed.
  Lemma pa_atomic_write : forall t tmp data, Pres P (atomic_write t tmp data).
  Proof. intros. apply pres_prog, prog_atomic_write; intros; apply K. Qed.
  Lemma pa_bw_flush : forall p buf, Pres P (bw_flush p buf).
  Proof. intros. apply pres_prog, prog_bw_flush; intros; apply K. Qed.
  Lemma pa_bw_write_all : forall p buf data, Pres P (bw_write_all p buf data).
  Proof. intros. apply pres_prog, prog_bw_write_all; intros; apply K. Qed.
  Lemma pa_writer_close : forall seg buf, Pres P (writer_close seg buf).
  Proof. intros. apply pres_prog, prog_writer_close; intros; apply K. Qed.
  Lemma pa_writer_seal : forall seg buf, Pres P (writer_seal seg buf).
  Proof. intros. apply pres_prog, prog_writer_seal; intros; apply K. Qed.
  Lemma pa_write_entry : forall seg buf ver payload, Pres P (write_entry H seg buf ver payload).
  Proof. intros. apply pres_prog, prog_write_entry; intros; apply K. Qed.
  Lemma pa_append_op : forall wl payload, Pres P (append_op H cfg wl payload).
  Proof. intros. apply pres_prog, prog_append_op; intros; apply K. Qed.
  Lemma pa_unlink_all : forall ps, Pres P (unlink_all ps).
  Proof. intros. apply pres_prog, prog_unlink_all; intros; apply K. Qed.
  Lemma pa_prune_below : forall bound, Pres P (prune_below bound).
  Proof. intros. apply pres_prog, prog_prune_below; intros; apply K. Qed.
  Lemma pa_checkpoint_inner : forall reason m, Pres P (checkpoint_inner cfg reason m).
  Proof. intros. apply pres_prog, prog_checkpoint_inner; intros; apply K. Qed.
  Lemma pa_delete_blobs : forall hs, Pres P (delete_blobs hs).
  Proof. intros. apply pres_prog, prog_delete_blobs; intros; apply K. Qed.
  Lemma pa_log_and_apply : forall m o, Pres P (log_and_apply H cfg m o).
  Proof. intros. apply pres_prog, prog_log_and_apply; intros; apply K. Qed.
  Lemma pa_drop_staging : forall p, Pres P (drop_staging p).
  Proof. intros. apply pres_prog, prog_drop_staging; intros; apply K. Qed.
End PresAll.

(* the simulation: a handle and the same handle with the flag cleared *)
Definition unpre (m : mem) : mem := mkMem (idx m) (mwal m) false.

Lemma unpre_nopre : forall m, mpre m = false -> unpre m = m.
Proof. intros [i wl p] E. cbn in E. subst p. reflexivity. Qed.

(* a : the run from [unpre m], b : the run from m (flag p) *)
Definition SimR {A} (p : bool) (a b : (A * mem) * world) : Prop :=
  fst (fst a) = fst (fst b) /\ snd (fst a) = unpre (snd (fst b)) /\ snd a = snd b /\
  mpre (snd (fst b)) = p.

Lemma SimR_elim : forall {A} p (a : (A * mem) * world) x m' w',
  SimR p a ((x, m'), w') -> a = ((x, unpre m'), w') /\ mpre m' = p.
Proof.
  intros A p [[x0 m0] w0] x m' w'. unfold SimR. cbn [fst snd]. intros (-> & -> & -> & E).
  now split.
Qed.

Ltac sim_leaf := unfold SimR, ret; cbn [fst snd unpre idx mwal mpre]; auto.

(* the two runs start with programs that do the same in w: compare what follows *)
Lemma sim_bind : forall {A B} p (m1 m2 : M A) (f g : A -> M (B * mem)) w,
  m1 w = m2 w -> (forall a w1, m2 w = (a, w1) -> SimR p (f a w1) (g a w1)) ->
  SimR p (bind m1 f w) (bind m2 g w).
Proof. intros A B p m1 m2 f g w E K. unfold bind. rewrite E. destruct (m2 w). now apply K. Qed.

(* the two runs start with related programs and go on in the same way *)
Lemma sim_then : forall {A B} p (a b : M (A * mem)) (f : A * mem -> M (B * mem)) w,
  SimR p (a w) (b w) ->
  (forall x m' w', mpre m' = p -> SimR p (f (x, unpre m') w') (f (x, m') w')) ->
  SimR p (bind a f w) (bind b f w).
Proof.
  intros A B p a b f w S K. unfold bind. destruct (b w) as [[x m'] w'].
  apply SimR_elim in S. destruct S as [-> E]. now apply K.
Qed.

Section Sim.
  Variable H : bytes -> bytes.
  Hypothesis H_len : forall b, length (H b) = 32%nat.
  Hypothesis H_byte : forall b, Forall (fun x => x < 256) (H b).
  Variable cfg : config.

  Lemma checkpoint_inner_sim : forall reason m w,
    SimR (mpre m) (checkpoint_inner cfg reason (unpre m) w) (checkpoint_inner cfg reason m w).
  Proof.
    intros reason m w. unfold checkpoint_inner. cbn [unpre idx mwal mpre].
    destruct (negb _ || _); [sim_leaf|].
    apply sim_bind; [reflexivity|]. intros [u|e] w1 _; [|sim_leaf].
    apply sim_bind; [reflexivity|]. intros u' w2 _. sim_leaf.
  Qed.

  Lemma log_and_apply_sim : forall m o w,
    SimR (mpre m) (log_and_apply H cfg (unpre m) o w) (log_and_apply H cfg m o w).
  Proof.
    intros m o w. unfold log_and_apply. cbn [unpre idx mwal mpre].
    apply sim_bind; [reflexivity|]. intros [[ver|e] wl'] w1 _; [|sim_leaf].
    destruct (apply_op _ (idx m) o) as [[i' unref]|e]; [|sim_leaf].
    apply sim_bind; [reflexivity|]. intros [u|e] w2 _; [|sim_leaf].
    destruct (negb _); [|sim_leaf].
    exact (checkpoint_inner_sim RRollover (mkMem i' wl' (mpre m)) w2).
  Qed.

  Lemma remove_sim : forall m k w,
    SimR (mpre m) (remove H cfg (unpre m) k w) (remove H cfg m k w).
  Proof.
    intros m k w. unfold remove. cbn [unpre idx]. destruct (sm_get _ _ k); [|sim_leaf].
    eapply sim_then; [apply log_and_apply_sim|]. intros [u|e] m' w' Pm; sim_leaf.
  Qed.

  Lemma remove_range_sim : forall m lo hi w,
    SimR (mpre m) (remove_range H cfg (unpre m) lo hi w) (remove_range H cfg m lo hi w).
  Proof.
    intros m lo hi w. unfold remove_range, keys_in_range. cbn [unpre idx].
    destruct (nonempty _ && _); [sim_leaf|].
    destruct (map fst _) as [|k0 ks]; [sim_leaf|].
    eapply sim_then; [apply log_and_apply_sim|]. intros [u|e] m' w' Pm; sim_leaf.
  Qed.

  Lemma drop_sim : forall {A} m p (e : A) w,
    SimR (mpre m) ((do! _ <- drop_staging p ;; ret (e, unpre m)) w)
                  ((do! _ <- drop_staging p ;; ret (e, m)) w).
  Proof. intros A m p e w. apply sim_bind; [reflexivity|]. intros u w1 _. sim_leaf. Qed.

  Lemma abort_sim : forall m k chunks w,
    SimR (mpre m) (abort (unpre m) k chunks w) (abort m k chunks w).
  Proof.
    intros m k chunks w. unfold abort.
    apply sim_bind; [reflexivity|]. intros [p|e] w1 _; [|sim_leaf].
    apply sim_bind; [reflexivity|]. intros [u|e] w2 _; [|apply drop_sim].
    apply sim_bind; [reflexivity|]. intros u' w3 _.
    apply sim_bind; [reflexivity|]. intros u'' w4 _. sim_leaf.
  Qed.

  (* put: with the flag set no mkdir is issued; with the flag cleared mkdir_cas2 runs, finds both
     directories (PreDirs, H_byte) and issues no call either *)
  Lemma put_sim : forall m k chunks w, (mpre m = true -> PreDirs (wfs w)) ->
    SimR (mpre m) (put H cfg (unpre m) k chunks w) (put H cfg m k chunks w).
  Proof.
    intros m k chunks w W. unfold put. cbv zeta. cbn [unpre mpre].
    assert (K : forall c, call_keeps (fun s => mpre m = true -> PreDirs s) c).
    { intros c s s' X E Pm. exact (PreDirs_keeps c _ _ (X Pm) E). }
    apply sim_bind; [reflexivity|]. intros [p|e] w1 E1; [|sim_leaf].
    pose proof (pres_elim _ _ _ _ _ (pres_prog _ _ (prog_new_staging _ (fun i => K _))) E1 W) as W1.
    apply sim_bind; [reflexivity|]. intros [u|e] w2 E2.
    2:{ apply sim_bind; [reflexivity|]. intros u w3 _. apply drop_sim. }
    assert (W2 : mpre m = true -> PreDirs (wfs w2)).
    { eapply pres_elim; [apply pres_prog|exact E2|exact W1]. prog ltac:(apply K). }
    apply sim_bind; [reflexivity|]. intros [u'|e] w3 E3; [|apply drop_sim].
    assert (W3 : mpre m = true -> PreDirs (wfs w3)).
    { eapply pres_elim; [apply pres_prog|exact E3|exact W2]. prog ltac:(apply K). }
    apply sim_bind.
    { destruct (mpre m); [|reflexivity].
      destruct (hex2_covers (H (concat chunks)) (H_len _) (H_byte _)) as (I & J & -> & -> & _).
      destruct (W3 eq_refl _ _ I J) as [D1 D2]. now apply mkdir_cas2_noop. }
    intros [u''|e] w4 _; [|apply drop_sim].
    apply sim_bind; [reflexivity|]. intros [u3|e] w5 _; [|apply drop_sim].
    apply log_and_apply_sim.
  Qed.
End Sim.

Section SimHist.
  Variable H : bytes -> bytes.
  Hypothesis H_len : forall b, length (H b) = 32%nat.
  Hypothesis H_byte : forall b, Forall (fun x => x < 256) (H b).
  Variable cfg : config.

  Local Notation api_op := (api_op cfg).

  (* a mutating call, as [step] wraps it *)
  Lemma sim_lift : forall {A} (f : mem -> M (res serr A * mem)) (g : A -> out) m os w,
    SimR (mpre m) (f (unpre m) w) (f m w) ->
    exists o m' w',
      (do! r <- f m ;; ret (lift g (fst r), Some (mkHandle cfg (snd r) os))) w
      = ((o, Some (mkHandle cfg m' os)), w') /\
      (do! r <- f (unpre m) ;; ret (lift g (fst r), Some (mkHandle cfg (snd r) os))) w
      = ((o, Some (mkHandle cfg (unpre m') os)), w') /\ mpre m' = mpre m.
  Proof.
    intros A f g m os w S. unfold bind. destruct (f m w) as [[r m'] w'].
    apply SimR_elim in S. destruct S as [-> E]. eexists _, m', w'. now split.
  Qed.

  (* one API call: same output, same world, memories equal up to the flag, flag kept *)
  Lemma step_sim : forall m os o w, api_op o -> (mpre m = true -> PreDirs (wfs w)) ->
    exists out m' w',
      step H (Some (mkHandle cfg m os)) o w = ((out, Some (mkHandle cfg m' os)), w') /\
      step H (Some (mkHandle cfg (unpre m) os)) o w
      = ((out, Some (mkHandle cfg (unpre m') os)), w') /\
      mpre m' = mpre m /\ (mpre m' = true -> PreDirs (wfs w')).
  Proof.
    intros m os o w A W.
    assert (X : exists out m' w',
      step H (Some (mkHandle cfg m os)) o w = ((out, Some (mkHandle cfg m' os)), w') /\
      step H (Some (mkHandle cfg (unpre m) os)) o w
      = ((out, Some (mkHandle cfg (unpre m') os)), w') /\ mpre m' = mpre m).
    { destruct o; cbn [StoreHist.api_op] in A; try contradiction; cbn [step h_cfg h_mem h_ostats];
        try (eexists _, m, w; split; [reflexivity|split; reflexivity]).
      - apply (sim_lift (fun m => put H cfg m k chunks)). now apply put_sim.
      - apply (sim_lift (fun m => abort m k chunks)), abort_sim.
      - apply (sim_lift (fun m => remove H cfg m k)), remove_sim.
      - apply (sim_lift (fun m => remove_range H cfg m lo hi)), remove_range_sim.
      - apply (sim_lift (checkpoint cfg)), checkpoint_inner_sim. }
    destruct X as (out & m' & w' & E & E' & Pm). exists out, m', w'.
    split; [exact E|]. split; [exact E'|]. split; [exact Pm|]. rewrite Pm. intros Pt.
    refine (pres_elim PreDirs _ _ _ _ (pres_prog _ _ (prog_step H _ PreDirs_keeps _ o)) E (W Pt)).
  Qed.

  Theorem run_sim : forall ops m os w, Forall api_op ops -> (mpre m = true -> PreDirs (wfs w)) ->
    exists outs m' w',
      run_ops H (Some (mkHandle cfg m os)) ops w = ((outs, Some (mkHandle cfg m' os)), w') /\
      run_ops H (Some (mkHandle cfg (unpre m) os)) ops w
      = ((outs, Some (mkHandle cfg (unpre m') os)), w') /\
      mpre m' = mpre m /\ (mpre m' = true -> PreDirs (wfs w')).
  Proof.
    induction ops as [|o ops IH]; intros m os w A W.
    - exists [], m, w. split; [reflexivity|]. split; [reflexivity|]. split; [reflexivity|exact W].
    - inversion A as [|? ? Ao Aops]; subst.
      destruct (step_sim m os o w Ao W) as (out & m1 & w1 & E1 & E1' & P1 & W1).
      destruct (IH m1 os w1 Aops W1) as (outs & m2 & w2 & E2 & E2' & P2 & W2).
      exists (out :: outs), m2, w2. cbn [run_ops].
      rewrite (bind_eq _ _ _ _ _ E1), (bind_eq _ _ _ _ _ E1'). cbn [fst snd].
      rewrite (bind_eq _ _ _ _ _ E2), (bind_eq _ _ _ _ _ E2'). cbn [fst snd ret].
      split; [reflexivity|]. split; [reflexivity|]. split; [congruence|exact W2].
  Qed.
End SimHist.

Lemma rootfile_ev_safe : forall e, ev_on is_rootfile e -> cas_safe e.
Proof.
  intros [c|c] X; [|contradiction]. destruct c; cbn in *; try exact I;
    try (destruct p; try contradiction; exact I).
  destruct X as [X Y]. right. destruct p; try contradiction; destruct q; try contradiction;
    split; exact I.
Qed.

Section FirstOpen.
  Variable H : bytes -> bytes.
  Variable cfg : config.

  Lemma grow_wf : forall w w', Grow w w' -> FsWf (wfs w) -> FsWf (wfs w').
  Proof. intros w w' G. unfold FsWf. now rewrite (gr_files _ _ G). Qed.

  Lemma grow_safe : forall w w', Grow w w' -> Ext cas_safe w w'.
  Proof. intros w w' G. eapply ext_weaken; [|exact (gr_ext _ _ G)]. apply mkdir_ev_safe. Qed.

  Lemma step_rootfile_safe : forall (T : path -> Prop) w w', (forall q, T q -> is_rootfile q) ->
    Step T (ev_on T) w w' -> Ext cas_safe w w'.
  Proof.
    intros T w w' I S. eapply ext_weaken; [|exact (step_ext _ _ _ _ S)].
    intros e X. apply rootfile_ev_safe. revert X. now apply ev_on_weaken.
  Qed.

  (* The first open of an empty directory, for either value of pre_create_cas_dirs, up to
     Index::load: open_front (w3), then the settings gate (wp: the tree, if configured; w4: the
     settings file).  Only LOCK and the settings file exist in w4. *)
  Lemma first_open_gate :
    exists w4, open_with_recover H cfg (init_world empty_fs None) = open_load H cfg (c_pre cfg) w4 /\
      Ext cas_safe (init_world empty_fs None) w4 /\ FsWf (wfs w4) /\
      has_dir (wfs w4) [s_staging] = true /\ has_dir (wfs w4) [s_cas] = true /\
      (c_pre cfg = true -> PreDirs (wfs w4)) /\
      (forall q, q <> PLock -> q <> PSettings -> q <> PSettingsTmp -> fget (wfs w4) q = None) /\
      fdat (wfs w4) PSettings = Some (enc_settings CURRENT_DB_VERSION (c_pre cfg) (c_n cfg)).
  Proof.
    set (w0 := init_world empty_fs None).
    destruct (open_front_ok (open_tail H cfg) w0 eq_refl)
      as (w2 & w3 & E3 & G2 & Ds & Dc & W3 & S3).
    assert (G3n : forall q, q <> PLock -> fget (wfs w3) q = None).
    { intros q Nq. rewrite W3, fget_upd_other by exact Nq. exact (grow_fget _ _ q G2). }
    destruct (settings_gate_fresh cfg w3 (step_fault S3))
      as (wp & w4 & E4 & Gp & Pp & S4 & f & G4 & D4).
    { apply G3n. discriminate. }
    { rewrite W3. exact Dc. }
    assert (Dirs : forall d, has_dir (wfs w2) d = true -> has_dir (wfs w4) d = true).
    { intros d X. unfold has_dir. rewrite (step_dirs S4).
      apply (gr_dirs _ _ Gp). unfold has_dir. now rewrite (step_dirs S3). }
    exists w4. split.
    { rewrite open_with_recover_factor, E3. exact (bind_eq _ _ _ _ _ E4). }
    split; [|split; [|split; [exact (Dirs _ Ds)|split; [exact (Dirs _ Dc)|split; [|split]]]]].
    - eapply ext_trans; [exact (grow_safe _ _ G2)|].
      eapply ext_trans; [eapply step_rootfile_safe; [|exact S3]; intros q <-; exact I|].
      eapply ext_trans; [exact (grow_safe _ _ Gp)|].
      eapply step_rootfile_safe; [|exact S4]. intros q [->| ->]; exact I.
    - apply (step_wf S4), (grow_wf _ _ Gp),
        (step_wf S3), (grow_wf _ _ G2), empty_fs_wf.
    - intros Pre i j Hi Hj. destruct (Pp Pre i j Hi Hj) as [A B]. unfold has_dir in *.
      now rewrite (step_dirs S4).
    - intros q N1 N2 N3. destruct (step_get S4 q) as [[X|X]|X];
        [contradiction|contradiction|]. rewrite X, (grow_fget _ _ q Gp). now apply G3n.
    - apply fdat_some. now exists f.
  Qed.

  Hypothesis n_pos : 0 < c_n cfg.

  (* ... and through Index::load, which finds nothing and creates segment 0.  Everything said
     about that open, except the on-disk invariant, is read off here. *)
  Theorem first_open :
    exists os w',
      open_with_recover H cfg (init_world empty_fs None)
      = (Ok (mkMem empty_istate (mkWal 1 None) (c_pre cfg), os), w') /\
      Ext cas_safe (init_world empty_fs None) w' /\ FsWf (wfs w') /\
      Live0 H cfg (mkMem empty_istate (mkWal 1 None) false) (wfs w') [] /\
      (c_pre cfg = true -> PreDirs (wfs w')) /\ Clean H (wfs w') [] /\ CasNamed H (wfs w').
  Proof.
    destruct first_open_gate as (w4 & E4 & X4 & W4 & Ds & Dc & Pp & G4n & _).
    destruct (index_load_fresh_does H cfg n_pos (c_pre cfg) w4 (proj1 X4)) as (w' & E' & R').
    { intros i. apply G4n; discriminate. }
    { apply G4n; discriminate. }
    assert (S' : Step is_rootfile (ev_on is_rootfile) w4 w')
      by (apply (ran_step _ _ _ _ R'); repeat constructor).
    assert (Dirs : forall d, has_dir (wfs w4) d = true -> has_dir (wfs w') d = true).
    { intros d. unfold has_dir. now rewrite (step_dirs S'). }
    eexists _, w'. split.
    { rewrite E4. unfold open_load. rewrite (bind_eq _ _ _ _ _ E'). reflexivity. }
    split; [|split; [exact (step_wf S' W4)|]].
    { eapply ext_trans; [exact X4|]. eapply step_rootfile_safe; [|exact S']. auto. }
    assert (L : Live0 H cfg (mkMem empty_istate (mkWal 1 None) false) (wfs w') [] /\
                Clean H (wfs w') [] /\ CasNamed H (wfs w')).
    { apply live_fresh; [exact (Dirs _ Ds)|exact (Dirs _ Dc)|].
      intros q Nq. destruct (step_get S' q) as [X|X]; [contradiction|].
      rewrite X. apply G4n; intros ->; exact (Nq I). }
    destruct L as (L & C & N). split; [exact L|]. split; [|split; [exact C|exact N]].
    intros Pre i j Hi Hj. destruct (Pp Pre i j Hi Hj) as [A B]. split; now apply Dirs.
  Qed.

  Hypothesis H_len : forall b, length (H b) = 32%nat.
  Hypothesis H_byte : forall b, Forall (fun x => x < 256) (H b).

  (* ... and the on-disk invariant, from the general lemma about Index::load *)
  Theorem first_open_disk : c_n cfg < 2 ^ 64 -> forall m os w',
    open_with_recover H cfg (init_world empty_fs None) = (Ok (m, os), w') -> DiskOk H cfg m (wfs w') [].
  Proof.
    intros Nfit m os w' E. destruct first_open_gate as (w4 & E4 & X4 & W4 & _ & _ & _ & G4n & Gs).
    destruct (index_load_ok H H_len H_byte cfg n_pos 0 1 (c_pre cfg) [] w4 (proj1 X4) W4)
      as (m5 & w5 & E5 & _ & _ & _ & _ & _ & _ & D5 & _); [|exact I|intros a b []|].
    - apply diskokw_fresh; [exact Nfit|exact Gs| |intros i]; apply fdat_none, G4n; discriminate.
    - rewrite E4 in E. unfold open_load in E. rewrite (bind_eq _ _ _ _ _ E5) in E.
      injection E as <- _ <-. exact D5.
  Qed.
End FirstOpen.

Section PreOpen.
  Variable H : bytes -> bytes.
  Hypothesis H_len : forall b, length (H b) = 32%nat.
  Hypothesis H_byte : forall b, Forall (fun x => x < 256) (H b).
  Variable cfg : config.
  Hypothesis n_pos : 0 < c_n cfg.
  Let cmp := key_cmp (c_kt cfg).

  Local Notation Live0 := (Live0 H cfg).
  Local Notation Clean := (Clean H).
  Local Notation CasNamed := (CasNamed H).
  Local Notation NoCollide := (NoCollide H).
  Local Notation api_op := (api_op cfg).
  Local Notation spec_outs := (spec_outs H cfg).

  (* the satisfiable replacement of Live0 for handles that remember pre-created directories *)
  Definition LiveP (m : mem) (s : fs) (sg : smap bytes) : Prop :=
    Live0 (unpre m) s sg /\ (mpre m = true -> PreDirs s).

  Lemma LiveP_nopre : forall m s sg, mpre m = false -> (LiveP m s sg <-> Live0 m s sg).
  Proof.
    intros m s sg E. unfold LiveP. rewrite (unpre_nopre m E). split; [tauto|].
    intros L. split; [exact L|]. rewrite E. discriminate.
  Qed.

  (* Live0 does not depend on the flag, except in the third clause of dirs_ok *)
  Lemma Live0_unpre : forall m s sg, Live0 m s sg -> Live0 (unpre m) s sg.
  Proof.
    intros m s sg [L1 L2 L3 L4 L5 L6 (D1 & D2 & _) L8]. constructor; cbn [unpre idx mwal]; try assumption.
    split; [exact D1|]. split; [exact D2|]. cbn [unpre mpre]. discriminate.
  Qed.

  (* LiveP is at least as strong as Live0: PreDirs gives the third clause of dirs_ok *)
  Lemma LiveP_Live0 : forall m s sg, LiveP m s sg -> Live0 m s sg.
  Proof.
    intros m s sg [[L1 L2 L3 L4 L5 L6 (D1 & D2 & _) L8] P]. cbn [unpre idx mwal] in *.
    constructor; try assumption.
    split; [exact D1|]. split; [exact D2|]. intros E h Lh Bh.
    apply (PreDirs_WfDirs s (P E)). now split.
  Qed.

  (* conversely: Live0 speaks about the second-level directories cas/<hh>/<hh> only, PreDirs
     also about the first-level ones, hence the side condition (void for mpre m = false) *)
  Lemma Live0_LiveP : forall m s sg, (mpre m = true -> PreDirs s) -> Live0 m s sg -> LiveP m s sg.
  Proof. intros m s sg P L. split; [now apply Live0_unpre|exact P]. Qed.

  Lemma LiveP_Live0_iff : forall m s sg, (mpre m = true -> PreDirs s) ->
    (LiveP m s sg <-> Live0 m s sg).
  Proof. intros m s sg P. split; [apply LiveP_Live0|now apply Live0_LiveP]. Qed.

  (* the third clause of dirs_ok, for well-formed hashes: what [put] relies on *)
  Lemma LiveP_dirs : forall m s sg, LiveP m s sg ->
    has_dir s [s_staging] = true /\ has_dir s [s_cas] = true /\
    (mpre m = true -> forall h, length h = 32%nat -> Forall (fun x => x < 256) h ->
                                 parent_ok s (cas_path h) = true).
  Proof.
    intros m s sg [L P]. destruct (lv_dirs _ _ _ _ _ L) as (D1 & D2 & _).
    split; [exact D1|]. split; [exact D2|]. intros E h Lh Bh.
    apply (PreDirs_WfDirs s (P E)). now split.
  Qed.

  (* first open of an empty directory, either choice: the choice is what the handle remembers *)
  Theorem open_fresh_any :
    exists m os w', open_with_recover H cfg (init_world empty_fs None) = (Ok (m, os), w') /\
      wfault w' = None /\ mpre m = c_pre cfg /\ LiveP m (wfs w') [] /\
      Clean (wfs w') [] /\ CasNamed (wfs w') /\ FsWf (wfs w').
  Proof.
    destruct (first_open H cfg n_pos) as (os & w' & E & X & W & L & P & C & N).
    eexists _, os, w'. split; [exact E|]. split; [exact (proj1 X)|]. split; [reflexivity|].
    split; [split; [exact L|exact P]|]. auto.
  Qed.

  (* C01 / C06 / C07 along a history, from LiveP; the flag is kept *)
  Theorem C01_full_P : forall ops m s sg os w,
    LiveP m s sg -> wfs w = s -> wfault w = None -> Forall api_op ops ->
    NoCollide (hist_contents ops ++ map snd sg) ->
    exists m' w',
      run_ops H (Some (mkHandle cfg m os)) ops w
      = ((spec_outs sg ops, Some (mkHandle cfg m' os)), w') /\
      wfault w' = None /\ mpre m' = mpre m /\
      LiveP m' (wfs w') (fold_left (spec_step cmp) ops sg) /\
      Ext cas_safe w w' /\
      (FsWf s -> FsWf (wfs w')) /\
      (FsWf s -> Clean s sg -> Clean (wfs w') (fold_left (spec_step cmp) ops sg)) /\
      (FsWf s -> CasNamed s -> CasNamed (wfs w')).
  Proof.
    intros ops m s sg os w [L Pd] Ws F A NC.
    destruct (C01_full H H_len H_byte cfg n_pos ops (unpre m) s sg os w L Ws F A NC)
      as (mu & wu & Eu & Fu & Xu & Lu & Wu & Cu & Nu).
    destruct (run_sim H H_len H_byte cfg ops m os w A) as (outs & m' & w' & E & E' & P' & W').
    { now rewrite Ws. }
    rewrite Eu in E'. inversion E'; subst outs mu wu.
    exists m', w'. split; [exact E|]. split; [exact Fu|]. split; [exact P'|].
    split; [split; [exact Lu|exact W']|]. auto.
  Qed.

  (* the statement of C01_refines_ordered_map, for LiveP *)
  Theorem C01_refines_ordered_map_P : forall ops m s sg os w,
    LiveP m s sg -> wfs w = s -> wfault w = None -> Forall api_op ops ->
    NoCollide (hist_contents ops ++ map snd sg) ->
    exists outs hd' w',
      run_ops H (Some (mkHandle cfg m os)) ops w = ((outs, Some hd'), w') /\
      outs = spec_outs sg ops /\
      LiveP (h_mem hd') (wfs w') (fold_left (spec_step cmp) ops sg) /\ h_cfg hd' = cfg /\
      mpre (h_mem hd') = mpre m /\ wfault w' = None.
  Proof.
    intros ops m s sg os w L Ws F A NC.
    destruct (C01_full_P ops m s sg os w L Ws F A NC) as (m' & w' & E & F' & P & L' & _).
    exists (spec_outs sg ops), (mkHandle cfg m' os), w'. split; [exact E|].
    split; [reflexivity|]. split; [exact L'|]. split; [reflexivity|]. split; [exact P|exact F'].
  Qed.

  Theorem C01_from_fresh_any : forall ops, Forall api_op ops -> NoCollide (hist_contents ops) ->
    exists os hd' w',
      run_ops H None (OpOpen cfg false :: ops) (init_world empty_fs None)
      = ((OutOpened os :: spec_outs [] ops, Some hd'), w') /\
      h_cfg hd' = cfg /\ wfault w' = None /\ mpre (h_mem hd') = c_pre cfg /\
      LiveP (h_mem hd') (wfs w') (fold_left (spec_step cmp) ops []) /\
      Clean (wfs w') (fold_left (spec_step cmp) ops []) /\ CasNamed (wfs w') /\
      FsWf (wfs w').
  Proof.
    intros ops A NC.
    destruct open_fresh_any as (m & os & w1 & E1 & F1 & P1 & L1 & C1 & N1 & W1).
    destruct (C01_full_P ops m (wfs w1) [] os w1 L1 eq_refl F1 A)
      as (m' & w' & E & F' & P' & L' & X' & W' & C' & N').
    { now rewrite app_nil_r. }
    exists os, (mkHandle cfg m' os), w'.
    split; [exact (run_ops_step H _ _ _ _ _ _ _ _ _ _ (step_open H cfg None _ _ _ _ E1) E)|].
    split; [reflexivity|]. split; [exact F'|]. split; [cbn [h_mem]; congruence|].
    split; [exact L'|]. split; [auto|]. split; auto.
  Qed.
End PreOpen.

Lemma spec_outs_kt : forall H cfg1 cfg2, c_kt cfg1 = c_kt cfg2 ->
  forall ops sg, spec_outs H cfg1 sg ops = spec_outs H cfg2 sg ops.
Proof.
  intros H cfg1 cfg2 E. induction ops as [|o ops IH]; intros sg; cbn [spec_outs]; [reflexivity|].
  f_equal.
  - unfold spec_out. rewrite E. reflexivity.
  - rewrite E. apply IH.
Qed.

Lemma api_op_kt : forall cfg1 cfg2 o, c_kt cfg1 = c_kt cfg2 -> api_op cfg1 o -> api_op cfg2 o.
Proof. intros cfg1 cfg2 o E. unfold api_op. now rewrite E. Qed.

Definition cfg_nopre (c : config) : config :=
  mkConfig (c_kt c) (c_n c) (c_sync c) false (c_scan c) (c_verify c) (c_failint c).

Section C19.
  Variable H : bytes -> bytes.
  Hypothesis H_len : forall b, length (H b) = 32%nat.
  Hypothesis H_byte : forall b, Forall (fun x => x < 256) (H b).

  (* Two stores created in empty directories, one with and one without pre-created fan-out
     directories (same key type; everything else, even num_ops_per_wal, may differ), then the
     same history of API calls on each: after the answer to open, both produce exactly the
     outputs of the plain ordered map, hence the same outputs; the handles remember the
     choice (mpre) to the end; both end with the same key map, and with nothing but the
     referenced blobs under cas/ and nothing under staging/ *)
  Theorem C19_precreate_unobservable : forall cfg1 cfg2 ops,
    c_kt cfg1 = c_kt cfg2 -> c_pre cfg1 = true -> c_pre cfg2 = false ->
    0 < c_n cfg1 -> 0 < c_n cfg2 ->
    Forall (api_op cfg1) ops -> NoCollide H (hist_contents ops) ->
    exists os1 os2 hd1 hd2 w1 w2,
      run_ops H None (OpOpen cfg1 false :: ops) (init_world empty_fs None)
      = ((OutOpened os1 :: spec_outs H cfg1 [] ops, Some hd1), w1) /\
      run_ops H None (OpOpen cfg2 false :: ops) (init_world empty_fs None)
      = ((OutOpened os2 :: spec_outs H cfg1 [] ops, Some hd2), w2) /\
      wfault w1 = None /\ wfault w2 = None /\
      mpre (h_mem hd1) = true /\ mpre (h_mem hd2) = false /\
      km (idx (h_mem hd1)) = km (idx (h_mem hd2)) /\
      (let sg := fold_left (spec_step (key_cmp (c_kt cfg1))) ops [] in
       Clean H (wfs w1) sg /\ Clean H (wfs w2) sg /\ CasNamed H (wfs w1) /\ CasNamed H (wfs w2)).
  Proof.
    intros cfg1 cfg2 ops Ekt P1 P2 N1 N2 A NC.
    destruct (C01_from_fresh_any H H_len H_byte cfg1 N1 ops A NC)
      as (os1 & hd1 & w1 & E1 & _ & F1 & M1 & [L1 _] & C1 & CN1 & _).
    destruct (C01_from_fresh_any H H_len H_byte cfg2 N2 ops)
      as (os2 & hd2 & w2 & E2 & _ & F2 & M2 & [L2 _] & C2 & CN2 & _).
    { eapply Forall_impl; [|exact A]. intros o. now apply api_op_kt. }
    { exact NC. }
    rewrite <- (spec_outs_kt H cfg1 cfg2 Ekt) in E2. rewrite <- Ekt in L2, C2.
    exists os1, os2, hd1, hd2, w1, w2. split; [exact E1|]. split; [exact E2|].
    split; [exact F1|]. split; [exact F2|]. split; [congruence|]. split; [congruence|].
    split.
    - pose proof (lv_km _ _ _ _ _ L1) as K1. pose proof (lv_km _ _ _ _ _ L2) as K2.
      cbn [unpre idx] in K1, K2. congruence.
    - cbv zeta. repeat (split; [assumption|]). assumption.
  Qed.

  Corollary C19_precreate_unobservable_same_cfg : forall cfg ops,
    c_pre cfg = true -> 0 < c_n cfg ->
    Forall (api_op cfg) ops -> NoCollide H (hist_contents ops) ->
    exists o1 o2 r1 r2 w1 w2,
      run_ops H None (OpOpen cfg false :: ops) (init_world empty_fs None) = ((o1, r1), w1) /\
      run_ops H None (OpOpen (cfg_nopre cfg) false :: ops) (init_world empty_fs None)
      = ((o2, r2), w2) /\
      tl o1 = spec_outs H cfg [] ops /\ tl o2 = tl o1.
  Proof.
    intros cfg ops P N A NC.
    destruct (C19_precreate_unobservable cfg (cfg_nopre cfg) ops eq_refl P eq_refl N N A NC)
      as (os1 & os2 & hd1 & hd2 & w1 & w2 & E1 & E2 & _).
    eexists _, _, _, _, w1, w2. split; [exact E1|]. split; [exact E2|]. split; reflexivity.
  Qed.
End C19.

Section PreDisk.
  Variable H : bytes -> bytes.
  Hypothesis H_len : forall b, length (H b) = 32%nat.
  Hypothesis H_byte : forall b, Forall (fun x => x < 256) (H b).
  Variable cfg : config.
  Hypothesis n_pos : 0 < c_n cfg.

  (* the satisfiable form of [Inv] *)
  Definition InvP (m : mem) (s : fs) (sg : smap bytes) : Prop :=
    LiveP H cfg m s sg /\ DiskOk H cfg m s sg /\ FsWf s.

  Lemma InvP_Inv : forall m s sg, InvP m s sg -> Inv H cfg m s sg.
  Proof. intros m s sg (L & D & W). split; [exact (LiveP_Live0 H cfg m s sg L)|now split]. Qed.

  (* side condition: see Live0_LiveP *)
  Lemma Inv_InvP : forall m s sg, (mpre m = true -> PreDirs s) -> Inv H cfg m s sg -> InvP m s sg.
  Proof. intros m s sg P (L & D & W). split; [now apply Live0_LiveP|now split]. Qed.

  Lemma Inv_InvP_iff : forall m s sg, (mpre m = true -> PreDirs s) ->
    (Inv H cfg m s sg <-> InvP m s sg).
  Proof. intros m s sg P. split; [now apply Inv_InvP|apply InvP_Inv]. Qed.

  Lemma InvP_nopre : forall m s sg, mpre m = false -> (InvP m s sg <-> Inv H cfg m s sg).
  Proof.
    intros m s sg E. unfold InvP, Inv. now rewrite (LiveP_nopre H cfg m s sg E).
  Qed.

  Theorem first_open_InvP : c_n cfg < 2 ^ 64 ->
    exists m os w', open_with_recover H cfg (init_world empty_fs None) = (Ok (m, os), w') /\
      wfault w' = None /\ mpre m = c_pre cfg /\ InvP m (wfs w') [] /\
      Clean H (wfs w') [] /\ CasNamed H (wfs w') /\ nextv (mwal m) = 1.
  Proof.
    intros Nfit. destruct (first_open H cfg n_pos) as (os & w' & E & X & W & L & P & C & N).
    eexists _, os, w'. split; [exact E|]. split; [exact (proj1 X)|]. split; [reflexivity|].
    split; [|auto]. split; [split; [exact L|exact P]|]. split; [|exact W].
    exact (first_open_disk H cfg n_pos H_len H_byte Nfit _ _ _ E).
  Qed.

  Theorem open_fresh_disk_pre_InvP : c_pre cfg = true -> c_n cfg < 2 ^ 64 ->
    exists m os w', open_with_recover H cfg (init_world empty_fs None) = (Ok (m, os), w') /\
      wfault w' = None /\ mpre m = true /\ InvP m (wfs w') [] /\
      Clean H (wfs w') [] /\ CasNamed H (wfs w') /\ nextv (mwal m) = 1.
  Proof.
    intros Pre Nfit. destruct (first_open_InvP Nfit) as (m & os & w' & E & F & P & R).
    exists m, os, w'. rewrite Pre in P. auto.
  Qed.

  (* the first open with pre-created directories establishes the invariant of C02 / C03 itself:
     [Inv] (hence [Live0]) is satisfiable with the flag set *)
  Theorem open_fresh_disk_pre_Inv : c_pre cfg = true -> c_n cfg < 2 ^ 64 ->
    exists m os w', open_with_recover H cfg (init_world empty_fs None) = (Ok (m, os), w') /\
      wfault w' = None /\ mpre m = true /\ Inv H cfg m (wfs w') [] /\
      Clean H (wfs w') [] /\ CasNamed H (wfs w') /\ nextv (mwal m) = 1.
  Proof.
    intros Pre Nfit.
    destruct (open_fresh_disk_pre_InvP Pre Nfit) as (m & os & w' & E & F & P & IV & C & N & V).
    exists m, os, w'. split; [exact E|]. split; [exact F|]. split; [exact P|].
    split; [now apply InvP_Inv|]. split; [exact C|]. split; [exact N|exact V].
  Qed.

  (* non-vacuity of the crash invariants of CrashInv.v for pre-created handles: after that first
     open the (restricted) [pre_dirs] clause holds with pre = true, and so do RestP and Rest *)
  Theorem pre_dirs_after_fresh_open : c_pre cfg = true -> c_n cfg < 2 ^ 64 ->
    exists m os w', open_with_recover H cfg (init_world empty_fs None) = (Ok (m, os), w') /\
      wfault w' = None /\ mpre m = true /\
      pre_dirs true (wfs w') /\
      RestP H cfg (lpv (idx m)) (nextv (mwal m)) (seg_of cfg (nextv (mwal m))) true [] (wfs w') /\
      Rest H cfg (wfs w') [].
  Proof.
    intros Pre Nfit.
    destruct (open_fresh_disk_pre_Inv Pre Nfit) as (m & os & w' & E & F & P & IV & _).
    exists m, os, w'. split; [exact E|]. split; [exact F|]. split; [exact P|].
    pose proof (inv_inv' H H_len H_byte cfg n_pos _ _ _ IV) as (L & D & W).
    pose proof (live_aux H cfg _ _ _ L W) as A. rewrite P in A.
    pose proof (diskok'_weak H H_len H_byte cfg n_pos _ _ _ D) as D'. rewrite P in D'.
    split; [exact (proj1 (proj2 (proj2 A)))|]. split; [split; [exact A|exact D']|].
    exact (rest_of_inv H H_len H_byte cfg n_pos _ _ _ IV).
  Qed.

  (* C02 for one restart, also for a handle that remembers pre-created directories: close and
     open again; the reopened handle has the same index state, remembers the same choice, and
     satisfies the invariant again *)
  Theorem restart_ok_P : forall m s sg w,
    InvP m s sg -> wfs w = s -> wfault w = None ->
    exists w1 m' os w',
      close m w = (tt, w1) /\ open_with_recover H cfg w1 = (Ok (m', os), w') /\
      wfault w' = None /\ mpre m' = mpre m /\
      km (idx m') = km (idx m) /\ rc (idx m') = rc (idx m) /\
      ub (idx m') = ub (idx m) /\ tb (idx m') = tb (idx m) /\
      nextv (mwal m') = nextv (mwal m) /\
      InvP m' (wfs w') sg.
  Proof.
    intros m s sg w IP Ws F. subst s. pose proof (InvP_Inv _ _ _ IP) as IV.
    destruct IP as ([_ PD] & D & Wf).
    destruct (restart_ok H H_len H_byte cfg n_pos m _ sg w IV eq_refl F)
      as (w1 & m' & os & w' & E1 & E' & F' & K1 & K2 & K3 & K4 & Nv & (L' & D' & Wf') & _).
    (* the flag is read back from the settings file, which close leaves alone *)
    assert (Pm : mpre m' = mpre m).
    { destruct (close_ok cfg m w (lv_wal _ _ _ _ _ (proj1 IV)) F Wf) as (w1' & E1' & _ & V1).
      rewrite E1 in E1'. injection E1' as <-.
      destruct D as (ids & rf & sf & km_c & ops & Dw).
      destruct (dw_settings _ _ _ _ _ _ _ _ _ _ _ _ _ Dw) as (d & Gd & Dd).
      rewrite <- V1 in Gd. apply fdat_some in Gd. destruct Gd as (f & Gf & <-).
      exact (open_ok_stored_flag H cfg w1 m' os w' f _ _ _ Gf Dd E'). }
    exists w1, m', os, w'. split; [exact E1|]. split; [exact E'|]. split; [exact F'|].
    split; [exact Pm|]. split; [exact K1|]. split; [exact K2|]. split; [exact K3|].
    split; [exact K4|]. split; [exact Nv|].
    split; [split; [exact (Live0_unpre H cfg _ _ _ L')|]|now split].
    (* directories only grow *)
    assert (Po : Pres PreDirs (open_with_recover H cfg))
      by (apply pres_prog, prog_open_with_recover; intros; apply PreDirs_keeps).
    assert (Pc : Pres PreDirs (close m)) by (apply pres_prog, prog_close; intros; apply PreDirs_keeps).
    rewrite Pm. intros Pt. exact (pres_elim _ _ _ _ _ Po E' (pres_elim _ _ _ _ _ Pc E1 (PD Pt))).
  Qed.
End PreDisk.

Print Assumptions hex2_covers.
Print Assumptions mkdirs_pre_ok.
Print Assumptions mkdirs_pre_explicit.
Print Assumptions pre_create_all_ok.
Print Assumptions run_sim.
Print Assumptions open_fresh_any.
Print Assumptions C01_full_P.
Print Assumptions C01_refines_ordered_map_P.
Print Assumptions C01_from_fresh_any.
Print Assumptions C19_precreate_unobservable.
Print Assumptions C19_precreate_unobservable_same_cfg.
Print Assumptions open_fresh_disk_pre_InvP.
Print Assumptions restart_ok_P.
Print Assumptions InvP_Inv.
Print Assumptions Inv_InvP_iff.
Print Assumptions pre_dirs_after_fresh_open.
Print Assumptions open_fresh_disk_pre_Inv.
