(* Recover.v -- recovery is exact (C02 for one restart, C12 after reopen): from the on-disk
   invariant [DiskOk], closing the handle and opening the store again rebuilds the same index
   state; the reopened handle satisfies the invariants again (restart_ok).  A fresh directory
   satisfies them after the first open (open_fresh_disk).

   In order: uniqueness of the derived index components; replay of records and segments on a
   well-formed log; index_load split into snapshot load and tail, both exact; close, and
   open_with_recover on an initialised directory (reduced to Index::load by [open_reduce]);
   the restart theorem; the first open of an empty directory. *)
From Cas Require Import History.
From CasProofs Require Import BaseProofs CodecBase CodecProofs SMapProofs IndexProofs
  StoreFS StoreRun StoreInv StoreWrite StoreRead StoreHist DiskInv.
From Coq Require Import ZifyBool ZifyNat ZifyN.
Open Scope N_scope.

Lemma dec_settings_enc : forall ver pre n, ver < 2 ^ 32 -> n < 2 ^ 64 ->
  dec_settings (enc_settings ver pre n) = Some (ver, pre, n).
Proof.
  intros ver pre n Lv Ln. unfold dec_settings, enc_settings.
  rewrite BaseProofs.take_app by apply length_u32. cbn [app].
  rewrite <- (app_nil_r (u64 n)), BaseProofs.take_app by apply length_u64.
  rewrite BaseProofs.le_dec_u32, BaseProofs.le_dec_u64 by assumption.
  destruct pre; reflexivity.
Qed.

Lemma diskokw_fresh : forall H cfg pre dv, c_n cfg < 2 ^ 64 ->
  dv PSettings = Some (enc_settings CURRENT_DB_VERSION pre (c_n cfg)) -> dv PIndex = None ->
  (forall i, dv (PWal i) = None) -> DiskOkW H cfg 0 1 (seg_of cfg 0) pre dv [].
Proof.
  intros H cfg pre dv Nfit Gs Gi Gw.
  exists [], (fun _ => []), (fun _ => false), [], []. constructor.
  - split; [cbn [length]; pow_consts; lia|constructor].
  - eexists. split; [exact Gs|].
    apply dec_settings_enc; [unfold CURRENT_DB_VERSION; pow_consts; lia|exact Nfit].
  - unfold snap_ok. rewrite Gi. now split.
  - split; [exact I|]. split; [intros k1 k2 i1 i2 []|]. split; [constructor|].
    cbn [length]. pow_consts. lia.
  - exact I.
  - intros i [].
  - intros i _. apply Gw.
  - intros i [].
  - reflexivity.
  - reflexivity.
  - pow_consts. lia.
  - constructor.
  - exact I.
  - reflexivity.
Qed.

Section Recover.
  Variable H : bytes -> bytes.
  Hypothesis H_len : forall b, length (H b) = 32%nat.
  Hypothesis H_byte : forall b, Forall (fun x => x < 256) (H b).
  Variable cfg : config.
  Hypothesis n_pos : 0 < c_n cfg.
  Let cmp := key_cmp (c_kt cfg).

  Local Notation item_of := (item_of H).
  Local Notation km_of := (km_of H).
  Local Notation NoCollide := (NoCollide H).
  Local Notation Live0 := (Live0 H cfg).
  Local Notation seg_of := (seg_of cfg).
  Local Notation DiskW := (DiskW H cfg).
  Local Notation DiskOkW := (DiskOkW H cfg).
  Local Notation DiskOk := (DiskOk H cfg).
  Local Notation Inv := (Inv H cfg).
  Local Notation kstep := (kstep cfg).
  Local Notation ops_ok := (ops_ok cfg).
  Local Notation op_good := (op_good cfg).

  (* rc, ub, tb are functions of the key map *)
  Lemma IdxInv_unique : forall i i', IdxInv cmp i -> IdxInv cmp i' -> km i = km i' ->
    rc i = rc i' /\ ub i = ub i' /\ tb i = tb i'.
  Proof.
    intros i i' (_ & Sr & Hr & _ & Hu & Ht) (_ & Sr' & Hr' & _ & Hu' & Ht') K.
    split; [|split].
    - apply lex_sm_ext; try assumption. intros h.
      change (rc_get (rc i) h = rc_get (rc i') h). now rewrite Hr, Hr', K.
    - now rewrite Hu, Hu', K.
    - now rewrite Ht, Ht', K.
  Qed.

  Lemma Live0_same_index : forall m1 s1 m2 s2 sg, Live0 m1 s1 sg -> Live0 m2 s2 sg ->
    km (idx m1) = km (idx m2) /\ rc (idx m1) = rc (idx m2) /\
    ub (idx m1) = ub (idx m2) /\ tb (idx m1) = tb (idx m2).
  Proof.
    intros m1 s1 m2 s2 sg [_ K1 I1 _ _ _ _ _] [_ K2 I2 _ _ _ _ _].
    assert (K : km (idx m1) = km (idx m2)) by congruence.
    split; [exact K|]. exact (IdxInv_unique _ _ I1 I2 K).
  Qed.

  Lemma replay_records_nil : forall c st hi cnt,
    replay_records cfg c [] st hi cnt = Ok (st, hi, cnt).
  Proof. reflexivity. Qed.

  Lemma replay_records_cons : forall c ver payload r st hi cnt,
    replay_records cfg c ((ver, payload) :: r) st hi cnt =
    if ver <=? c then replay_records cfg c r st (N.max hi ver) cnt
    else match dec_op payload with
         | Err e => Err (EReplay (RDeserialize e))
         | Ok raw =>
           match from_raw (c_kt cfg) raw with
           | Err e => Err (EReplay (RConvert e))
           | Ok o =>
             match apply_op cmp st o with
             | Err _ => Err EPanic
             | Ok (st', _) => replay_records cfg c r st' (N.max hi ver) (cnt + 1)
             end
           end
         end.
  Proof. reflexivity. Qed.

  Lemma replay_records_app : forall c a b st hi cnt,
    replay_records cfg c (a ++ b) st hi cnt =
    match replay_records cfg c a st hi cnt with
    | Err x => Err x
    | Ok (st', hi', cnt') => replay_records cfg c b st' hi' cnt'
    end.
  Proof.
    intros c. induction a as [|[ver p] a IH]; intros b st hi cnt.
    - reflexivity.
    - cbn [app]. rewrite !replay_records_cons. destruct (ver <=? c); [apply IH|].
      destruct (dec_op p) as [raw|e]; [|reflexivity].
      destruct (from_raw (c_kt cfg) raw) as [o|e]; [|reflexivity].
      destruct (apply_op cmp st o) as [[st' un]|e]; [apply IH|reflexivity].
  Qed.

  Lemma replay_records_ok : forall c recs v0 ops st hi cnt,
    filter (fun r => c <? fst r) recs = enc_from v0 ops ->
    Forall op_good ops -> IdxInv cmp st -> ops_ok (km st) ops ->
    exists st', replay_records cfg c recs st hi cnt
                = Ok (st', fold_left N.max (map fst recs) hi, cnt + N.of_nat (length ops)) /\
      IdxInv cmp st' /\ km st' = fold_left kstep ops (km st) /\ lpv st' = lpv st /\
      (ops = [] -> st' = st).
  Proof.
    intros c recs v0 ops st hi cnt Fl. apply log_above_of_filter in Fl. revert st hi cnt.
    induction Fl as [v|v ops ver p recs L _ IH|v o ops recs L _ IH]; intros st hi cnt Og Iv Ok0;
      rewrite ?replay_records_cons; cbn [map fst fold_left length].
    - exists st. rewrite N.add_0_r. split; [reflexivity|]. split; [exact Iv|]. now repeat split.
    - replace (ver <=? c) with true by lia. now apply IH.
    - replace (v <=? c) with false by lia.
      inversion Og as [|? ? [Of Kv] Og']; subst. destruct Ok0 as [Kr Ok1].
      rewrite dec_enc_op_nil by exact Of. rewrite from_raw_valid by exact Kv.
      destruct (C12_apply cmp (key_cmp_refl _) (key_cmp_eq _) (key_cmp_antisym _)
                  (key_cmp_trans _) st o Iv) as (st1 & un & Eap & Iv1 & K1 & L1 & _).
      { now apply kresp_respects. }
      rewrite Eap. rewrite (kstep_expected cfg) in K1.
      destruct (IH st1 (N.max hi v) (cnt + 1) Og' Iv1) as (st' & E & Iv' & K' & L' & _).
      { now rewrite K1. }
      exists st'. rewrite E.
      replace (cnt + 1 + N.of_nat (length ops)) with (cnt + N.of_nat (S (length ops))) by lia.
      split; [reflexivity|]. split; [exact Iv'|]. split; [now rewrite K', K1|].
      split; [congruence|discriminate].
  Qed.

  Lemma read_lazy_seg : forall recs b, Forall rec_ok recs ->
    read_segment_lazy H (S (length (render H recs ++ tailb b))) (render H recs ++ tailb b)
    = (recs, None).
  Proof.
    intros recs [|] Ok0; cbn [tailb].
    - now apply (lazy_segment_render_sentinel_nil H H_len).
    - rewrite app_nil_r. now apply lazy_segment_render.
  Qed.

  Lemma replay_segments_flat : forall c s rf ids st hi cnt,
    (forall i, In i ids -> exists f, fget s (PWal i) = Some f /\
       read_segment_lazy H (S (length (fdata f))) (fdata f) = (rf i, None)) ->
    replay_segments H cfg c s ids st hi cnt = replay_records cfg c (flat_map rf ids) st hi cnt.
  Proof.
    intros c s rf. induction ids as [|i ids IH]; intros st hi cnt Hf.
    - reflexivity.
    - cbn [replay_segments flat_map]. rewrite replay_records_app.
      destruct (Hf i (or_introl eq_refl)) as (f & G & R). rewrite G, R.
      destruct (replay_records cfg c (rf i) st hi cnt) as [[[st' hi'] cnt']|e]; [|reflexivity].
      apply IH. intros j Ij. apply Hf. now right.
  Qed.

  Lemma dw_read_lazy : forall c nv sb pre dv sg ids rf sf km_c ops s,
    DiskW c nv sb pre dv sg ids rf sf km_c ops -> forall i, In i ids ->
    fdat s (PWal i) = dv (PWal i) ->
    exists f, fget s (PWal i) = Some f /\
              read_segment_lazy H (S (length (fdata f))) (fdata f) = (rf i, None).
  Proof.
    intros c nv sb pre dv sg ids rf sf km_c ops s Dw i Ii G.
    rewrite (dw_in _ _ _ _ _ _ _ _ _ _ _ _ _ Dw i Ii) in G. apply fdat_some in G.
    destruct G as (f & G & Df). exists f. split; [exact G|]. rewrite Df.
    apply read_lazy_seg. now destruct (dw_seg _ _ _ _ _ _ _ _ _ _ _ _ _ Dw i Ii) as (S1 & _).
  Qed.

  Lemma replay_ok : forall c nv sb pre s sg ids rf sf km_c ops st0,
    FsWf s -> DiskW c nv sb pre (fdat s) sg ids rf sf km_c ops ->
    IdxInv cmp st0 -> km st0 = km_c ->
    exists st, replay_segments H cfg c s (sort_ids (wal_ids s)) st0 c 0
               = Ok (st, nv - 1, N.of_nat (length ops)) /\
      IdxInv cmp st /\ km st = km_of sg /\ lpv st = lpv st0 /\ (ops = [] -> st = st0).
  Proof.
    intros c nv sb pre s sg ids rf sf km_c ops st0 Wf Dw Iv K0. pose proof Dw as [].
    rewrite (disk_ids H cfg _ _ _ _ _ _ _ _ _ _ _ Wf Dw).
    rewrite (replay_segments_flat c s rf)
      by exact (fun i Ii => dw_read_lazy _ _ _ _ _ _ _ _ _ _ _ s Dw i Ii eq_refl).
    destruct (replay_records_ok c (flat_map rf ids) (c + 1) ops st0 c 0 dw_filter dw_opsfit Iv)
      as (st & E & Iv' & K' & L' & Z').
    { now rewrite K0. }
    exists st. rewrite E. replace (0 + N.of_nat (length ops)) with (N.of_nat (length ops)) by lia.
    rewrite (log_max_filter c _ _ dw_filter).
    replace (c + N.of_nat (length ops)) with (nv - 1) by lia.
    split; [reflexivity|]. split; [exact Iv'|]. split; [|split; assumption].
    now rewrite K', K0.
  Qed.

  (* The two halves of Index::load, copied from theories/Store.v; [index_load_split] checks
     the copy by conversion.  index_load reads the filesystem once and goes on with what it
     found: the split makes the snapshot half a function of the filesystem alone ([loaded_of],
     which AtRest.v and Damage.v also apply to disks no handle goes with), and lets the other
     half ([load_tail]: replay, the segment of the next version, the checkpoint after a
     replay) be stated for any start state st0 that has the right key map *)
  Definition loaded_of (s : fs) : res serr istate :=
    match fget s PIndex with
    | None => Ok empty_istate
    | Some f =>
      match fdata f with
      | [] => Err EEmptyIndex
      | data =>
        match dec_snapshot data with
        | Err _ => Err EDecodeIndex
        | Ok (ver, es) =>
          match load_entries cmp (c_kt cfg) ver es with
          | None => Err EDecodeKey
          | Some st => Ok (recompute_stats st (len data))
          end
        end
      end
    end.

  Definition load_tail (pre : bool) (s : fs) (st0 : istate) : M (res serr mem) :=
    let c := lpv st0 in
    match replay_segments H cfg c s (sort_ids (wal_ids s)) st0 c 0 with
    | Err e => ret (Err e)
    | Ok (st, highest, cnt) =>
      let nv := highest + 1 in
      let target := (nv - 1) / c_n cfg in
      do! r <- (match fget s (PWal target) with
            | Some _ => ret (Ok tt)
            | None => do! x <- do_call (CCreate (PWal target)) ;;
                      match x with Err e => ret (Err e) | Ok _ => do_call (CSync (PWal target)) end
            end) ;;
      match r with
      | Err _ => ret (Err EWalIo)
      | Ok _ =>
        let m := mkMem st (mkWal nv None) pre in
        if 0 <? cnt then
          do! rc <- checkpoint_inner cfg RAfterReplay m ;;
          match rc with (Ok _, m') => ret (Ok m') | (Err e, _) => ret (Err e) end
        else ret (Ok m)
      end
    end.

  Lemma index_load_split : forall pre w,
    index_load H cfg pre w =
    match loaded_of (wfs w) with
    | Err e => (Err e, w)
    | Ok st0 => load_tail pre (wfs w) st0 w
    end.
  Proof.
    intros pre w. unfold index_load, loaded_of, load_tail. unfold bind at 1, get_fs at 1.
    cbv zeta.
    destruct (fget (wfs w) PIndex) as [f|]; [|reflexivity].
    destruct (fdata f) as [|b l]; [reflexivity|].
    destruct (dec_snapshot (b :: l)) as [[ver es]|e]; [|reflexivity].
    destruct (load_entries _ _ ver es); reflexivity.
  Qed.

  Lemma enc_snapshot_cons : forall v es, exists b l, enc_snapshot v es = b :: l.
  Proof. intros. unfold enc_snapshot, u64. cbn [le_enc app]. eauto. Qed.

  Lemma loaded_ok : forall c nv sb pre s sg ids rf sf km_c ops,
    DiskW c nv sb pre (fdat s) sg ids rf sf km_c ops ->
    exists st0, loaded_of s = Ok st0 /\ IdxInv cmp st0 /\ km st0 = km_c /\ lpv st0 = c /\
      ssz st0 = match fdat s PIndex with Some d => len d | None => 0 end.
  Proof.
    intros c nv sb pre s sg ids rf sf km_c ops Dw. pose proof Dw as [].
    unfold loaded_of. unfold snap_ok in dw_snap.
    destruct (fdat s PIndex) as [d|] eqn:G.
    - destruct dw_snap as [Pos ->]. apply fdat_some in G. destruct G as (f & G & Df).
      rewrite G, Df. destruct (enc_snapshot_cons c km_c) as (b & l & Es). rewrite Es.
      cbv beta iota zeta. rewrite <- Es.
      destruct dw_kmc as (Sk & Hs & Fa & Ln).
      rewrite dec_enc_snapshot_nil; [|lia|exact Ln|].
      2:{ eapply Forall_impl; [|exact Fa]. intros e [X _]. exact X. }
      destruct (C12_load_sorted cmp (key_cmp_refl _) (key_cmp_eq _) (key_cmp_antisym _)
                  (key_cmp_trans _) (c_kt cfg) c km_c Sk) as (st & El & Ks & Ls & _).
      { intros e Ie. rewrite Forall_forall in Fa. now apply Fa. }
      rewrite El. eexists. split; [reflexivity|]. split; [|split; [exact Ks|split; [exact Ls|reflexivity]]].
      eapply (C12_load_recompute cmp (key_cmp_refl _) (key_cmp_eq _) (key_cmp_antisym _)
                (key_cmp_trans _)); [exact El|]. now rewrite Ks.
    - destruct dw_snap as [-> ->]. apply fdat_none in G. rewrite G. exists empty_istate.
      split; [reflexivity|]. split; [apply C12_empty|]. repeat split.
  Qed.

  Lemma load_tail_ok : forall c nv pre sg ids rf sf km_c ops st0 w,
    wfault w = None -> FsWf (wfs w) ->
    DiskW c nv (seg_of (nv - 1)) pre (fdat (wfs w)) sg ids rf sf km_c ops ->
    sorted cmp sg -> NoCollide (map snd sg) ->
    IdxInv cmp st0 -> km st0 = km_c -> lpv st0 = c ->
    ssz st0 = match fdat (wfs w) PIndex with Some d => len d | None => 0 end ->
    exists m' w', load_tail pre (wfs w) st0 w = (Ok m', w') /\ Eff w w' /\
      nextv (mwal m') = nv /\ writer (mwal m') = None /\ mpre m' = pre /\
      km (idx m') = km_of sg /\ IdxInv cmp (idx m') /\
      DiskOk m' (wfs w') sg /\
      (forall q, ~ is_meta q -> fdat (wfs w') q = fdat (wfs w) q) /\
      ssz (idx m') = match fdat (wfs w') PIndex with Some d => len d | None => 0 end.
  Proof.
    intros c nv pre sg ids rf sf km_c ops st0 w F Wf Dw Ss Nc Iv0 K0 L0 Z0.
    unfold load_tail. cbv zeta. rewrite L0.
    destruct (replay_ok c nv _ pre (wfs w) sg ids rf sf km_c ops st0 Wf Dw Iv0 K0)
      as (st & E & Iv & K & L & Z).
    rewrite E. cbv beta iota.
    assert (Nv1 : 1 <= nv) by (rewrite (dw_nv _ _ _ _ _ _ _ _ _ _ _ _ _ Dw); lia).
    replace (nv - 1 + 1) with nv by lia.
    change ((nv - 1) / c_n cfg) with (seg_of nv). set (t := seg_of nv).
    assert (D0 : DiskOkW c nv (seg_of (nv - 1)) pre (fdat (wfs w)) sg)
      by (exists ids, rf, sf, km_c, ops; exact Dw).
    destruct (next_seg_does t w F) as (w1 & E1 & R1). rewrite (bind_eq _ _ _ _ _ E1).
    assert (X1 : Eff w w1).
    { apply (ran_eff _ _ _ R1 Wf). unfold next_seg_calls.
      destruct (fget (wfs w) (PWal t)); repeat constructor. }
    destruct (V_open_seg H H_len H_byte cfg n_pos _ _ _ _ _ (fdat (wfs w1)) _ D0) as (D1 & _ & N1).
    { intros q. rewrite (okc_view _ _ _ (ran_okc _ _ _ R1) Wf). unfold next_seg_calls, fdat.
      cbn [call_view]. fold t. now destruct (fget (wfs w) (PWal t)). }
    pose proof X1 as (F1 & W1 & _).
    set (m1 := mkMem st (mkWal nv None) pre).
    assert (Dm1 : DiskOkW (lpv (idx m1)) (nextv (mwal m1)) (seg_of (nv - 1)) (mpre m1)
                    (fdat (wfs w1)) sg).
    { unfold m1. cbn [idx mwal mpre nextv]. now rewrite L, L0. }
    destruct ops as [|o ops'] eqn:Eo.
    - cbn [length N.of_nat]. change (0 <? 0) with false. cbv iota.
      specialize (Z eq_refl). subst st.
      exists m1, w1. split; [reflexivity|]. split; [exact X1|].
      unfold m1. cbn [idx mwal mpre nextv writer]. repeat (split; [reflexivity|]).
      split; [exact K|]. split; [exact Iv|]. split; [|split].
      + unfold DiskInv.DiskOk. cbn [idx mwal mpre nextv]. now rewrite L0.
      + intros q Nq. apply N1. destruct q; try exact I. apply Nq. exact I.
      + rewrite N1 by exact I. exact Z0.
    - replace (0 <? N.of_nat (length (o :: ops'))) with true by (cbn [length]; lia). cbv iota.
      destruct (ck_disk H H_len H_byte cfg n_pos RAfterReplay m1 _ sg w1 F1 W1 Dm1)
        as (w2 & E2 & X2 & D2 & N2 & Gi); try assumption.
      rewrite (bind_eq _ _ _ _ _ E2).
      exists (ck_mem RAfterReplay m1), w2. split; [reflexivity|].
      split; [eapply eff_trans; eassumption|].
      assert (Sk : ck_skips RAfterReplay m1 = false).
      { apply ck_skips_not; [discriminate|]. unfold m1. cbn [mwal nextv].
        rewrite (dw_nv _ _ _ _ _ _ _ _ _ _ _ _ _ Dw). cbn [length]. lia. }
      assert (Em : ck_mem RAfterReplay m1
                   = mkMem (mkIstate (km st) (rc st) (nv - 1) (ub st) (tb st) (len (ck_data m1)))
                           (mkWal nv None) pre) by (unfold ck_mem; now rewrite Sk).
      rewrite Em in D2 |- *. cbn [idx mwal mpre nextv writer km ssz].
      repeat (split; [reflexivity|]). split; [exact K|]. split.
      { eapply (IdxInv_ext cfg); [| | | |exact Iv]; reflexivity. }
      split; [exact D2|]. split.
      + intros q Nq. rewrite N2 by exact Nq. apply N1. destruct q; try exact I. apply Nq. exact I.
      + now rewrite (Gi Sk).
  Qed.

  Lemma index_load_ok : forall c nv pre sg w,
    wfault w = None -> FsWf (wfs w) ->
    DiskOkW c nv (seg_of (nv - 1)) pre (fdat (wfs w)) sg ->
    sorted cmp sg -> NoCollide (map snd sg) ->
    exists m' w', index_load H cfg pre w = (Ok m', w') /\ Eff w w' /\
      nextv (mwal m') = nv /\ writer (mwal m') = None /\ mpre m' = pre /\
      km (idx m') = km_of sg /\ IdxInv cmp (idx m') /\
      DiskOk m' (wfs w') sg /\
      (forall q, ~ is_meta q -> fdat (wfs w') q = fdat (wfs w) q) /\
      ssz (idx m') = match fdat (wfs w') PIndex with Some d => len d | None => 0 end.
  Proof.
    intros c nv pre sg w F Wf (ids & rf & sf & km_c & ops & Dw) Ss Nc.
    rewrite index_load_split.
    destruct (loaded_ok _ _ _ _ _ _ _ _ _ _ _ Dw) as (st0 & El & Iv0 & K0 & L0 & Z0).
    rewrite El. now apply (load_tail_ok c nv pre sg ids rf sf km_c ops).
  Qed.

  Lemma close_ok : forall m w, wal_ok cfg m (wfs w) -> wfault w = None -> FsWf (wfs w) ->
    exists w1, close m w = (tt, w1) /\ Eff w w1 /\ forall q, fdat (wfs w1) q = fdat (wfs w) q.
  Proof.
    intros m w [_ Hw] F Wf. unfold close. destruct (writer (mwal m)) as [[s0 b]|].
    - destruct Hw as (-> & G & _). destruct (writer_close_does s0 [] w F G) as (w1 & E1 & R1).
      exists w1. rewrite (bind_eq _ _ _ _ _ E1). split; [reflexivity|].
      split; [exact (ran_eff _ _ _ R1 Wf (wal_write_in _ s0 [] I))|].
      exact (okc_view _ _ _ (ran_okc _ _ _ R1) Wf).
    - exists w. split; [reflexivity|]. split; [now apply eff_refl|auto].
  Qed.

  Lemma mkdir_p_exists : forall d w, has_dir (wfs w) d = true -> mkdir_p d w = (Ok tt, w).
  Proof. intros d w Hd. unfold mkdir_p, bind, get_fs. now rewrite Hd. Qed.

  (* open_with_recover on an initialised directory: the lock file is created, the settings are
     accepted, and what remains is Index::load and the orphan scan *)
  Lemma open_reduce : forall w pre d, wfault w = None -> FsWf (wfs w) ->
    has_dir (wfs w) [s_staging] = true -> has_dir (wfs w) [s_cas] = true ->
    fdat (wfs w) PSettings = Some d -> dec_settings d = Some (CURRENT_DB_VERSION, pre, c_n cfg) ->
    exists w3, Eff w w3 /\ (forall q, fdat (wfs w3) q = vset (fdat (wfs w)) PLock (Some []) q) /\
      open_with_recover H cfg w =
      match index_load H cfg pre w3 with
      | (Err e, w') => (Err e, w')
      | (Ok m, w') => (Ok (m, if c_scan cfg
                              then Some (scan_orphans H m (wfs w') (c_verify cfg)) else None), w')
      end.
  Proof.
    intros w pre d F Wf Hs Hc Gs Es. unfold open_with_recover.
    rewrite (bind_eq _ _ _ _ _ (mkdir_p_exists _ _ Hs)).
    rewrite (bind_eq _ _ _ _ _ (mkdir_p_exists _ _ Hc)).
    destruct (apply_create (wfs w) PLock eq_refl) as (s1 & A1 & _).
    destruct (does_call _ _ _ F A1) as (w3 & E3 & R3).
    pose proof (okc_view _ _ _ (ran_okc _ _ _ R3) Wf) as V3. cbn [calls_view call_view] in V3.
    rewrite (bind_eq _ _ _ _ _ E3). exists w3.
    split; [apply (ran_eff _ _ _ R3 Wf); now constructor|]. split; [exact V3|].
    assert (Gs3 : fdat (wfs w3) PSettings = Some d) by (rewrite V3, vset_other by discriminate; exact Gs).
    apply fdat_some in Gs3. destruct Gs3 as (f & Gf & Df).
    unfold bind at 1, read_file at 1. rewrite Gf, Df, Es.
    rewrite !N.eqb_refl. cbn [negb].
    rewrite (bind_eq _ _ _ _ _ (eq_refl : ret (Ok pre) w3 = (Ok pre, w3))).
    unfold bind at 1. destruct (index_load H cfg pre w3) as [[m|e] w']; reflexivity.
  Qed.

  Lemma open_ok : forall c nv pre sg w,
    wfault w = None -> FsWf (wfs w) ->
    has_dir (wfs w) [s_staging] = true -> has_dir (wfs w) [s_cas] = true ->
    DiskOkW c nv (seg_of (nv - 1)) pre (fdat (wfs w)) sg ->
    sorted cmp sg -> NoCollide (map snd sg) ->
    exists m' os w', open_with_recover H cfg w = (Ok (m', os), w') /\ Eff w w' /\
      nextv (mwal m') = nv /\ writer (mwal m') = None /\ mpre m' = pre /\
      km (idx m') = km_of sg /\ IdxInv cmp (idx m') /\
      DiskOk m' (wfs w') sg /\
      (forall q, ~ is_meta q -> q <> PLock -> fdat (wfs w') q = fdat (wfs w) q) /\
      ssz (idx m') = match fdat (wfs w') PIndex with Some d => len d | None => 0 end.
  Proof.
    intros c nv pre sg w F Wf Hs Hc D Ss Nc.
    pose proof D as (ids & rf & sf & km_c & ops & Dw).
    destruct (dw_settings _ _ _ _ _ _ _ _ _ _ _ _ _ Dw) as (d & Gs & Es).
    destruct (open_reduce w pre d F Wf Hs Hc Gs Es) as (w3 & X3 & V3 & ->).
    destruct (index_load_ok c nv pre sg w3 (eff_fault _ _ X3) (eff_wf _ _ X3))
      as (m' & w' & E' & X' & P1 & P2 & P3 & P4 & P5 & P6 & P7 & P8); try assumption.
    { eapply (DiskOkW_meta H cfg); [|exact D]. intros q Dq. rewrite V3. apply vset_other.
      intros ->. exact Dq. }
    rewrite E'. eexists m', _, w'. split; [reflexivity|]. split; [eapply eff_trans; eassumption|].
    repeat (split; [assumption|]). split; [|exact P8].
    intros q Nq Nl. rewrite P7 by exact Nq. rewrite V3. now apply vset_other.
  Qed.

  (* C02 for one restart.  Closing the handle and opening the store again (same
     configuration, no fault) succeeds; key map, reference counts, statistics and next version
     are those of the closed handle; all invariants hold for the new handle; the index size
     statistic is the length of the index file *)
  Theorem restart_ok : forall m s sg w,
    Inv m s sg -> wfs w = s -> wfault w = None ->
    exists w1 m' os w',
      close m w = (tt, w1) /\ open_with_recover H cfg w1 = (Ok (m', os), w') /\
      wfault w' = None /\
      km (idx m') = km (idx m) /\ rc (idx m') = rc (idx m) /\
      ub (idx m') = ub (idx m) /\ tb (idx m') = tb (idx m) /\
      nextv (mwal m') = nextv (mwal m) /\
      Inv m' (wfs w') sg /\
      ssz (idx m') = match fget (wfs w') PIndex with Some f => len (fdata f) | None => 0 end.
  Proof.
    intros m s sg w (L & D & Wf) Ws F. subst s.
    pose proof L as [Ssg Hkm Hidx Hnc Hcas Hst Hdirs Hwal].
    destruct (close_ok m w Hwal F Wf) as (w1 & E1 & X1 & V1).
    pose proof X1 as (F1 & W1 & Dr1 & Ns1).
    destruct Hdirs as (Hd1 & Hd2 & Hd3).
    destruct (open_ok (lpv (idx m)) (nextv (mwal m)) (mpre m) sg w1 F1 W1)
      as (m' & os & w' & E' & X' & P1 & P2 & P3 & P4 & P5 & P6 & P7 & P8); try assumption.
    { unfold has_dir. now rewrite Dr1. }
    { unfold has_dir. now rewrite Dr1. }
    { eapply (DiskOkW_ext H cfg); [| | |exact D]; intros; apply V1. }
    pose proof X' as (F' & W' & Dr' & Ns').
    destruct (IdxInv_unique (idx m') (idx m) P5 Hidx) as (R1 & R2 & R3); [congruence|].
    exists w1, m', os, w'. split; [exact E1|]. split; [exact E'|]. split; [exact F'|].
    split; [congruence|]. split; [exact R1|]. split; [exact R2|]. split; [exact R3|].
    split; [exact P1|]. split; [split; [|split; assumption]|].
    - assert (Fr : forall q, ~ is_meta q -> q <> PLock -> fdat (wfs w') q = fdat (wfs w) q).
      { intros q A B. now rewrite P7, V1. }
      constructor; try assumption.
      + intros k c Ik. destruct (Hcas k c Ik) as (f & Gf & Df). apply fdat_some.
        rewrite Fr; [|intros X; exact X|discriminate]. apply fdat_some. now exists f.
      + intros i Li. apply fdat_none. rewrite Fr; [|intros X; exact X|discriminate].
        apply fdat_none, Hst. rewrite <- Ns1, <- Ns'. exact Li.
      + assert (Dr : dirs (wfs w') = dirs (wfs w)) by congruence.
        unfold dirs_ok, parent_ok, has_dir. rewrite Dr, P3. auto.
      + destruct Hwal as [N1 _]. split; [now rewrite P1|]. now rewrite P2.
    - rewrite P8. unfold fdat. destruct (fget (wfs w') PIndex); reflexivity.
  Qed.

  (* the first open of an empty directory establishes the invariants (the settings file stores
     num_ops_per_wal as a u64, hence the bound on c_n) *)
  Theorem open_fresh_disk : c_pre cfg = false -> c_n cfg < 2 ^ 64 ->
    exists m os w', open_with_recover H cfg (init_world empty_fs None) = (Ok (m, os), w') /\
      wfault w' = None /\ Inv m (wfs w') [] /\ Clean H (wfs w') [] /\ CasNamed H (wfs w') /\
      nextv (mwal m) = 1.
  Proof.
    intros Pre Nfit.
    destruct (open_fresh_run H cfg n_pos Pre) as (os & w' & E & R & L & C & N & Wf).
    eexists _, os, w'. split; [exact E|]. split; [exact (ran_fault _ _ _ R)|].
    split; [|split; [exact C|split; [exact N|reflexivity]]]. split; [exact L|]. split; [|exact Wf].
    (* the files the calls leave: the lock, the settings, and an empty segment 0 added last *)
    set (dv := calls_view (aw_calls PSettings PSettingsTmp (enc_settings CURRENT_DB_VERSION false (c_n cfg)))
                 (vset (fdat empty_fs) PLock (Some []))).
    assert (V : forall q, fdat (wfs w') q = vset dv (PWal 0) (Some []) q).
    { intros q. rewrite (okc_view _ _ _ (ran_okc _ _ _ R) empty_fs_wf). unfold fresh_calls.
      now rewrite !calls_view_app. }
    apply (V_add_seg H H_len H_byte cfg n_pos 0 1 _ false dv).
    - apply diskokw_fresh; [exact Nfit| | |intros i]; unfold dv; rewrite aw_calls_view;
        [apply vset_same|reflexivity|reflexivity].
    - unfold dv. now rewrite aw_calls_view.
    - rewrite V. apply vset_same.
    - intros q Nq. rewrite V. now apply vset_other.
  Qed.
End Recover.

Print Assumptions restart_ok.
Print Assumptions open_fresh_disk.
