(* StoreInv.v -- the invariant relating an open handle's memory, the filesystem and the abstract
   ordered map, for fault-free runs: [Live0], exact reclamation [Clean], and [CasNamed].
   Definitions only; what preserves them is proved in StoreWrite.v. *)
From Cas Require Import History.
From CasProofs Require Import BaseProofs SMapProofs IndexProofs.

Section StoreInv.
  Variable H : bytes -> bytes.
  Hypothesis H_len : forall b, length (H b) = 32%nat.
  Hypothesis H_byte : forall b, Forall (fun x => x < 256) (H b).
  Variable cfg : config.
  Hypothesis n_pos : 0 < c_n cfg.
  Let cmp := key_cmp (c_kt cfg).

  Definition item_of (c : bytes) : item := mkItem (H c) (len c).
  Definition km_of (sg : smap bytes) : smap item := map (fun kc => (fst kc, item_of (snd kc))) sg.
  Definition NoCollide (l : list bytes) : Prop := forall a b, In a l -> In b l -> H a = H b -> a = b.

  Definition wal_ok (m : mem) (s : fs) : Prop :=
    1 <= nextv (mwal m) /\
    match writer (mwal m) with
    | None => True
    | Some (sg, buf) => buf = [] /\ fget s (PWal sg) <> None /\ 2 <= nextv (mwal m)
                        /\ sg = seg_of cfg (nextv (mwal m) - 1)
    end.

  (* third clause: a handle that remembers pre-created fan-out directories finds the parent
     directory of every WELL-FORMED hash (32 bytes, each < 256: finitely many directories, so the
     clause is satisfiable -- PreCreate.open_fresh_disk_pre_Inv; put uses it for H content only) *)
  Definition dirs_ok (m : mem) (s : fs) : Prop :=
    has_dir s [s_staging] = true /\ has_dir s [s_cas] = true /\
    (mpre m = true -> forall h, length h = 32%nat -> Forall (fun x => x < 256) h ->
                        parent_ok s (cas_path h) = true).

  (* core invariant: holds after every fault-free operation, also when garbage is around *)
  Record Live0 (m : mem) (s : fs) (sg : smap bytes) : Prop := mkLive0 {
    lv_sorted : sorted cmp sg;
    lv_km : km (idx m) = km_of sg;
    lv_idx : IdxInv cmp (idx m);
    lv_nocollide : NoCollide (map snd sg);
    lv_cas : forall k c, In (k, c) sg -> exists f, fget s (cas_path (H c)) = Some f /\ fdata f = c;
    lv_stage_fresh : forall i, nstage s <= i -> fget s (PStaging i) = None;
    lv_dirs : dirs_ok m s;
    lv_wal : wal_ok m s
  }.

  (* exactness (C07): nothing but the referenced blobs under cas/, nothing under staging/ *)
  Definition Clean (s : fs) (sg : smap bytes) : Prop :=
    (forall comps f, fget s (PCas comps) = Some f -> exists k c, In (k, c) sg /\ comps = hexpath (H c))
    /\ (forall i, fget s (PStaging i) = None).

  (* every CAS file holds the bytes its name promises (C06) *)
  Definition CasNamed (s : fs) : Prop :=
    forall comps f, fget s (PCas comps) = Some f -> comps = hexpath (H (fdata f)).
End StoreInv.
