(* CrashC20.v -- C20 at every instant: the memory-less invariant implies the
   well-formedness of the on-disk log and snapshot.  Every PWal i parses with parse_segment
   (complete records, valid checksums, at most a trailing sentinel); its versions lie in the
   window (i*N, (i+1)*N]; versions increase strictly through ascending segment ids; every
   version above the snapshot version and below the next version is present; the snapshot file
   is absent or decodes completely (dec_snapshot); snapshot + log decode, with the declarative
   reader of AtRest.v, to the abstract map.  Combined with put_crash ... close_crash
   (CrashOps.v) and open_crash (CrashOpen.v) this holds for every intermediate filesystem of
   every operation and of recovery. *)
From Cas Require Import History.
From CasProofs Require Import StoreInv StoreHist DiskInv AtRest CrashInv.
Open Scope N_scope.

Section CrashC20.
  Variable H : bytes -> bytes.
  Hypothesis H_len : forall b, length (H b) = 32%nat.
  Hypothesis H_byte : forall b, Forall (fun x => x < 256) (H b).
  Variable cfg : config.
  Hypothesis n_pos : 0 < c_n cfg.

  Local Notation DX L := (L H H_len H_byte cfg n_pos) (only parsing).
  Local Notation km_of := (km_of H).
  Local Notation Rest := (Rest H cfg).
  Local Notation RestD := (RestD H cfg).

  (* the clauses of AtRest.C20_at_rest, with the snapshot version c and the next version nv
     read off the disk instead of the handle's memory *)
  Definition WellFormedDisk (s : fs) (sg : smap bytes) : Prop :=
    let n := c_n cfg in
    let ids := sort_ids (wal_ids s) in
    exists (rf : N -> list (N * bytes)) (c nv : N),
      (forall i f, fget s (PWal i) = Some f ->
         parse_segment H (fdata f) = Ok (rf i) /\
         Forall (fun r => i * n < fst r /\ fst r <= (i + 1) * n) (rf i)) /\
      asc ids /\ asc (map fst (flat_map rf ids)) /\
      (forall v, c < v -> v < nv -> exists p, In (v, p) (flat_map rf ids)) /\
      (forall r, In r (flat_map rf ids) -> fst r < nv) /\
      match fget s PIndex with
      | None => c = 0
      | Some f => 0 < c /\ exists es, dec_snapshot (fdata f) = Ok (c, es)
      end /\
      spec_decode H cfg s = Some (km_of sg).

  Theorem C20_rest : forall s sg, Rest s sg -> WellFormedDisk s sg.
  Proof.
    intros s sg (Ss & Nc & [(c & nv & pre & [(Wf & _) (ids0 & rf & sf & km_c & ops & Dw)])|RF]).
    - exists rf, c, nv. exact (DX DiskW_well_formed _ _ _ _ _ _ _ _ _ _ _ Dw Wf).
    - (* first-time initialisation pending: no snapshot, no segment, empty map *)
      destruct RF as (-> & _ & Wf & _ & _ & Gi & Gw).
      unfold WellFormedDisk. cbv zeta.
      assert (Ew : wal_ids s = []).
      { apply wal_ids_nil. intros i. apply fdat_none, Gw. }
      rewrite Ew. cbn [sort_ids fold_right flat_map map].
      exists (fun _ => []), 0, 1.
      split; [|split; [exact I|split; [exact I|split; [|split; [intros r []|split]]]]].
      + intros i f G. exfalso. specialize (Gw i). apply fdat_none in Gw. congruence.
      + intros v L1 L2. lia.
      + apply fdat_none in Gi. now rewrite Gi.
      + unfold spec_decode, decode_snapshot. apply fdat_none in Gi. rewrite Gi, Ew.
        reflexivity.
  Qed.

  (* at every instant of an operation: well-formed for the old or for the new map *)
  Corollary C20_along : forall sg sg' w w',
    Along (RestD sg sg') w w' ->
    Along (fun x => WellFormedDisk x sg \/ WellFormedDisk x sg') w w'.
  Proof.
    intros sg sg' w w'. apply along_weaken. intros x [R|R]; [left|right]; now apply C20_rest.
  Qed.

  Corollary C20_along1 : forall sg w w',
    Along (fun x => Rest x sg) w w' -> Along (fun x => WellFormedDisk x sg) w w'.
  Proof. intros sg w w'. apply along_weaken. intros x R. now apply C20_rest. Qed.
End CrashC20.

Print Assumptions C20_rest.
