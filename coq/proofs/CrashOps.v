(* CrashOps.v -- crash atomicity of the write operations: from the invariant of an open
   handle, every intermediate filesystem of a fault-free put / remove / remove_range /
   checkpoint / abort / close satisfies  Rest _ sg \/ Rest _ sg'  (old map or new map).

   The programs are not executed here: StoreRun.v names, for each of them, the list of the calls
   that take effect in a fault-free world; what is proved is that the invariant holds after
   every call of the list.

   In order: a predicate at a data view [AtW], and a run of calls on one file [a_ran] with its
   view effect and a walk inside every predicate that holds at the views in between; the segment
   writer and the atomic write, generic in the predicate walked in; the invariant at a view;
   checkpoint_inner, append_op, log_and_apply; the staging part of put, generic in the predicate
   walked in; the API operations from the weak handle invariant Inv', with Walk and a version
   bound; the same from Inv, as statements about every crash point (Along).
   Prefixes: atw_ facts about [AtW]; a_X the run of program X: its [Eff], the data view it
   leaves, and a [Walk] inside the predicate. *)
From Cas Require Import History.
From CasProofs Require Import BaseProofs CodecProofs SMapProofs IndexProofs StoreFS StoreRun
  StoreInv StoreWrite DiskInv CrashInv.
Open Scope N_scope.

(* P holds at every well-formed filesystem with the directories and staging counter of s and
   the data view v *)
Definition AtW (P : fs -> Prop) (s : fs) (v : path -> option bytes) : Prop :=
  forall x, FsWf x -> same_meta s x -> (forall q, fdat x q = v q) -> P x.

Lemma atw_eff : forall P w w' v, Eff w w' -> AtW P (wfs w) v ->
  (forall q, fdat (wfs w') q = v q) -> P (wfs w').
Proof. intros P w w' v X A V. apply A; [exact (proj1 (proj2 X))|now apply eff_same|exact V]. Qed.

Lemma atw_ext : forall P s (v v' : path -> option bytes), (forall q, v q = v' q) ->
  AtW P s v -> AtW P s v'.
Proof. intros P s v v' E A x W M V. apply A; auto. intros q. now rewrite V, E. Qed.

(* P at the view after each call of cs on the file p, whose content was o *)
Fixpoint AtWs (P : fs -> Prop) (s : fs) (p : path) (cs : list call) (o : option bytes) : Prop :=
  match cs with
  | [] => True
  | c :: r => AtW P s (vset (fdat s) p (ceff c o)) /\ AtWs P s p r (ceff c o)
  end.

Lemma atws_all : forall (P : fs -> Prop) s p cs o, (forall o', AtW P s (vset (fdat s) p o')) ->
  AtWs P s p cs o.
Proof. intros P s p. induction cs as [|c r IH]; intros o A; [exact I|]. split; [apply A|now apply IH]. Qed.

Lemma a_ran : forall (P : fs -> Prop) p cs w w', Ran cs w w' -> FsWf (wfs w) -> Forall (on p) cs ->
  P (wfs w) -> AtWs P (wfs w) p cs (fdat (wfs w) p) ->
  Eff w w' /\
  (forall q, fdat (wfs w') q
             = vset (fdat (wfs w)) p (fold_left (fun o c => ceff c o) cs (fdat (wfs w) p)) q) /\
  Walk P w w'.
Proof.
  intros P p cs w w' R W0 On X A.
  assert (G : forall s0 o, same_meta s0 (wfs w) -> (forall q, fdat (wfs w) q = vset (fdat s0) p o q) ->
                AtWs P s0 p cs o ->
                FsWf (wfs w') /\ same_meta s0 (wfs w') /\
                (forall q, fdat (wfs w') q = vset (fdat s0) p (fold_left (fun o c => ceff c o) cs o) q) /\
                Walk P w w').
  { clear A. induction R as [w F|c cs w s1 w' F E R IH]; intros s0 o M V A.
    - split; [exact W0|]. split; [exact M|]. split; [exact V|now apply walk_refl].
    - inversion On as [|? ? Oc Or]; subst. destruct A as [A1 A].
      destruct (apply_call_on p c _ _ Oc W0 E) as [M01 V01].
      pose proof (apply_call_wf _ _ _ E W0) as W1.
      assert (M1 : same_meta s0 s1) by (destruct M, M01; split; congruence).
      assert (V1 : forall q, fdat s1 q = vset (fdat s0) p (ceff c o) q).
      { intros q. rewrite V01, (V p), vset_same. unfold vset.
        destruct (path_eqb_spec q p) as [->|N]; [reflexivity|]. rewrite V. now apply vset_other. }
      pose proof (A1 s1 W1 M1 V1) as X1.
      destruct (IH W1 Or X1 s0 (ceff c o) M1 V1 A) as (W' & M' & V' & K').
      split; [exact W'|]. split; [exact M'|]. split; [exact V'|]. eapply walk_trans; [|exact K'].
      eapply walk_call; [exact F|exact (do_call_ok _ _ _ F E)|exact X|exact X1]. }
  destruct (G (wfs w) (fdat (wfs w) p) (conj eq_refl eq_refl)) as (W' & M' & V' & K'); [|exact A|].
  - intros q. symmetry. apply vset_id.
  - split; [|now split]. split; [exact (ran_fault _ _ _ R)|]. split; [exact W'|exact M'].
Qed.

Lemma unlink_calls_incl : forall ps s, incl (unlink_calls ps s) (map CUnlink ps).
Proof.
  induction ps as [|p ps IH]; intros s; cbn [unlink_calls map]; [apply incl_refl|].
  destruct (fget s p); [|apply incl_nil_l]. apply incl_cons; [now left|]. apply incl_tl, IH.
Qed.

Lemma prune_calls_unlink : forall bound s c, In c (prune_calls bound s) ->
  exists i, c = CUnlink (PWal i) /\ i < bound.
Proof.
  intros bound s c Ic. apply unlink_calls_incl, in_map_iff in Ic. destruct Ic as (p & <- & Ip).
  apply in_map_iff in Ip. destruct Ip as (i & <- & Ii). apply filter_In in Ii.
  exists i. split; [reflexivity|]. now apply N.ltb_lt.
Qed.

Section CrashOps.
  Variable H : bytes -> bytes.
  Hypothesis H_len : forall b, length (H b) = 32%nat.
  Hypothesis H_byte : forall b, Forall (fun x => x < 256) (H b).
  Variable cfg : config.
  Hypothesis n_pos : 0 < c_n cfg.
  Let cmp := key_cmp (c_kt cfg).

  Local Notation KX L :=
    (L cmp (key_cmp_refl _) (key_cmp_eq _) (key_cmp_antisym _) (key_cmp_trans _)) (only parsing).
  Local Notation DX L := (L H H_len H_byte cfg n_pos) (only parsing).
  Local Notation km_of := (km_of H).
  Local Notation NoCollide := (NoCollide H).
  Local Notation Live0 := (Live0 H cfg).
  Local Notation seg_of := (seg_of cfg).
  Local Notation DiskOkW := (DiskOkW H cfg).
  Local Notation DiskOk := (DiskOk H cfg).
  Local Notation DiskOk' := (DiskOk' H cfg).
  Local Notation Inv := (Inv H cfg).
  Local Notation Inv' := (Inv' H cfg).
  Local Notation Rest := (Rest H cfg).
  Local Notation RestP := (RestP H cfg).
  Local Notation RestB := (RestB H cfg).
  Local Notation RestDB := (RestDB H cfg).
  Local Notation Aux := (Aux H).
  Local Notation cas_has := (cas_has H).
  Local Notation harmless := (harmless H).
  Local Notation kstep := (kstep cfg).
  Local Notation op_good := (op_good cfg).
  Local Notation sg_fits := (sg_fits cfg).

  Section Gen.
    Variable P : fs -> Prop.

    (* the flush and sync of a segment writer: at most one append *)
    Lemma a_wal_write : forall seg data d w w', Ran (wal_write seg data) w w' -> FsWf (wfs w) ->
      fdat (wfs w) (PWal seg) = Some d -> P (wfs w) ->
      AtW P (wfs w) (vset (fdat (wfs w)) (PWal seg) (Some (d ++ data))) ->
      Eff w w' /\
      (forall q, fdat (wfs w') q = vset (fdat (wfs w)) (PWal seg) (Some (d ++ data)) q) /\
      Walk P w w'.
    Proof using.
      intros seg data d w w' R W G X A.
      destruct (a_ran P (PWal seg) _ w w' R W) as (Ef & V & K); [|exact X| |].
      - apply Forall_app. split; [destruct data|]; repeat constructor.
      - rewrite G. unfold wal_write.
        destruct data; cbn [append_calls app AtWs ceff option_map]; [rewrite app_nil_r in A|];
          now repeat split.
      - split; [exact Ef|]. split; [|exact K]. intros q. rewrite V, G. unfold wal_write.
        destruct data; cbn [append_calls app fold_left ceff option_map];
          [now rewrite app_nil_r|reflexivity].
    Qed.

    Lemma a_writer_close : forall seg d w,
      wfault w = None -> FsWf (wfs w) -> fdat (wfs w) (PWal seg) = Some d -> P (wfs w) ->
      AtW P (wfs w) (fdat (wfs w)) ->
      exists w', writer_close seg [] w = (Ok tt, w') /\ Eff w w' /\
                 (forall q, fdat (wfs w') q = fdat (wfs w) q) /\ Walk P w w'.
    Proof using.
      intros seg d w F W G X A.
      destruct (writer_close_does seg [] w F (fdat_present _ _ _ G)) as (w' & E & R).
      exists w'. split; [exact E|].
      destruct (a_ran P (PWal seg) _ w w' R W) as (Ef & V & K); [repeat constructor|exact X| |].
      - split; [|exact I]. apply (atw_ext P _ (fdat (wfs w))); [|exact A].
        intros q. symmetry. apply vset_id.
      - split; [exact Ef|]. split; [|exact K]. intros q. rewrite V. apply vset_id.
    Qed.

    (* atomically_write_file_bytes: any content of the temporary, then the rename *)
    Lemma a_atomic_write : forall target tmp data w w',
      Ran (aw_calls target tmp data) w w' -> FsWf (wfs w) -> P (wfs w) ->
      (forall o, AtW P (wfs w) (vset (fdat (wfs w)) tmp o)) ->
      AtW P (wfs w) (vset (vset (fdat (wfs w)) tmp None) target (Some data)) ->
      Eff w w' /\
      (forall q, fdat (wfs w') q = vset (vset (fdat (wfs w)) tmp None) target (Some data) q) /\
      Walk P w w'.
    Proof using.
      intros target tmp data w w' R W X At Af. unfold aw_calls in R.
      replace (CCreate tmp :: append_calls tmp data ++ [CSync tmp; CRename tmp target])
        with ((CCreate tmp :: append_calls tmp data ++ [CSync tmp]) ++ [CRename tmp target]) in R
        by (cbn [app]; now rewrite <- app_assoc).
      apply ran_app_inv in R. destruct R as (w3 & R3 & R4).
      destruct (a_ran P tmp _ w w3 R3 W) as ((_ & W3 & D3 & N3) & V3 & K3);
        [|exact X|now apply atws_all|].
      { constructor; [reflexivity|]. apply Forall_app. split; [destruct data|]; repeat constructor. }
      replace (fold_left _ _ _) with (Some data) in V3 by (destruct data; reflexivity).
      apply ran_cons_inv in R4. destruct R4 as (s4 & F3 & E4 & R4). apply ran_nil_inv in R4. subst w'.
      destruct (apply_call_view _ _ _ W3 E4) as (W4 & _ & [D4 N4] & d & Gd & V4).
      rewrite V3, vset_same in Gd. inversion Gd; subst d.
      assert (V4' : forall q, fdat s4 q = vset (vset (fdat (wfs w)) tmp None) target (Some data) q).
      { intros q. rewrite V4. unfold vset. destruct (path_eqb q target); [reflexivity|].
        destruct (path_eqb_spec q tmp) as [->|N]; [reflexivity|]. rewrite V3. now apply vset_other. }
      assert (X4 : P s4) by (apply Af; [exact W4|split; congruence|exact V4']).
      split; [repeat split; cbn [after wfault wfs]; congruence|]. split; [exact V4'|].
      eapply walk_trans; [exact K3|].
      eapply walk_call; [exact F3|exact (do_call_ok _ _ _ F3 E4)|exact (walk_end _ _ _ K3)|exact X4].
    Qed.
  End Gen.

  Lemma sees_atw : forall R (P : fs -> Prop) s v, Sees R P -> P s ->
    (forall q, R q \/ is_staging q -> v q = fdat s q) -> AtW P s v.
  Proof.
    intros R P s v [Wf Ag] Ps E x W [D N] V. apply (Ag s x); auto.
    - intros i Li. rewrite N in Li. rewrite V, E by (now right). now apply (proj2 (Wf s Ps)).
    - intros d. now rewrite D.
    - intros q Rq. rewrite V. apply E. now left.
  Qed.

  (* a scratch file is not looked at *)
  Lemma atw_scratch : forall sg (P : fs -> Prop) s p o, Sees (looked H sg) P -> P s -> scratch p ->
    AtW P s (vset (fdat s) p o).
  Proof.
    intros sg P s p o Se Ps Sc. apply (sees_atw _ _ _ _ Se Ps). intros q L. apply vset_other.
    intros ->. destruct p; try contradiction; destruct L as [[]|[]].
  Qed.

  Lemma rest_atw : forall sg s v, Rest s sg ->
    v PSettings = fdat s PSettings -> v PIndex = fdat s PIndex ->
    (forall i, v (PWal i) = fdat s (PWal i)) ->
    (forall i, v (PStaging i) = fdat s (PStaging i)) ->
    (forall k c, In (k, c) sg -> v (cas_path (H c)) = fdat s (cas_path (H c))) ->
    AtW (fun x => Rest x sg) s v.
  Proof.
    intros sg s v R E1 E2 E3 E4 E5. apply (sees_atw _ _ s v (sees_rest H cfg sg) R).
    intros [] [L|L]; try contradiction; auto. destruct L as (k & c & Ik & ->). now apply (E5 k).
  Qed.

  (* the side conditions travel with the staging and blob part of the view; the meta part is
     given by a DiskOkW fact about the view *)
  Lemma restp_atw : forall pre sg' s c' nv' sb' v,
    Aux pre sg' s ->
    (forall i, v (PStaging i) = fdat s (PStaging i)) ->
    (forall k c, In (k, c) sg' -> v (cas_path (H c)) = fdat s (cas_path (H c))) ->
    DiskOkW c' nv' sb' pre v sg' ->
    AtW (RestP c' nv' sb' pre sg') s v.
  Proof.
    intros pre sg' s c' nv' sb' v A E4 E5 D x W [Dx N] V. pose proof A as (_ & Sf & _). split.
    - eapply (aux_agree H); [exact A|exact W| | |].
      + intros i Li. rewrite N in Li. rewrite V, E4. now apply Sf.
      + intros d. now rewrite Dx.
      + intros k c Ik. rewrite V. now apply (E5 k).
    - eapply (DiskOkW_ext H cfg); [| | |exact D]; intros; apply V.
  Qed.

  Lemma vset_notwal : forall (v : path -> option bytes) i o q, not_wal q -> vset v (PWal i) o q = v q.
  Proof. intros v i o q Nq. apply vset_other. intros ->. exact Nq. Qed.

  Lemma restp_atw_wal : forall pre sg s c nv sb i o, Aux pre sg s ->
    DiskOkW c nv sb pre (vset (fdat s) (PWal i) o) sg ->
    AtW (RestP c nv sb pre sg) s (vset (fdat s) (PWal i) o).
  Proof.
    intros pre sg s c nv sb i o A D. apply restp_atw; [exact A| | |exact D]; intros;
      now apply vset_notwal.
  Qed.

  Lemma atw_weaken : forall (P Q : fs -> Prop) s v, (forall x, P x -> Q x) -> AtW P s v -> AtW Q s v.
  Proof. intros P Q s v I A x W M V. apply I, A; assumption. Qed.

  Lemma atw_here : forall (P : fs -> Prop) s, FsWf s -> AtW P s (fdat s) -> P s.
  Proof. intros P s W A. apply A; [exact W|now split|reflexivity]. Qed.

  (* checkpoint_inner: the snapshot written atomically, then the stale segments pruned *)
  Lemma a_checkpoint_inner : forall reason m sb sg B w w1 w',
    Ran (ck_write_calls reason m) w w1 -> Ran (ck_prune_calls cfg reason m (wfs w1)) w1 w' ->
    RestP (lpv (idx m)) (nextv (mwal m)) sb (mpre m) sg (wfs w) ->
    sb <= seg_of (nextv (mwal m)) -> nextv (mwal m) <= B ->
    km (idx m) = km_of sg -> sorted cmp sg -> NoCollide (map snd sg) ->
    Eff w w' /\
    RestP (lpv (idx (ck_mem reason m))) (nextv (mwal m)) sb (mpre m) sg (wfs w') /\
    (forall q, ~ is_meta q -> fdat (wfs w') q = fdat (wfs w) q) /\
    (ck_skips reason m = false -> fdat (wfs w') PIndex = Some (ck_data m)) /\
    Walk (fun x => RestB B x sg) w w'.
  Proof.
    intros reason m sb sg B w w1 w' R1 R2 R Lsb LB Km Ss Nc. pose proof R as [A D].
    pose proof A as (W & _). pose proof (ran_start _ _ _ R1) as F.
    destruct (DX ck_calls_disk reason m sb sg _ _ _ (ran_okc _ _ _ R1) (ran_okc _ _ _ R2) W D Km Ss Nc)
      as (_ & Nm & Gi).
    split; [apply (ran_eff _ _ _ (ran_app _ _ _ _ _ R1 R2) W); now apply (ck_calls_in cfg (fun _ => True))|].
    cut (RestP (lpv (idx (ck_mem reason m))) (nextv (mwal m)) sb (mpre m) sg (wfs w') /\
         Walk (fun x => RestB B x sg) w w'); [intros [Re K]; exact (conj Re (conj Nm (conj Gi K)))|].
    assert (R0 : RestB B (wfs w) sg) by (eapply (DX restp_restb); eassumption).
    unfold ck_write_calls in R1. unfold ck_prune_calls in R2. unfold ck_mem.
    set (nv := nextv (mwal m)) in *. destruct (ck_skips reason m) eqn:Sk; cbn [orb] in R2.
    - apply ran_nil_inv in R1. subst w1. apply ran_nil_inv in R2. subst w'.
      split; [exact R|now apply walk_refl].
    - cbn [idx lpv]. set (data := ck_data m) in *.
      assert (Pos : 0 < nv - 1).
      { unfold ck_skips in Sk. apply orb_false_iff in Sk. destruct Sk as [_ Sk].
        apply N.eqb_neq in Sk. fold nv in Sk. clear - Sk. lia. }
      set (v1 := vset (vset (fdat (wfs w)) PIndexTmp None) PIndex (Some data)).
      set (RP := RestP (nv - 1) nv sb (mpre m) sg).
      (* the snapshot in place: the invariant for the new snapshot version, nothing pruned yet *)
      assert (A1 : AtW RP (wfs w) v1).
      { apply restp_atw; [exact A| | |].
        - intros i. unfold v1. now rewrite !vset_other by discriminate.
        - intros k c _. unfold v1. now rewrite !vset_other by discriminate.
        - eapply (DX V_checkpoint) with (b := 0);
            [exact D|exact Ss|exact Nc|exact Pos|apply N.le_0_l| | |].
          + unfold v1. rewrite vset_same. unfold data, ck_data. now rewrite Km.
          + unfold v1. now rewrite !vset_other by discriminate.
          + intros i. unfold v1. rewrite !vset_other by discriminate. now destruct i. }
      assert (ToB : forall x, RP x -> RestB B x sg)
        by (intros x Rx; eapply (DX restp_restb); eassumption).
      destruct (a_atomic_write (fun x => RestB B x sg) PIndex PIndexTmp data w w1 R1 W R0)
        as (X1 & V1 & K1).
      { intros o. now apply (atw_scratch sg _ _ _ _ (sees_restb H cfg B sg) R0). }
      { exact (atw_weaken _ _ _ _ ToB A1). }
      (* the segments below the snapshot's are dropped one by one *)
      assert (K2 : Walk RP w1 w').
      { apply (ran_walk RP _ _ _ R2), thru_keeps; [exact (atw_eff _ _ _ _ X1 A1 V1)|].
        destruct (negb _ && _); [constructor|]. apply Forall_forall.
        intros c Ic. destruct (prune_calls_unlink _ _ _ Ic) as (i & -> & Li).
        now apply (DX restp_keeps_drop). }
      split; [exact (walk_end _ _ _ K2)|].
      exact (walk_trans _ _ _ _ K1 (walk_weaken _ _ _ _ ToB K2)).
  Qed.

  Definition seal_bound (wl : wal) : N :=
    match writer wl with None => seg_of (nextv wl) | Some _ => seg_of (nextv wl - 1) end.

  (* WalManager::append_op, call by call: [seal + sync], [open], append, sync *)
  Lemma a_append_op : forall wl c pre sg sg' o w w',
    Ran (append_op_calls H cfg wl (enc_op o)) w w' ->
    RestP c (nextv wl) (seal_bound wl) pre sg (wfs w) ->
    cas_has sg' (wfs w) ->
    sorted cmp sg -> NoCollide (map snd sg) -> sorted cmp sg' -> NoCollide (map snd sg') ->
    match writer wl with
    | None => True
    | Some (s0, buf) => buf = [] /\ fdat (wfs w) (PWal s0) <> None /\ s0 = seg_of (nextv wl - 1)
    end ->
    op_good o -> len (enc_op o) < 2 ^ 32 -> nextv wl < 2 ^ 64 ->
    kresp (km_of sg) o -> kstep (km_of sg) o = km_of sg' -> sg_fits sg' ->
    RestP c (nextv wl + 1) (seg_of (nextv wl)) pre sg' (wfs w') /\
    (forall q, not_wal q -> fdat (wfs w') q = fdat (wfs w) q) /\
    Walk (RestDB (nextv wl + 1) sg sg') w w'.
  Proof.
    intros wl c pre sg sg' o w w' R R0 C' Ss Nc Ss' Nc' Hw Og Lp Lnv Kr Ks Sf'.
    unfold append_op_calls in R. apply ran_app_inv in R. destruct R as (w1 & R1 & R2).
    set (ver := nextv wl) in *. set (t := seg_of ver) in *.
    assert (ToRest : forall x, RestP c ver t pre sg x -> RestB (ver + 1) x sg).
    { intros x Rx. eapply (DX restp_restb); try eassumption; [apply N.le_refl|apply N.le_add_r]. }
    (* phase 1: seal the old segment and open the target, as needed *)
    assert (Open : forall w0 w2, Ran [COpenAppend (PWal t)] w0 w2 -> RestP c ver t pre sg (wfs w0) ->
              RestP c ver t pre sg (wfs w2) /\ fdat (wfs w2) (PWal t) <> None /\
              (forall q, not_wal q -> fdat (wfs w2) q = fdat (wfs w0) q) /\
              Walk (fun x => RestB (ver + 1) x sg) w0 w2).
    { intros w0 w2 Ro Rp. pose proof Rp as [A0 D0].
      destruct (a_ran (RestP c ver t pre sg) (PWal t) _ w0 w2 Ro (proj1 A0)) as (_ & V & K);
        [repeat constructor|exact Rp| |].
      - split; [|exact I]. cbn [ceff]. destruct (fdat (wfs w0) (PWal t)) eqn:Gt.
        + apply (sees_atw _ _ _ _ (sees_restp H cfg _ _ _ _ _) Rp). intros q _.
          rewrite <- Gt. apply vset_id.
        + apply restp_atw_wal; [exact A0|].
          eapply (DX V_add_seg); [exact D0|exact Gt|apply vset_same|]. intros q Nq. now apply vset_other.
      - cbn [fold_left ceff] in V. split; [exact (walk_end _ _ _ K)|]. split; [|split].
        + rewrite V, vset_same. destruct (fdat (wfs w0) (PWal t)); discriminate.
        + intros q Nq. rewrite V. now apply vset_notwal.
        + eapply walk_weaken; [exact ToRest|exact K]. }
    assert (P1 : RestP c ver t pre sg (wfs w1) /\ fdat (wfs w1) (PWal t) <> None /\
                 (forall q, not_wal q -> fdat (wfs w1) q = fdat (wfs w) q) /\
                 Walk (fun x => RestB (ver + 1) x sg) w w1).
    { unfold roll_calls in R1. fold ver t in R1. unfold seal_bound in R0. fold ver t in R0.
      destruct (writer wl) as [[s b]|] eqn:Wr; [|now apply Open].
      destruct Hw as (_ & Gs & Es). fold ver in Es.
      destruct (N.eqb_spec s t) as [Est|Nst].
      - apply ran_nil_inv in R1. subst w1. rewrite <- Es, Est in R0. rewrite Est in Gs.
        split; [exact R0|]. split; [exact Gs|]. split; [auto|].
        apply walk_refl; [exact (ran_start _ _ _ R2)|now apply ToRest].
      - apply ran_app_inv in R1. destruct R1 as (w0 & Rs & Ro).
        destruct (fdat (wfs w) (PWal s)) as [d0|] eqn:G0; [|contradiction].
        pose proof R0 as [A D]. rewrite Es in G0.
        assert (Lt : seg_of (ver - 1) < t)
          by (apply N.le_neq; split; [apply seg_of_pred_le, n_pos|congruence]).
        assert (As : AtW (RestP c ver t pre sg) (wfs w)
                         (vset (fdat (wfs w)) (PWal (seg_of (ver - 1))) (Some (d0 ++ sentinel)))).
        { apply restp_atw_wal; [exact A|].
          eapply (DX V_seal); [exact D|exact Lt|exact G0|apply vset_same|].
          intros q Nq. now apply vset_other. }
        rewrite Es in Rs.
        destruct (a_wal_write (fun x => RestB (ver + 1) x sg) _ sentinel d0 w w0 Rs (proj1 A) G0)
          as (X0 & V0 & K0).
        { eapply (DX restp_restb); try eassumption; [apply seg_of_pred_le, n_pos|apply N.le_add_r]. }
        { eapply atw_weaken; [exact ToRest|exact As]. }
        destruct (Open w0 w1 Ro (atw_eff _ _ _ _ X0 As V0)) as (Q1 & Q2 & Q3 & Q4).
        split; [exact Q1|]. split; [exact Q2|]. split; [|exact (walk_trans _ _ _ _ K0 Q4)].
        intros q Nq. rewrite (Q3 q Nq), V0. now apply vset_notwal. }
    destruct P1 as (Rp1 & G1 & N1 & K1).
    (* phase 2: the record *)
    destruct (fdat (wfs w1) (PWal t)) as [d|] eqn:Gt; [|contradiction]. pose proof Rp1 as [A1 D1].
    assert (A3 : AtW (RestP c (ver + 1) t pre sg') (wfs w1)
                     (vset (fdat (wfs w1)) (PWal t) (Some (d ++ enc_record H ver (enc_op o))))).
    { apply restp_atw_wal.
      { destruct A1 as (Wf1 & Sf1 & Pd1 & _). repeat (split; [assumption|]).
        intros k c0 Ik. rewrite N1 by exact I. now apply (C' k). }
      eapply (DX V_append) with (sb := t) (d := d); try eassumption;
        [apply N.le_refl|apply vset_same|]. intros q Nq. now apply vset_other. }
    destruct (a_wal_write (RestDB (ver + 1) sg sg') t _ d w1 w' R2 (proj1 A1) Gt) as (X2 & V2 & K2).
    { left. now apply ToRest. }
    { eapply atw_weaken; [|exact A3]. intros x Rx. right.
      eapply (DX restp_restb); try eassumption;
        [apply (seg_of_mono cfg n_pos), N.le_add_r|apply N.le_refl]. }
    split; [exact (atw_eff _ _ _ _ X2 A3 V2)|]. split.
    - intros q Nq. rewrite V2, vset_notwal by exact Nq. now apply N1.
    - eapply walk_trans; [|exact K2]. eapply walk_weaken; [|exact K1]. intros x Rx. now left.
  Qed.

  Lemma diskok'_seal_bound : forall m s sg,
    DiskOk' m s sg =
    DiskOkW (lpv (idx m)) (nextv (mwal m)) (seal_bound (mwal m)) (mpre m) (fdat s) sg.
  Proof. reflexivity. Qed.

  (* log_and_apply: the record, the blob deletions, the roll-over checkpoint *)
  Lemma a_log_and_apply : forall m sg sg' o w,
    wfault w = None ->
    RestP (lpv (idx m)) (nextv (mwal m)) (seal_bound (mwal m)) (mpre m) sg (wfs w) ->
    cas_has sg' (wfs w) ->
    km (idx m) = km_of sg -> IdxInv cmp (idx m) -> wal_ok cfg m (wfs w) ->
    sorted cmp sg -> NoCollide (map snd sg) ->
    op_respects_sizes (idx m) o ->
    sorted cmp sg' -> km_of sg' = km_expected cmp (idx m) o -> NoCollide (map snd sg') ->
    sg_fits sg' -> op_good o -> len (enc_op o) < 2 ^ 32 -> nextv (mwal m) < 2 ^ 64 ->
    exists m' w', log_and_apply H cfg m o w = ((Ok tt, m'), w') /\ wfault w' = None /\
      RestP (lpv (idx m')) (nextv (mwal m')) (seal_bound (mwal m')) (mpre m') sg' (wfs w') /\
      nextv (mwal m') = nextv (mwal m) + 1 /\ mpre m' = mpre m /\
      Walk (RestDB (nextv (mwal m) + 1) sg sg') w w'.
  Proof.
    intros m sg sg' o w F R C' Hkm Hidx Hwal Ss Nc Hop Ss' Kexp Nc' Sf' Og Lp Lnv.
    pose proof (wal_ok_fdat _ _ _ Hwal) as Hw.
    destruct (C12_apply cmp (key_cmp_refl _) (key_cmp_eq _) (key_cmp_antisym _) (key_cmp_trans _)
                (idx m) o Hidx Hop) as (i' & un & Eap & _ & Ki' & Li' & _ & Hun).
    destruct (log_and_apply_run H cfg m o i' un w F) as (w1 & w2 & w3 & w' & E & Ra & Rd & Rc1 & Rc2);
      [|exact Eap|].
    { destruct (writer (mwal m)) as [[s0 b]|]; [|exact I]. destruct Hw as (B & G & _).
      split; [exact B|]. intros X. now apply G, fdat_none. }
    set (nv := nextv (mwal m)) in *.
    destruct (a_append_op (mwal m) (lpv (idx m)) (mpre m) sg sg' o w w1 Ra R C' Ss Nc Ss' Nc' Hw)
      as (R1 & N1 & K1); try assumption.
    { rewrite <- Hkm. now apply kresp_respects. }
    { rewrite <- Hkm, <- kstep_expected. now symmetry. }
    (* the blobs that became unreferenced *)
    set (RP := RestP (lpv (idx m)) (nv + 1) (seg_of nv) (mpre m) sg').
    assert (K2 : Walk RP w1 w2).
    { apply (ran_walk RP _ _ _ Rd), thru_keeps; [exact R1|]. apply Forall_forall. intros c Ic.
      apply delete_calls_incl, in_map_iff in Ic. destruct Ic as (h & <- & Ih).
      apply (restp_keeps H cfg). right. right. split; [exact I|]. intros k c Ik.
      destruct (proj1 (Hun h) Ih) as [Ih1 Ih2]. rewrite Hkm in Ih1. rewrite Ki', <- Kexp in Ih2.
      exact (unref_not_live H H_len H_byte sg sg' h k c Ih1 Ih2 Ik). }
    assert (ToDB : forall x, RP x -> RestDB (nv + 1) sg sg' x).
    { intros x Rx. right. eapply (DX restp_restb); try eassumption; [|apply N.le_refl].
      apply (seg_of_mono cfg n_pos), N.le_add_r. }
    pose proof (walk_trans _ _ _ _ K1 (walk_weaken _ _ _ _ ToDB K2)) as K02.
    assert (Sb1 : seal_bound (mkWal (nv + 1) (Some (seg_of nv, []))) = seg_of nv)
      by (unfold seal_bound; cbn [writer nextv]; now rewrite N.add_sub).
    (* the checkpoint after a roll-over *)
    exists (lap_res cfg m i'), w'. split; [exact E|]. unfold lap_res.
    destruct (lap_rolled cfg (mwal m)).
    - destruct (a_checkpoint_inner RRollover (lap_mem cfg m i') (seg_of nv) sg' (nv + 1) w2 w3 w'
                  Rc1 Rc2) as (X3 & R3 & _ & _ & K3); try assumption.
      { cbn [lap_mem idx mwal mpre nextv]. rewrite Li'. exact (walk_end _ _ _ K2). }
      { cbn [lap_mem mwal nextv]. apply (seg_of_mono cfg n_pos), N.le_add_r. }
      { apply N.le_refl. }
      { cbn [lap_mem idx]. rewrite Ki'. now symmetry. }
      destruct (ck_mem_same RRollover (lap_mem cfg m i')) as (_ & _ & _ & _ & Wl3 & P3).
      split; [exact (proj1 X3)|]. rewrite Wl3, P3. cbn [lap_mem mwal mpre nextv] in *. fold nv.
      rewrite Sb1. split; [exact R3|]. split; [reflexivity|]. split; [reflexivity|].
      exact (walk_trans _ _ _ _ K02 (walk_weaken _ _ _ _ (fun x Rx => or_intror Rx) K3)).
    - apply ran_nil_inv in Rc1. subst w3. apply ran_nil_inv in Rc2. subst w'.
      split; [exact (walk_fault _ _ _ K2)|]. cbn [lap_mem idx mwal mpre nextv]. fold nv.
      rewrite Sb1, Li'.
      split; [exact (walk_end _ _ _ K2)|]. split; [reflexivity|]. split; [reflexivity|exact K02].
  Qed.

  (* create the staging file, write, sync, make the fan-out
     directories, rename into cas/.  Generic in the predicate walked in: it is kept by the new
     staging file, by the writes to it and the directories, and by the rename that puts the
     content c under its name. *)
  Lemma put_stage_calls_mid : forall m chunks s,
    exists mid, put_stage_calls H cfg m chunks s
                = CCreateExcl (PStaging (nstage s)) :: mid
                  ++ [CRename (PStaging (nstage s)) (cas_path (H (concat chunks)))] /\
                Forall stage_call mid.
  Proof.
    intros m chunks s. unfold put_stage_calls. cbv zeta.
    set (p := PStaging (nstage s)). set (hp := hexpath (H (concat chunks))).
    exists (append_calls p (concat chunks) ++ (if c_sync cfg then [CSync p] else [])
            ++ (if mpre m then [] else mkdir_cas2_calls (nth 0 hp []) (nth 1 hp []) s)).
    split; [cbn [app]; now rewrite <- !app_assoc|].
    apply Forall_app. split; [destruct (concat chunks); repeat constructor|].
    apply Forall_app. split; [destruct (c_sync cfg); repeat constructor|].
    destruct (mpre m); [constructor|]. unfold mkdir_cas2_calls, mkdir_calls.
    apply Forall_app. split; match goal with |- context [if ?b then _ else _] => destruct b end;
      repeat constructor.
  Qed.

  Lemma a_put_stage_gen : forall (P : fs -> Prop) m sg k chunks w,
    Live0 m (wfs w) sg -> wfault w = None -> P (wfs w) ->
    let c := concat chunks in
    let p := PStaging (nstage (wfs w)) in
    (forall x', apply_call (CCreateExcl p) (wfs w) = Ok x' -> P x') ->
    (forall cl, stage_call cl -> call_keeps P cl) ->
    (forall x x', P x -> apply_call (CRename p (cas_path (H c))) x = Ok x' ->
                  fdat x' (cas_path (H c)) = Some c -> P x') ->
    exists w5, put H cfg m k chunks w = log_and_apply H cfg m (RPut k (H c) (len c)) w5 /\
               Ran (put_stage_calls H cfg m chunks (wfs w)) w w5 /\ Walk P w w5.
  Proof.
    intros P m sg k chunks w L F X c p Kn Ks Kr.
    pose proof L as [_ _ _ _ _ Hst (D1 & D2 & D3) _].
    destruct (hexpath_shape (H c) (H_len c) (H_byte c)) as (xa & xb & xc & Hp & _).
    destruct (put_stage_does H cfg m k chunks xa xb xc w F D1) as (w5 & E & R); [| |exact Hp|].
    { apply Hst, N.le_refl. }
    { destruct (mpre m); [apply D3; [reflexivity|apply H_len|apply H_byte]|exact D2]. }
    exists w5. split; [exact E|]. split; [exact R|]. apply (ran_walk P _ _ _ R).
    destruct (put_stage_calls_mid m chunks (wfs w)) as (mid & Em & Fm). rewrite Em.
    split; [exact X|]. intros s1 E1. apply thru_app.
    - apply thru_keeps; [exact (Kn _ E1)|]. eapply Forall_impl; [exact Ks|exact Fm].
    - intros s4 A4 X4. split; [exact X4|]. intros s5 E5. split; [|exact I].
      apply (Kr s4 s5 X4 E5). apply fdat_some.
      apply (put_stage_calls_eff H cfg m chunks (wfs w) s5). rewrite Em.
      exists s1. split; [exact E1|]. eapply okc_app; [exact A4|]. exists s5. now split.
  Qed.

  (* the instance for the on-disk invariant: the old map stays recoverable at every step *)
  Lemma a_put_stage_r : forall m sg k chunks w c0 nv sb,
    Live0 m (wfs w) sg -> wfault w = None ->
    RestP c0 nv sb (mpre m) sg (wfs w) ->
    NoCollide (concat chunks :: map snd sg) ->
    let c := concat chunks in
    exists w5,
      put H cfg m k chunks w = log_and_apply H cfg m (RPut k (H c) (len c)) w5 /\
      Ran (put_stage_calls H cfg m chunks (wfs w)) w w5 /\
      cas_has (sm_ins cmp sg k c) (wfs w5) /\
      (forall i, fdat (wfs w5) (PWal i) = fdat (wfs w) (PWal i)) /\
      Walk (RestP c0 nv sb (mpre m) sg) w w5.
  Proof.
    intros m sg k chunks w c0 nv sb L F R NC c.
    pose proof (sees_restp H cfg c0 nv sb (mpre m) sg) as Se.
    destruct (a_put_stage_gen (RestP c0 nv sb (mpre m) sg) m sg k chunks w L F R)
      as (w5 & E & R5 & K).
    - intros x'. now apply (sees_new_staging H sg _ _ _ Se).
    - intros cl Sc. apply (sees_keeps H sg _ _ Se), stage_harmless, Sc.
    - intros x x'. apply (sees_rename_blob H H_len H_byte sg _ _ c _ _ Se); [|exact NC].
      now intros y [(_ & _ & _ & Ca) _].
    - exists w5. split; [exact E|]. split; [exact R5|].
      destruct (put_stage_calls_eff H cfg m chunks _ _ (ran_okc _ _ _ R5)) as (Hq & Oth & _).
      split; [|split; [|exact K]].
      + intros k' c' Ik. apply (In_sm_ins _) in Ik. destruct Ik as [Ik|Ik].
        * inversion Ik; subst k' c'. apply fdat_some, Hq.
        * destruct (walk_end _ _ _ K) as [(_ & _ & _ & Ca) _]. now apply (Ca k').
      + intros i. unfold fdat. now rewrite Oth by discriminate.
  Qed.

  Lemma seal_bound_le : forall wl, seal_bound wl <= seg_of (nextv wl).
  Proof.
    intros wl. unfold seal_bound. destruct (writer wl); [apply seg_of_pred_le, n_pos|lia].
  Qed.

  Lemma inv'_restp : forall m s sg, Inv' m s sg ->
    RestP (lpv (idx m)) (nextv (mwal m)) (seal_bound (mwal m)) (mpre m) sg s.
  Proof. intros m s sg (L & D & W). split; [now apply (live_aux H cfg)|exact D]. Qed.

  Lemma restp_inv' : forall m s sg, Live0 m s sg ->
    RestP (lpv (idx m)) (nextv (mwal m)) (seal_bound (mwal m)) (mpre m) sg s -> Inv' m s sg.
  Proof. intros m s sg L [(W & _) D]. split; [exact L|]. split; [exact D|exact W]. Qed.

  Lemma restp_to_restb : forall B wl c pre sg x, sorted cmp sg -> NoCollide (map snd sg) ->
    nextv wl <= B -> RestP c (nextv wl) (seal_bound wl) pre sg x -> RestB B x sg.
  Proof.
    intros B wl c pre sg x Ss Nc L R. eapply (restp_restb H H_len H_byte cfg n_pos); try eassumption.
    apply seal_bound_le.
  Qed.

  Lemma restp_to_rest : forall wl c pre sg x, sorted cmp sg -> NoCollide (map snd sg) ->
    RestP c (nextv wl) (seal_bound wl) pre sg x -> Rest x sg.
  Proof.
    intros wl c pre sg x Ss Nc R.
    exact (restb_rest H cfg _ _ _ (restp_to_restb _ wl c pre sg x Ss Nc (N.le_refl _) R)).
  Qed.

  Lemma inv'_restb : forall B m s sg, Inv' m s sg -> nextv (mwal m) <= B -> RestB B s sg.
  Proof.
    intros B m s sg IV L. pose proof IV as (Lv & _).
    eapply restp_to_restb; [exact (lv_sorted _ _ _ _ _ Lv)|exact (lv_nocollide _ _ _ _ _ Lv)|exact L|].
    now apply inv'_restp.
  Qed.

  (* put, from the weak handle invariant Inv' and with the point between its two parts
     exposed: the staging part (the old map at every step) and the logging part (old or new).
     Fitting hypotheses as for put_disk. *)
  Theorem put_crash_split : forall m s sg k chunks w,
    Inv' m s sg -> wfs w = s -> wfault w = None ->
    NoCollide (concat chunks :: map snd sg) ->
    len k + 45 < 2 ^ 32 -> key_valid (c_kt cfg) k = true -> len (concat chunks) < 2 ^ 64 ->
    N.of_nat (length sg) + 1 < 2 ^ 32 -> nextv (mwal m) < 2 ^ 64 ->
    let c := concat chunks in
    let sg' := sm_ins cmp sg k c in
    exists w5 m' w',
      put H cfg m k chunks w = log_and_apply H cfg m (RPut k (H c) (len c)) w5 /\
      log_and_apply H cfg m (RPut k (H c) (len c)) w5 = ((Ok tt, m'), w') /\
      wfault w5 = None /\ Ran (put_stage_calls H cfg m chunks (wfs w)) w w5 /\
      Walk (fun x => RestB (nextv (mwal m) + 1) x sg) w w5 /\
      Walk (RestDB (nextv (mwal m) + 1) sg sg') w5 w' /\
      Inv' m' (wfs w') sg' /\ nextv (mwal m') = nextv (mwal m) + 1.
  Proof.
    intros m s sg k chunks w IV Ws F NC Lk Vk Lc Ln Lv c sg'. pose proof IV as (L & D & Wf).
    destruct (put_spec H H_len H_byte cfg n_pos m s sg k chunks w L Ws F NC)
      as (m' & w' & E & F' & P).
    pose proof (inv'_restp m s sg IV) as R. subst s.
    destruct (a_put_stage_r m sg k chunks w _ _ _ L F R NC) as (w5 & E5 & R5 & C5 & Wl5 & K5).
    fold c in E5, C5. fold sg' in C5. pose proof (walk_end _ _ _ K5) as Rp5.
    pose proof L as [Ssg Hkm Hidx Hnc _ _ _ Hwal].
    destruct (put_next H cfg m sg k c Ssg Hkm NC) as (Hop & Ss' & Ke & Nc'). fold sg' in Ss', Ke, Nc'.
    destruct (a_log_and_apply m sg sg' (RPut k (H c) (len c)) w5 (walk_fault _ _ _ K5) Rp5 C5)
      as (m2 & w2 & E2 & F2 & R2 & N2 & P2 & K2); try assumption.
    - destruct Hwal as [N1 Hw]. split; [exact N1|].
      destruct (writer (mwal m)) as [[sgm buf]|]; [|exact I].
      destruct Hw as (B & G & Hw). split; [exact B|]. split; [|exact Hw].
      intros X. apply G. apply fdat_none. rewrite <- Wl5. now apply fdat_none.
    - destruct (DiskOkW_fits H cfg _ _ _ _ _ _ D) as [Ln0 Fa0]. split.
      + pose proof (length_sm_ins_le cmp sg k c) as Hl. fold cmp sg' in Hl. clear - Hl Ln. lia.
      + apply Forall_forall. intros e Ie. apply (In_sm_ins _) in Ie. destruct Ie as [->|Ie].
        * cbn [fst snd]. auto.
        * rewrite Forall_forall in Fa0. now apply Fa0.
    - split.
      + cbn [op_fits]. unfold key_fits, hash_ok. split; [clear - Lk; lia|].
        split; [apply H_len|exact Lc].
      + cbn [op_keys]. constructor; [exact Vk|constructor].
    - rewrite (DX len_enc_put) by apply H_len. exact Lk.
    - rewrite E5, E2 in E. inversion E; subst m2 w2.
      exists w5, m', w'. split; [exact E5|]. split; [exact E2|].
      split; [exact (walk_fault _ _ _ K5)|]. split; [exact R5|]. split; [|split; [exact K2|]].
      + eapply walk_weaken; [|exact K5]. intros x.
        apply (restp_to_restb _ (mwal m)); [exact Ssg|exact Hnc|apply N.le_add_r].
      + split; [|exact N2]. apply restp_inv'; [exact (proj1 (proj2 P))|exact R2].
  Qed.

  Theorem put_crash' : forall m s sg k chunks w,
    Inv' m s sg -> wfs w = s -> wfault w = None ->
    NoCollide (concat chunks :: map snd sg) ->
    len k + 45 < 2 ^ 32 -> key_valid (c_kt cfg) k = true -> len (concat chunks) < 2 ^ 64 ->
    N.of_nat (length sg) + 1 < 2 ^ 32 -> nextv (mwal m) < 2 ^ 64 ->
    exists m' w', put H cfg m k chunks w = ((Ok tt, m'), w') /\ wfault w' = None /\
                  Inv' m' (wfs w') (sm_ins cmp sg k (concat chunks)) /\
                  nextv (mwal m') = nextv (mwal m) + 1 /\
                  Walk (RestDB (nextv (mwal m) + 1) sg (sm_ins cmp sg k (concat chunks))) w w'.
  Proof.
    intros m s sg k chunks w IV Ws F NC Lk Vk Lc Ln Lv.
    destruct (put_crash_split m s sg k chunks w IV Ws F NC Lk Vk Lc Ln Lv)
      as (w5 & m' & w' & E5 & E & _ & _ & K5 & K & IV' & Nv).
    exists m', w'. split; [now rewrite E5|]. split; [exact (walk_fault _ _ _ K)|].
    split; [exact IV'|]. split; [exact Nv|]. eapply walk_trans; [|exact K].
    eapply walk_weaken; [|exact K5]. intros x Rx. now left.
  Qed.

  (* remove / remove_range: one record, all or nothing *)
  Lemma a_removal : forall m s sg sg' ks w,
    Inv' m s sg -> wfs w = s -> wfault w = None ->
    sorted cmp sg' -> (forall e, In e sg' -> In e sg) -> (length sg' <= length sg)%nat ->
    km_of sg' = fold_left (fun mm k => sm_del cmp mm k) ks (km_of sg) ->
    (forall k, In k ks -> In k (map fst sg)) -> N.of_nat (length ks) < 2 ^ 32 ->
    len (enc_op (RRemove ks)) < 2 ^ 32 -> nextv (mwal m) < 2 ^ 64 ->
    exists m' w', log_and_apply H cfg m (RRemove ks) w = ((Ok tt, m'), w') /\ wfault w' = None /\
      Inv' m' (wfs w') sg' /\ nextv (mwal m') = nextv (mwal m) + 1 /\
      Walk (RestDB (nextv (mwal m) + 1) sg sg') w w'.
  Proof.
    intros m s sg sg' ks w IV Ws F Ssg' Sub Le Kd Kin Lks Lp Lv. pose proof IV as (L & D & Wf).
    pose proof (inv'_restp m s sg IV) as R. subst s.
    pose proof L as [Ssg Hkm Hidx Hnc _ _ _ Hwal].
    pose proof (DiskOkW_fits H cfg _ _ _ _ _ _ D) as Sf.
    pose proof R as [(_ & _ & _ & Ca) _].
    destruct (a_log_and_apply m sg sg' (RRemove ks) w F R) as (m2 & w2 & E2 & F2 & R2 & N2 & P2 & K2);
      try assumption.
    - intros k c Ik. apply (Ca k), Sub, Ik.
    - exact I.
    - cbn [km_expected]. now rewrite Hkm.
    - eapply (NoCollide_incl H); [|exact Hnc]. intros x Ix. apply in_map_iff in Ix.
      destruct Ix as (e & <- & Ie). apply in_map, Sub, Ie.
    - eapply (sg_fits_sub cfg n_pos); eassumption.
    - destruct Sf as [_ Fa]. rewrite Forall_forall in Fa. split.
      + cbn [op_fits]. split; [exact Lks|]. apply Forall_forall. intros k Ik.
        apply Kin, in_map_iff in Ik. destruct Ik as (e & <- & Ie). specialize (Fa e Ie).
        unfold key_fits. clear - Fa. lia.
      + cbn [op_keys]. apply Forall_forall. intros k Ik.
        apply Kin, in_map_iff in Ik. destruct Ik as (e & <- & Ie). now apply Fa.
    - destruct (removal_ok H H_len H_byte cfg n_pos m _ sg sg' ks w L eq_refl F Ssg' Sub Kd)
        as (m' & w' & E & _ & L' & _).
      rewrite E2 in E. inversion E; subst m' w'.
      exists m2, w2. split; [exact E2|]. split; [exact F2|]. split; [exact (restp_inv' _ _ _ L' R2)|].
      split; [exact N2|exact K2].
  Qed.

  Theorem remove_crash' : forall m s sg k w,
    Inv' m s sg -> wfs w = s -> wfault w = None -> nextv (mwal m) < 2 ^ 64 ->
    exists m' w',
      remove H cfg m k w
      = ((Ok (match sm_get cmp sg k with Some _ => true | None => false end), m'), w') /\
      wfault w' = None /\ Inv' m' (wfs w') (sm_del cmp sg k) /\
      nextv (mwal m') <= nextv (mwal m) + 1 /\
      Walk (RestDB (nextv (mwal m) + 1) sg (sm_del cmp sg k)) w w'.
  Proof.
    intros m s sg k w IV Ws F Lv. subst s. pose proof IV as (L & D & Wf).
    pose proof L as [Ssg Hkm _ _ _ _ _ _].
    unfold remove. fold cmp. rewrite Hkm, (km_of_get H cfg). fold cmp.
    destruct (sm_get cmp sg k) as [c0|] eqn:G; cbn [option_map].
    - assert (Ik : In (k, c0) sg) by now apply (KX get_in _ _ _ Ssg).
      destruct (a_removal m _ sg (sm_del cmp sg k) [k] w IV eq_refl F)
        as (m' & w' & E & F' & IV' & N' & K); try assumption.
      + apply (KX sorted_del), Ssg.
      + intros e. apply (In_sm_del _).
      + apply length_sm_del_le.
      + cbn [fold_left]. apply (km_of_del H cfg).
      + intros k' [<-|[]]. apply in_map_iff. now exists (k, c0).
      + cbn [length]. clear. pow_consts. lia.
      + rewrite (DX len_enc_remove1).
        destruct (DiskOkW_fits H cfg _ _ _ _ _ _ D) as [_ Fa]. rewrite Forall_forall in Fa.
        specialize (Fa _ Ik). cbn [fst] in Fa. clear - Fa. lia.
      + exists m', w'. rewrite (bind_eq _ _ _ _ _ E). split; [reflexivity|]. split; [exact F'|].
        split; [exact IV'|]. split; [rewrite N'; apply N.le_refl|exact K].
    - exists m, w. split; [reflexivity|]. split; [exact F|]. rewrite (sm_del_absent _ _ _ G).
      split; [exact IV|]. split; [apply N.le_add_r|]. apply walk_refl; [exact F|]. left.
      exact (inv'_restb _ _ _ _ IV (N.le_add_r _ _)).
  Qed.

  Theorem remove_range_crash' : forall m s sg lo hi w,
    Inv' m s sg -> wfs w = s -> wfault w = None ->
    (nonempty (km (idx m)) && range_panics cmp lo hi) = false ->
    let inr := fun e : bytes * bytes => in_range cmp lo hi (fst e) in
    len (enc_op (RRemove (map fst (filter inr sg)))) < 2 ^ 32 -> nextv (mwal m) < 2 ^ 64 ->
    exists m' w',
      remove_range H cfg m lo hi w = ((Ok (N.of_nat (length (filter inr sg))), m'), w') /\
      wfault w' = None /\ Inv' m' (wfs w') (filter (fun e => negb (inr e)) sg) /\
      nextv (mwal m') <= nextv (mwal m) + 1 /\
      Walk (RestDB (nextv (mwal m) + 1) sg (filter (fun e => negb (inr e)) sg)) w w'.
  Proof.
    intros m s sg lo hi w IV Ws F NP inr Lp Lv. subst s. pose proof IV as (L & D & Wf).
    pose proof L as [Ssg Hkm _ _ _ _ _ _].
    unfold remove_range. fold cmp. rewrite NP. unfold keys_in_range. fold cmp.
    rewrite Hkm, <- (km_of_filter H (in_range cmp lo hi)), km_of_keys. fold inr.
    destruct (map fst (filter inr sg)) as [|k0 ks0] eqn:Eks.
    - apply map_eq_nil in Eks. rewrite Eks, (filter_none_all inr sg Eks).
      exists m, w. split; [reflexivity|]. split; [exact F|]. split; [exact IV|].
      split; [apply N.le_add_r|]. apply walk_refl; [exact F|]. left.
      exact (inv'_restb _ _ _ _ IV (N.le_add_r _ _)).
    - rewrite <- Eks in *.
      destruct (a_removal m _ sg (filter (fun e => negb (inr e)) sg) (map fst (filter inr sg)) w
                  IV eq_refl F) as (m' & w' & E & F' & IV' & N' & K); try assumption.
      + apply (KX sorted_filter), Ssg.
      + intros e Ie. apply filter_In in Ie. tauto.
      + apply filter_length_le.
      + apply (km_of_del_range H cfg (in_range cmp lo hi)), Ssg.
      + intros k Ik. apply in_map_iff in Ik. destruct Ik as (e & <- & Ie).
        apply filter_In in Ie. apply in_map. tauto.
      + rewrite map_length. pose proof (filter_length_le inr sg) as Lf.
        destruct (DiskOkW_fits H cfg _ _ _ _ _ _ D) as [Ln _]. clear - Lf Ln. lia.
      + exists m', w'. rewrite (bind_eq _ _ _ _ _ E), map_length. split; [reflexivity|].
        split; [exact F'|]. split; [exact IV'|]. split; [rewrite N'; apply N.le_refl|exact K].
  Qed.

  Theorem checkpoint_crash' : forall m s sg w,
    Inv' m s sg -> wfs w = s -> wfault w = None ->
    exists m' w', checkpoint cfg m w = ((Ok tt, m'), w') /\ wfault w' = None /\
                  Inv' m' (wfs w') sg /\ nextv (mwal m') = nextv (mwal m) /\
                  Walk (fun x => RestB (nextv (mwal m)) x sg) w w'.
  Proof.
    intros m s sg w IV Ws F. pose proof IV as (L & D & Wf).
    destruct (checkpoint_spec H H_len H_byte cfg n_pos m s sg w L Ws F) as (m' & w' & E & F' & P).
    exists m', w'. split; [exact E|]. split; [exact F'|]. subst s.
    pose proof L as [Ssg Hkm _ Hnc _ _ _ _].
    destruct (checkpoint_inner_run cfg RExplicit m w F) as (w1 & w2 & E2 & Rc1 & Rc2).
    unfold checkpoint in E. rewrite E2 in E. inversion E; subst m' w2.
    destruct (a_checkpoint_inner RExplicit m (seal_bound (mwal m)) sg (nextv (mwal m)) w w1 w'
                Rc1 Rc2 (inv'_restp _ _ _ IV) (seal_bound_le _) (N.le_refl _) Hkm Ssg Hnc)
      as (_ & R2 & _ & _ & K2).
    destruct (ck_mem_same RExplicit m) as (_ & _ & _ & _ & Wl2 & P2).
    split; [|split; [now rewrite Wl2|exact K2]].
    apply restp_inv'; [exact (proj1 (proj2 P))|]. rewrite Wl2, P2. exact R2.
  Qed.

  (* abort: only the transaction's own staging file is touched *)
  Theorem abort_crash' : forall m s sg k chunks w,
    Inv' m s sg -> wfs w = s -> wfault w = None ->
    exists w', abort m k chunks w = ((Ok tt, m), w') /\ wfault w' = None /\ Inv' m (wfs w') sg /\
               Walk (fun x => RestB (nextv (mwal m)) x sg) w w'.
  Proof.
    intros m s sg k chunks w IV Ws F. pose proof IV as (L & D & Wf).
    destruct (abort_post H H_len H_byte cfg n_pos m s sg k chunks w L Ws F) as (w' & E & F' & P).
    exists w'. split; [exact E|]. split; [exact F'|].
    pose proof (inv'_restp m s sg IV) as R. subst s.
    pose proof L as [Ssg _ _ Hnc _ Hst (D1 & _) _].
    destruct (abort_does m k chunks w F D1 (Hst _ (N.le_refl _))) as (w2 & E2 & Ra).
    rewrite E in E2. inversion E2; subst w2.
    set (RP := RestP (lpv (idx m)) (nextv (mwal m)) (seal_bound (mwal m)) (mpre m) sg) in *.
    pose proof (sees_restp H cfg (lpv (idx m)) (nextv (mwal m)) (seal_bound (mwal m)) (mpre m) sg) as Se.
    assert (K : Walk RP w w').
    { apply (ran_walk RP _ _ _ Ra). split; [exact R|]. intros s1 E1.
      apply thru_keeps; [exact (sees_new_staging H sg _ _ _ Se R E1)|].
      assert (Kh : forall cl, harmless sg cl -> Forall (call_keeps RP) [cl])
        by (intros cl Hh; constructor; [exact (sees_keeps H sg _ _ Se Hh)|constructor]).
      cbn [app]. apply Forall_app. split; [destruct (bw_sim 0 chunks); [|constructor]|]; apply Kh; cbn; auto. }
    split.
    - apply restp_inv'; [exact (proj1 (proj2 P))|exact (walk_end _ _ _ K)].
    - eapply walk_weaken; [|exact K]. intros x Rx. eapply restp_to_restb; try eassumption. lia.
  Qed.

  (* close: only a sync *)
  Theorem close_crash' : forall m s sg w,
    Inv' m s sg -> wfs w = s -> wfault w = None ->
    exists w', close m w = (tt, w') /\ wfault w' = None /\ RestB (nextv (mwal m)) (wfs w') sg /\
               Walk (fun x => RestB (nextv (mwal m)) x sg) w w'.
  Proof.
    intros m s sg w IV Ws F. pose proof IV as (L & D & Wf). subst s.
    pose proof (inv'_restb _ _ _ _ IV (N.le_refl _)) as R0.
    pose proof (wal_ok_fdat _ _ _ (lv_wal _ _ _ _ _ L)) as Hw. unfold close.
    destruct (writer (mwal m)) as [[s0 b]|].
    - destruct Hw as (-> & G & _). destruct (fdat (wfs w) (PWal s0)) as [d|] eqn:Gd; [|contradiction].
      destruct (a_writer_close (fun x => RestB (nextv (mwal m)) x sg) s0 d w F Wf Gd R0)
        as (w' & E & X & _ & K).
      { now apply (sees_atw _ _ _ _ (sees_restb H cfg _ sg) R0). }
      exists w'. rewrite (bind_eq _ _ _ _ _ E). split; [reflexivity|].
      split; [exact (proj1 X)|]. split; [exact (walk_end _ _ _ K)|exact K].
    - exists w. split; [reflexivity|]. split; [exact F|]. split; [exact R0|now apply walk_refl].
  Qed.

  Theorem put_crash : forall m s sg k chunks w,
    Inv m s sg -> wfs w = s -> wfault w = None ->
    NoCollide (concat chunks :: map snd sg) ->
    len k + 45 < 2 ^ 32 -> key_valid (c_kt cfg) k = true -> len (concat chunks) < 2 ^ 64 ->
    N.of_nat (length sg) + 1 < 2 ^ 32 -> nextv (mwal m) < 2 ^ 64 ->
    exists m' w', put H cfg m k chunks w = ((Ok tt, m'), w') /\
      Along (fun x => Rest x sg \/ Rest x (sm_ins cmp sg k (concat chunks))) w w'.
  Proof.
    intros m s sg k chunks w IV Ws F NC Lk Vk Lc Ln Lv.
    destruct (put_crash' m s sg k chunks w (inv_inv' H H_len H_byte cfg n_pos _ _ _ IV) Ws F NC
                Lk Vk Lc Ln Lv) as (m' & w' & E & _ & _ & _ & K).
    exists m', w'. split; [exact E|exact (walk_restdb_along H cfg _ _ _ _ _ K)].
  Qed.

  Theorem remove_crash : forall m s sg k w,
    Inv m s sg -> wfs w = s -> wfault w = None -> nextv (mwal m) < 2 ^ 64 ->
    exists r m' w', remove H cfg m k w = ((Ok r, m'), w') /\
      Along (fun x => Rest x sg \/ Rest x (sm_del cmp sg k)) w w'.
  Proof.
    intros m s sg k w IV Ws F Lv.
    destruct (remove_crash' m s sg k w (inv_inv' H H_len H_byte cfg n_pos _ _ _ IV) Ws F Lv)
      as (m' & w' & E & _ & _ & _ & K).
    eexists _, m', w'. split; [exact E|exact (walk_restdb_along H cfg _ _ _ _ _ K)].
  Qed.

  (* a range removal is one operation: all of its keys or none *)
  Theorem remove_range_crash : forall m s sg lo hi w,
    Inv m s sg -> wfs w = s -> wfault w = None ->
    (nonempty (km (idx m)) && range_panics cmp lo hi) = false ->
    let inr := fun e : bytes * bytes => in_range cmp lo hi (fst e) in
    len (enc_op (RRemove (map fst (filter inr sg)))) < 2 ^ 32 -> nextv (mwal m) < 2 ^ 64 ->
    exists r m' w', remove_range H cfg m lo hi w = ((Ok r, m'), w') /\
      Along (fun x => Rest x sg \/ Rest x (filter (fun e => negb (inr e)) sg)) w w'.
  Proof.
    intros m s sg lo hi w IV Ws F NP inr Lp Lv.
    destruct (remove_range_crash' m s sg lo hi w (inv_inv' H H_len H_byte cfg n_pos _ _ _ IV)
                Ws F NP Lp Lv) as (m' & w' & E & _ & _ & _ & K).
    eexists _, m', w'. split; [exact E|exact (walk_restdb_along H cfg _ _ _ _ _ K)].
  Qed.

  Theorem checkpoint_crash : forall m s sg w,
    Inv m s sg -> wfs w = s -> wfault w = None ->
    exists m' w', checkpoint cfg m w = ((Ok tt, m'), w') /\ Along (fun x => Rest x sg) w w'.
  Proof.
    intros m s sg w IV Ws F.
    destruct (checkpoint_crash' m s sg w (inv_inv' H H_len H_byte cfg n_pos _ _ _ IV) Ws F)
      as (m' & w' & E & _ & _ & _ & K).
    exists m', w'. split; [exact E|exact (walk_restb_along H cfg _ _ _ _ K)].
  Qed.

  Theorem abort_crash : forall m s sg k chunks w,
    Inv m s sg -> wfs w = s -> wfault w = None ->
    exists w', abort m k chunks w = ((Ok tt, m), w') /\ Along (fun x => Rest x sg) w w'.
  Proof.
    intros m s sg k chunks w IV Ws F.
    destruct (abort_crash' m s sg k chunks w (inv_inv' H H_len H_byte cfg n_pos _ _ _ IV) Ws F)
      as (w' & E & _ & _ & K).
    exists w'. split; [exact E|exact (walk_restb_along H cfg _ _ _ _ K)].
  Qed.

  Theorem close_crash : forall m s sg w,
    Inv m s sg -> wfs w = s -> wfault w = None ->
    exists w', close m w = (tt, w') /\ Along (fun x => Rest x sg) w w'.
  Proof.
    intros m s sg w IV Ws F.
    destruct (close_crash' m s sg w (inv_inv' H H_len H_byte cfg n_pos _ _ _ IV) Ws F)
      as (w' & E & _ & _ & K).
    exists w'. split; [exact E|exact (walk_restb_along H cfg _ _ _ _ K)].
  Qed.
End CrashOps.

Print Assumptions put_crash'.
Print Assumptions put_crash.
Print Assumptions remove_crash.
Print Assumptions remove_range_crash.
Print Assumptions checkpoint_crash.
Print Assumptions abort_crash.
Print Assumptions close_crash.

