(* DiskInv.v -- the on-disk invariant [DiskOk] (snapshot file + WAL segment files, related to the
   open handle's memory and to the abstract map), the exact effect of the write path on the
   meta files, and preservation of [DiskOk] by every fault-free write operation.

   DiskOk m s sg  :=  DiskOkW (lpv (idx m)) (nextv (mwal m)) (seg_of (nextv (mwal m) - 1))
                              (mpre m) (fdat s) sg
   where [fdat s p] is the content of file p (None if absent) and DiskOkW c nv sb pre dv sg says:
   there are segment ids [ids] (strictly ascending), records [rf i] and sealed flags [sf i] per
   segment, a snapshot key map [km_c] and operations [ops] such that
     - sg fits the formats (< 2^32 keys, keys valid and short, contents < 2^64 bytes);
     - PSettings exists and decodes to (CURRENT_DB_VERSION, pre, c_n cfg);
     - PIndex is absent, c = 0 and km_c = [];  or PIndex = enc_snapshot c km_c with 0 < c;
       km_c is sorted, one hash one size, entries fit, keys valid, < 2^32 entries;
     - the PWal files are exactly those with an id in ids, and
       PWal i = render (rf i) ++ (if sf i then sentinel else []);
     - per segment: records rec_ok, every version v in segment i has seg_of v = i, versions
       strictly ascending, i <= seg_of nv, and sealed segments have i < sb;
     - the records with version > c, in file order, are exactly (c+1, enc_op o1), (c+2, enc_op o2),
       ... for ops = [o1; o2; ...], and nv = c + 1 + length ops <= 2^64;
     - every op in ops is read back by the codec (op_fits) with keys accepted by the key type;
     - replaying ops on km_c (key-map level, with the one-hash-one-size side condition holding
       at every step) gives km_of sg.

   The programs of theories/Store.v are not executed here: StoreRun.v names, for each of them,
   the list of calls that take effect, and this file says what such a list does to the data view
   ([call_view], [okc_view]) and why the invariant survives it.

   In order: ascending lists, sort_ids / wal_ids; the data view [fdat] of a filesystem, after a
   call and after a list of calls; logs above a snapshot version and the invariant ([DiskW] /
   [DiskOkW] over a data view, [DiskOk] for a handle); reading a [DiskW], and the view
   transformers (agreement on the files read, new empty segment, seal, append,
   checkpoint/prune); the call lists of the segment writer, append_op, prune and
   checkpoint_inner; log_and_apply and the API operations: put_disk, remove_disk,
   remove_range_disk, checkpoint_disk, abort_disk.
   Prefixes: dw_ the fields of [DiskW] and what is read off one; V_ a view transformer
   (DiskOkW of a view dv gives DiskOkW of the changed view dv'); x_ one call with its [Eff]
   and its view. *)
From Cas Require Import History.
From CasProofs Require Import BaseProofs CodecBase CodecProofs SMapProofs IndexProofs
  StoreFS StoreRun StoreInv StoreWrite.
From Coq Require Import ZifyBool ZifyNat ZifyN.
Open Scope N_scope.

Fixpoint asc (l : list N) : Prop :=
  match l with [] => True | x :: r => (forall y, In y r -> x < y) /\ asc r end.

Lemma asc_app : forall l1 l2,
  asc (l1 ++ l2) <-> asc l1 /\ asc l2 /\ (forall x y, In x l1 -> In y l2 -> x < y).
Proof.
  induction l1 as [|a l1 IH]; intros l2; cbn [app asc].
  - split; [intros A; repeat split; auto; intros x y []|tauto].
  - rewrite IH. split.
    + intros (Ha & A1 & A2 & A3). repeat split; auto.
      * intros y Iy. apply Ha. apply in_or_app; auto.
      * intros x y [<-|Ix] Iy; [apply Ha, in_or_app; auto|auto].
    + intros ((Ha & A1) & A2 & A3). repeat split; auto.
      * intros y Iy. apply in_app_or in Iy. destruct Iy; [auto|apply A3; [now left|auto]].
      * intros x y Ix Iy. apply A3; [now right|auto].
Qed.

Lemma asc_snoc : forall l x, asc l -> (forall y, In y l -> y < x) -> asc (l ++ [x]).
Proof.
  intros l x A Hx. apply asc_app. split; [exact A|]. split; [cbn; tauto|].
  intros a b Ia [<-|[]]. now apply Hx.
Qed.

Lemma asc_nodup : forall l, asc l -> NoDup l.
Proof.
  induction l as [|a l IH]; intros A; [constructor|]. destruct A as [Ha A]. constructor; [|auto].
  intros I. specialize (Ha a I). lia.
Qed.

Lemma asc_unique : forall l1 l2, asc l1 -> asc l2 -> (forall x, In x l1 <-> In x l2) -> l1 = l2.
Proof.
  induction l1 as [|a l1 IH]; intros [|b l2] A1 A2 E.
  - reflexivity.
  - exfalso. apply (E b). now left.
  - exfalso. apply (E a). now left.
  - destruct A1 as [Ha A1]. destruct A2 as [Hb A2].
    (* each head is the least element of the other list *)
    assert (a = b).
    { destruct (proj1 (E a) (or_introl eq_refl)) as [->|Ia]; [reflexivity|].
      destruct (proj2 (E b) (or_introl eq_refl)) as [->|Ib]; [reflexivity|].
      destruct (N.lt_asymm _ _ (Ha _ Ib) (Hb _ Ia)). }
    subst b. f_equal. apply IH; try assumption.
    assert (N1 : ~ In a l1) by (intros I; exact (N.lt_irrefl _ (Ha _ I))).
    assert (N2 : ~ In a l2) by (intros I; exact (N.lt_irrefl _ (Hb _ I))).
    intros x. split; intros Ix.
    + destruct (proj1 (E x) (or_intror Ix)) as [<-|I2]; [contradiction|exact I2].
    + destruct (proj2 (E x) (or_intror Ix)) as [<-|I2]; [contradiction|exact I2].
Qed.

Lemma asc_filter : forall (f : N -> bool) l, asc l -> asc (filter f l).
Proof.
  intros f. induction l as [|a l IH]; intros A; [exact I|]. destruct A as [Ha A].
  cbn [filter]. destruct (f a); [|auto]. split; [|auto].
  intros y Iy. apply filter_In in Iy. apply Ha, Iy.
Qed.

Lemma In_insert_sorted : forall x l y, In y (insert_sorted x l) <-> y = x \/ In y l.
Proof.
  intros x. induction l as [|a l IH]; intros y; cbn [insert_sorted].
  - cbn [In]. intuition.
  - destruct (x <=? a); cbn [In]; [intuition|]. rewrite IH. intuition.
Qed.

Lemma asc_insert_sorted : forall x l, asc l -> ~ In x l -> asc (insert_sorted x l).
Proof.
  intros x. induction l as [|a l IH]; intros A N; cbn [insert_sorted].
  - cbn. tauto.
  - destruct A as [Ha A]. destruct (N.leb_spec x a) as [L|L].
    + assert (x <> a) by (intros ->; apply N; now left).
      split; [|split; assumption]. intros y [<-|Iy]; [lia|]. specialize (Ha _ Iy). lia.
    + split.
      * intros y Iy. apply In_insert_sorted in Iy. destruct Iy as [->|Iy]; [exact L|auto].
      * apply IH; [exact A|]. intros I. apply N. now right.
Qed.

Lemma sort_ids_spec : forall l, NoDup l ->
  asc (sort_ids l) /\ forall y, In y (sort_ids l) <-> In y l.
Proof.
  induction l as [|a l IH]; intros ND.
  - split; [exact I|tauto].
  - inversion ND as [|? ? Na ND']; subst. destruct (IH ND') as [A E].
    change (sort_ids (a :: l)) with (insert_sorted a (sort_ids l)). split.
    + apply asc_insert_sorted; [exact A|]. intros I. apply Na. now apply E.
    + intros y. rewrite In_insert_sorted, E. cbn [In]. intuition.
Qed.

Lemma In_wal_ids_paths : forall s i, In i (wal_ids s) <-> In (PWal i) (paths (files s)).
Proof.
  intros [fl ds ns] i. unfold wal_ids. cbn [files].
  induction fl as [|[q f] fl IH]; cbn [fold_right paths map fst In]; [tauto|].
  fold (paths fl). destruct q; cbn [In]; rewrite IH;
    try (split; [intros X; now right|intros [X|X]; [discriminate|exact X]]).
  split; intros [X|X]; auto; [left; congruence|left; congruence].
Qed.

Lemma wal_ids_nodup : forall s, FsWf s -> NoDup (wal_ids s).
Proof.
  intros [fl ds ns]. unfold FsWf, wal_ids. cbn [files].
  induction fl as [|[q f] fl IH]; intros ND; cbn [fold_right fst]; [constructor|].
  cbn [paths map fst] in ND. inversion ND as [|? ? Nq ND']; subst.
  destruct q; auto. constructor; [|auto]. intros I. apply Nq.
  now apply (In_wal_ids_paths (mkFs fl ds ns)).
Qed.

Lemma In_wal_ids : forall s i, In i (wal_ids s) <-> fget s (PWal i) <> None.
Proof.
  intros s i. rewrite In_wal_ids_paths.
  unfold fget. pose proof (lookup_none_iff (files s) (PWal i)) as L.
  split.
  - intros I E. apply L in E. contradiction.
  - intros N. destruct (in_dec path_eq_dec (PWal i) (paths (files s))) as [I|I]; [exact I|].
    exfalso. apply N, L, I.
Qed.

Lemma sort_ids_char : forall s ids, FsWf s -> asc ids ->
  (forall i, In i ids <-> fget s (PWal i) <> None) -> sort_ids (wal_ids s) = ids.
Proof.
  intros s ids W A E.
  destruct (sort_ids_spec (wal_ids s)) as [A' E']; [apply wal_ids_nodup, W|].
  apply asc_unique; try assumption. intros x. rewrite E', In_wal_ids. symmetry. apply E.
Qed.

Lemma NoDup_map_PWal : forall l : list N, NoDup l -> NoDup (map PWal l).
Proof.
  induction l as [|a l IH]; intros ND; cbn [map]; [constructor|].
  inversion ND as [|? ? Na ND']; subst. constructor; [|auto].
  intros I. apply in_map_iff in I. destruct I as (x & Q & Ix). inversion Q; subst. contradiction.
Qed.

Lemma flat_map_ext_in : forall {A B} (f g : A -> list B) l,
  (forall a, In a l -> f a = g a) -> flat_map f l = flat_map g l.
Proof.
  intros A B f g. induction l as [|a l IH]; intros E; cbn [flat_map]; [reflexivity|].
  rewrite (E a (or_introl eq_refl)), IH; [reflexivity|]. intros b Ib. apply E. now right.
Qed.

Lemma filter_flat_map_skip : forall {A B} (P : B -> bool) (g : A -> bool) (f : A -> list B) l,
  (forall a, In a l -> g a = false -> filter P (f a) = []) ->
  filter P (flat_map f (filter g l)) = filter P (flat_map f l).
Proof.
  intros A B P g f. induction l as [|a l IH]; intros E; [reflexivity|].
  cbn [filter flat_map]. rewrite filter_app, <- IH by (intros b Ib; apply E; now right).
  destruct (g a) eqn:G.
  - cbn [flat_map]. now rewrite filter_app.
  - now rewrite (E a (or_introl eq_refl) G).
Qed.

Lemma asc_split : forall ids i, asc ids -> In i ids ->
  exists hi, ids = filter (fun x => x <? i) ids ++ i :: hi /\ forall x, In x hi -> i < x.
Proof.
  induction ids as [|a ids IH]; intros i A Ii; [destruct Ii|].
  destruct A as [Ha A]. cbn [filter]. destruct Ii as [->|Ii].
  - rewrite N.ltb_irrefl, filter_none by (intros x Ix; apply N.ltb_ge, N.lt_le_incl, Ha, Ix).
    now exists ids.
  - rewrite (proj2 (N.ltb_lt a i) (Ha i Ii)). destruct (IH i A Ii) as (hi & E & Hhi).
    exists hi. split; [|exact Hhi]. cbn [app]. now rewrite <- E.
Qed.

Definition fdat (s : fs) (p : path) : option bytes := option_map fdata (fget s p).

Lemma fdat_none : forall s p, fdat s p = None <-> fget s p = None.
Proof. intros s p. unfold fdat. destruct (fget s p); cbn; split; congruence. Qed.

Lemma fdat_some : forall s p d, fdat s p = Some d <-> exists f, fget s p = Some f /\ fdata f = d.
Proof.
  intros s p d. unfold fdat. destruct (fget s p) as [f|]; cbn; split.
  - intros E. exists f. split; congruence.
  - intros (g & E & D). congruence.
  - discriminate.
  - intros (g & E & _). discriminate.
Qed.

Lemma fdat_get : forall s p f, fget s p = Some f -> fdat s p = Some (fdata f).
Proof. intros s p f G. unfold fdat. now rewrite G. Qed.

Lemma fdat_present : forall s p d, fdat s p = Some d -> fget s p <> None.
Proof. intros s p d E X. apply fdat_none in X. congruence. Qed.

Lemma fdat_of_fget : forall s s' p, fget s' p = fget s p -> fdat s' p = fdat s p.
Proof. intros s s' p E. unfold fdat. now rewrite E. Qed.

Definition vset (dv : path -> option bytes) (p : path) (x : option bytes) : path -> option bytes :=
  fun q => if path_eqb q p then x else dv q.

Lemma vset_same : forall dv p x, vset dv p x p = x.
Proof. intros. unfold vset. now rewrite path_eqb_refl. Qed.
Lemma vset_other : forall dv p x q, q <> p -> vset dv p x q = dv q.
Proof. intros. unfold vset. now rewrite path_eqb_neq. Qed.

Lemma fdat_upd : forall s p f q, fdat (upd s p f) q = vset (fdat s) p (Some (fdata f)) q.
Proof.
  intros. unfold fdat, vset. rewrite fget_upd. destruct (path_eqb q p); reflexivity.
Qed.

Lemma fdat_del : forall s p q, FsWf s -> fdat (del s p) q = vset (fdat s) p None q.
Proof.
  intros s p q W. unfold vset. destruct (path_eqb_spec q p) as [->|N].
  - apply fdat_none. now apply fget_del_same.
  - apply fdat_of_fget. now apply fget_del_other.
Qed.

(* no fault, a well-formed filesystem, directories and staging counter unchanged: what a run
   of calls other than mkdir and CreateExcl preserves (ran_eff) *)
Definition Eff (w w' : world) : Prop :=
  wfault w' = None /\ FsWf (wfs w') /\ dirs (wfs w') = dirs (wfs w) /\
  nstage (wfs w') = nstage (wfs w).

Lemma eff_refl : forall w, wfault w = None -> FsWf (wfs w) -> Eff w w.
Proof. intros. repeat split; auto. Qed.

Lemma eff_fault : forall w w', Eff w w' -> wfault w' = None.
Proof. intros w w' X. apply X. Qed.
Lemma eff_wf : forall w w', Eff w w' -> FsWf (wfs w').
Proof. intros w w' X. apply X. Qed.

Lemma eff_trans : forall w1 w2 w3, Eff w1 w2 -> Eff w2 w3 -> Eff w1 w3.
Proof. intros w1 w2 w3 (F1 & W1 & D1 & N1) (F2 & W2 & D2 & N2). repeat split; congruence. Qed.

Lemma step_eff : forall T P w w', FsWf (wfs w) -> Step T P w w' -> Eff w w'.
Proof.
  intros T P w w' W [F _ [G D N Wf]]. repeat split; auto.
Qed.

(* the data view after a call that took effect, as a function of the view before
   (StoreRun.apply_call_eff, read through fdat) *)
Definition call_view (c : call) (dv : path -> option bytes) : path -> option bytes :=
  match c with
  | CMkdir _ | CSync _ => dv
  | CCreate p | CCreateExcl p => vset dv p (Some [])
  | COpenAppend p => match dv p with Some _ => dv | None => vset dv p (Some []) end
  | CAppend p b => vset dv p (option_map (fun d => d ++ b) (dv p))
  | CRename p q => vset (vset dv p None) q (dv p)
  | CUnlink p => vset dv p None
  end.

Lemma apply_call_fdat : forall c s s', FsWf s -> apply_call c s = Ok s' ->
  forall q, fdat s' q = call_view c (fdat s) q.
Proof.
  intros c s s' W E q. apply apply_call_eff in E. destruct c; cbn [call_view].
  - now destruct E as (_ & ->).
  - subst s'. apply fdat_upd.
  - destruct E as (_ & ->). unfold fdat, fget, vset. cbn [files]. rewrite lookup_set_path.
    now destruct (path_eqb q p).
  - subst s'. unfold fdat at 2. destruct (fget s p); [reflexivity|apply fdat_upd].
  - destruct E as (f & G & ->). now rewrite fdat_upd, (fdat_get _ _ _ G).
  - destruct E as (f & G & ->). rewrite fdat_upd. unfold vset.
    destruct (path_eqb_spec q p) as [->|]; [|reflexivity]. symmetry. apply (fdat_get _ _ _ G).
  - destruct E as (f & G & ->). rewrite (fdat_get _ _ _ G). unfold fdat at 1. rewrite fget_ren. unfold vset at 1.
    destruct (path_eqb q q0); [reflexivity|]. now apply fdat_del.
  - destruct E as (_ & ->). now apply fdat_del.
Qed.

Fixpoint calls_view (cs : list call) (dv : path -> option bytes) : path -> option bytes :=
  match cs with [] => dv | c :: r => calls_view r (call_view c dv) end.

Lemma calls_view_app : forall a b dv q, calls_view (a ++ b) dv q = calls_view b (calls_view a dv) q.
Proof. induction a as [|c a IH]; intros b dv q; [reflexivity|apply IH]. Qed.

Lemma vset_ext : forall dv dv' p x, (forall q, dv q = dv' q) -> forall q, vset dv p x q = vset dv' p x q.
Proof. intros dv dv' p x E q. unfold vset. now destruct (path_eqb q p). Qed.

Lemma call_view_ext : forall c dv dv', (forall q, dv q = dv' q) ->
  forall q, call_view c dv q = call_view c dv' q.
Proof.
  intros c dv dv' E q. destruct c; cbn [call_view]; rewrite <- ?E; auto using vset_ext.
  destruct (dv p); auto using vset_ext.
Qed.

Lemma calls_view_ext : forall cs dv dv', (forall q, dv q = dv' q) ->
  forall q, calls_view cs dv q = calls_view cs dv' q.
Proof.
  induction cs as [|c cs IH]; intros dv dv' E; [exact E|]. apply IH, call_view_ext, E.
Qed.

Lemma okc_view : forall cs s s', Okc cs s s' -> FsWf s ->
  forall q, fdat s' q = calls_view cs (fdat s) q.
Proof.
  induction cs as [|c cs IH]; intros s s' A W q; cbn [Okc] in A; [now subst|].
  destruct A as (s1 & E & A). rewrite (IH _ _ A (apply_call_wf _ _ _ E W)). cbn [calls_view].
  apply calls_view_ext, apply_call_fdat; assumption.
Qed.

Lemma ran_eff : forall cs w w', Ran cs w w' -> FsWf (wfs w) ->
  Forall (call_in (fun _ => True)) cs -> Eff w w'.
Proof. intros cs w w' R W HT. exact (step_eff _ _ _ _ W (ran_step _ _ _ _ R HT)). Qed.

Definition tailb (b : bool) : bytes := if b then sentinel else [].

(* the records of the operations [ops], numbered from version [v] *)
Fixpoint enc_from (v : N) (ops : list rawop) : list (N * bytes) :=
  match ops with [] => [] | o :: r => (v, enc_op o) :: enc_from (v + 1) r end.

Lemma enc_from_app : forall a b v,
  enc_from v (a ++ b) = enc_from v a ++ enc_from (v + N.of_nat (length a)) b.
Proof.
  induction a as [|o a IH]; intros b v; cbn [app enc_from length].
  - f_equal. lia.
  - rewrite IH. do 3 f_equal. lia.
Qed.

Lemma enc_from_bound : forall ops v r, In r (enc_from v ops) ->
  v <= fst r /\ fst r < v + N.of_nat (length ops).
Proof.
  induction ops as [|o ops IH]; intros v r []; cbn [length].
  - subst r. cbn [fst]. lia.
  - apply IH in H. lia.
Qed.

Lemma enc_from_length : forall ops v, length (enc_from v ops) = length ops.
Proof. induction ops as [|o ops IH]; intros v; cbn [enc_from length]; [reflexivity|]. now rewrite IH. Qed.

Lemma all_lt_nv : forall c nv (all : list (N * bytes)) ops,
  filter (fun r => c <? fst r) all = enc_from (c + 1) ops ->
  nv = c + 1 + N.of_nat (length ops) ->
  forall r, In r all -> fst r < nv.
Proof.
  intros c nv all ops Fl Nv r Ir. destruct (c <? fst r) eqn:E; [|lia].
  assert (I2 : In r (enc_from (c + 1) ops)) by (rewrite <- Fl; apply filter_In; now split).
  apply enc_from_bound in I2. lia.
Qed.

Lemma enc_from_in : forall ops v0 v, v0 <= v -> v < v0 + N.of_nat (length ops) ->
  exists p, In (v, p) (enc_from v0 ops).
Proof.
  induction ops as [|o ops IH]; intros v0 v L1 L2; cbn [length] in L2; [lia|].
  cbn [enc_from]. destruct (N.eq_dec v v0) as [->|Ne].
  - eexists. left. reflexivity.
  - destruct (IH (v0 + 1) v) as (p & Ip); [lia|lia|]. exists p. now right.
Qed.

(* the records of [recs] with a version above [c] are those of [ops], numbered from [v] *)
Inductive log_above (c : N) : N -> list rawop -> list (N * bytes) -> Prop :=
| la_nil : forall v, log_above c v [] []
| la_skip : forall v ops ver p recs, ver <= c -> log_above c v ops recs ->
    log_above c v ops ((ver, p) :: recs)
| la_op : forall v o ops recs, c < v -> log_above c (v + 1) ops recs ->
    log_above c v (o :: ops) ((v, enc_op o) :: recs).

Lemma log_above_of_filter : forall c recs v ops,
  filter (fun r => c <? fst r) recs = enc_from v ops -> log_above c v ops recs.
Proof.
  intros c. induction recs as [|[ver p] recs IH]; intros v ops Fl; cbn [filter fst] in Fl.
  - destruct ops; [constructor|discriminate].
  - destruct (N.ltb_spec c ver) as [L|L]; [|apply la_skip; auto].
    destruct ops as [|o ops]; [discriminate|]. injection Fl as -> -> Fl. apply la_op; auto.
Qed.

(* replay keeps the highest version seen: on such a log it ends at the last operation's *)
Lemma log_max : forall c v ops recs, log_above c v ops recs -> forall hi, c <= hi -> hi + 1 = v ->
  fold_left N.max (map fst recs) hi = hi + N.of_nat (length ops).
Proof.
  induction 1 as [v|v ops ver p recs L _ IH|v o ops recs L _ IH]; intros hi Lc E;
    cbn [map fst fold_left length].
  - lia.
  - rewrite N.max_l by lia. auto.
  - rewrite N.max_r, IH by lia. lia.
Qed.

Lemma log_max_filter : forall c recs ops,
  filter (fun r => c <? fst r) recs = enc_from (c + 1) ops ->
  fold_left N.max (map fst recs) c = c + N.of_nat (length ops).
Proof.
  intros c recs ops Fl.
  exact (log_max c _ _ _ (log_above_of_filter _ _ _ _ Fl) c (N.le_refl c) eq_refl).
Qed.

Section DiskInv.
  Variable H : bytes -> bytes.
  Hypothesis H_len : forall b, length (H b) = 32%nat.
  Hypothesis H_byte : forall b, Forall (fun x => x < 256) (H b).
  Variable cfg : config.
  Hypothesis n_pos : 0 < c_n cfg.
  Let cmp := key_cmp (c_kt cfg).

  Local Notation KX L :=
    (L cmp (key_cmp_refl _) (key_cmp_eq _) (key_cmp_antisym _) (key_cmp_trans _)) (only parsing).
  Local Notation item_of := (item_of H).
  Local Notation km_of := (km_of H).
  Local Notation NoCollide := (NoCollide H).
  Local Notation Live0 := (Live0 H cfg).
  Local Notation seg_of := (seg_of cfg).

  Lemma seg_of_mono : forall a b, a <= b -> seg_of a <= seg_of b.
  Proof. intros a b L. unfold Store.seg_of. apply N.div_le_mono; lia. Qed.

  (* the key map component of apply_op, and its side condition (one hash, one size) *)
  Definition kstep (k : smap item) (o : rawop) : smap item :=
    km_expected cmp (mkIstate k [] 0 0 0 0) o.
  Definition kresp (k : smap item) (o : rawop) : Prop :=
    op_respects_sizes (mkIstate k [] 0 0 0 0) o.
  Fixpoint ops_ok (k : smap item) (ops : list rawop) : Prop :=
    match ops with [] => True | o :: r => kresp k o /\ ops_ok (kstep k o) r end.

  Lemma kstep_expected : forall s o, km_expected cmp s o = kstep (km s) o.
  Proof. intros s [k h sz|ks]; reflexivity. Qed.
  Lemma kresp_respects : forall s o, op_respects_sizes s o <-> kresp (km s) o.
  Proof. intros s [k h sz|ks]; reflexivity. Qed.

  Lemma ops_ok_app : forall a b k,
    ops_ok k (a ++ b) <-> ops_ok k a /\ ops_ok (fold_left kstep a k) b.
  Proof.
    induction a as [|o a IH]; intros b k; cbn [app ops_ok fold_left]; [tauto|].
    rewrite IH. tauto.
  Qed.

  (* an operation that the codec reads back and whose keys the key type accepts *)
  Definition op_good (o : rawop) : Prop := op_fits o /\ keys_valid (c_kt cfg) (op_keys o).

  Definition entry_good (e : entry) : Prop := entry_fits e /\ key_valid (c_kt cfg) (fst e) = true.
  Definition km_good (k : smap item) : Prop :=
    sorted cmp k /\ hashes_sized k /\ Forall entry_good k /\ N.of_nat (length k) < 2 ^ 32.

  (* the abstract map fits the formats: at most 2^32-1 keys; every key is accepted by the key
     type and short enough for a put record (45 = tag + length prefix + hash + size); every
     content length fits a u64 *)
  Definition sg_fits (sg : smap bytes) : Prop :=
    N.of_nat (length sg) < 2 ^ 32 /\
    Forall (fun kc => len (fst kc) + 45 < 2 ^ 32 /\ key_valid (c_kt cfg) (fst kc) = true /\
                      len (snd kc) < 2 ^ 64) sg.

  Definition snap_ok (c : N) (km_c : smap item) (dv : path -> option bytes) : Prop :=
    match dv PIndex with
    | None => c = 0 /\ km_c = []
    | Some d => 0 < c /\ d = enc_snapshot c km_c
    end.

  (* one segment: records well-framed, each in the segment its version belongs to, versions
     strictly ascending; no segment beyond the one of the next version; sealed only below [sb] *)
  Definition SegOk (nv sb i : N) (recs : list (N * bytes)) (sealed : bool) : Prop :=
    Forall rec_ok recs /\ Forall (fun r => seg_of (fst r) = i) recs /\ asc (map fst recs) /\
    i <= seg_of nv /\ (sealed = true -> i < sb).

  (* c = persisted snapshot version (0 = none), nv = next version, sb = seal bound,
     pre = the pre-created flag in the settings file, dv = data view of the filesystem;
     witnesses: ids = segment ids (ascending), rf = records per segment, sf = sealed flags,
     km_c = snapshot key map, ops = the operations logged after the snapshot *)
  Record DiskW (c nv sb : N) (pre : bool) (dv : path -> option bytes) (sg : smap bytes)
         (ids : list N) (rf : N -> list (N * bytes)) (sf : N -> bool)
         (km_c : smap item) (ops : list rawop) : Prop := mkDiskW {
    dw_sg : sg_fits sg;
    dw_settings : exists d, dv PSettings = Some d /\
                            dec_settings d = Some (CURRENT_DB_VERSION, pre, c_n cfg);
    dw_snap : snap_ok c km_c dv;
    dw_kmc : km_good km_c;
    dw_asc : asc ids;
    dw_in : forall i, In i ids -> dv (PWal i) = Some (render H (rf i) ++ tailb (sf i));
    dw_out : forall i, ~ In i ids -> dv (PWal i) = None;
    dw_seg : forall i, In i ids -> SegOk nv sb i (rf i) (sf i);
    dw_filter : filter (fun r => c <? fst r) (flat_map rf ids) = enc_from (c + 1) ops;
    dw_nv : nv = c + 1 + N.of_nat (length ops);
    dw_nvfit : nv <= 2 ^ 64;
    dw_opsfit : Forall op_good ops;
    dw_opsok : ops_ok km_c ops;
    dw_fold : fold_left kstep ops km_c = km_of sg
  }.

  Definition DiskOkW (c nv sb : N) (pre : bool) (dv : path -> option bytes) (sg : smap bytes)
    : Prop := exists ids rf sf km_c ops, DiskW c nv sb pre dv sg ids rf sf km_c ops.

  (* THE on-disk invariant of an open handle.  The seal bound is the segment of the LAST
     WRITTEN version: nothing from there on is sealed, so the writer can go on appending to its
     segment.  A crash between a seal and the next append leaves a disk where only the bound
     seg_of nextv holds; CrashInv.DiskOk' is the form that recovery re-establishes. *)
  Definition DiskOk (m : mem) (s : fs) (sg : smap bytes) : Prop :=
    DiskOkW (lpv (idx m)) (nextv (mwal m)) (seg_of (nextv (mwal m) - 1)) (mpre m) (fdat s) sg.

  Lemma dw_ids : forall {c nv sb pre dv sg ids rf sf km_c ops},
    DiskW c nv sb pre dv sg ids rf sf km_c ops -> forall i, In i ids <-> dv (PWal i) <> None.
  Proof.
    intros c nv sb pre dv sg ids rf sf km_c ops D i. split.
    - intros Ii. rewrite (dw_in _ _ _ _ _ _ _ _ _ _ _ D i Ii). discriminate.
    - intros Ne. destruct (in_dec N.eq_dec i ids) as [Ii|Ni]; [exact Ii|].
      destruct (Ne (dw_out _ _ _ _ _ _ _ _ _ _ _ D i Ni)).
  Qed.

  Lemma disk_ids : forall c nv sb pre s sg ids rf sf km_c ops,
    FsWf s -> DiskW c nv sb pre (fdat s) sg ids rf sf km_c ops -> sort_ids (wal_ids s) = ids.
  Proof.
    intros c nv sb pre s sg ids rf sf km_c ops Wf D.
    apply sort_ids_char; [exact Wf|exact (dw_asc _ _ _ _ _ _ _ _ _ _ _ D)|].
    intros i. rewrite (dw_ids D i).
    pose proof (fdat_none s (PWal i)). tauto.
  Qed.

  Lemma dw_le : forall {c nv sb pre dv sg ids rf sf km_c ops},
    DiskW c nv sb pre dv sg ids rf sf km_c ops -> forall i, In i ids -> i <= seg_of nv.
  Proof.
    intros c nv sb pre dv sg ids rf sf km_c ops D i Ii.
    now destruct (dw_seg _ _ _ _ _ _ _ _ _ _ _ D i Ii) as (_ & _ & _ & S4 & _).
  Qed.

  (* a segment file at or above the seal bound is not sealed: it holds its records only *)
  Lemma dw_open_seg : forall {c nv sb pre dv sg ids rf sf km_c ops},
    DiskW c nv sb pre dv sg ids rf sf km_c ops -> forall t d, dv (PWal t) = Some d -> sb <= t ->
    In t ids /\ d = render H (rf t) /\ SegOk nv sb t (rf t) false.
  Proof.
    intros c nv sb pre dv sg ids rf sf km_c ops D t d G L.
    assert (It : In t ids) by (apply (dw_ids D); congruence).
    pose proof (dw_seg _ _ _ _ _ _ _ _ _ _ _ D t It) as S.
    rewrite (dw_in _ _ _ _ _ _ _ _ _ _ _ D t It) in G.
    destruct (sf t).
    - destruct S as (_ & _ & _ & _ & S5). now apply N.lt_nge in S5.
    - rewrite app_nil_r in G. injection G as <-. auto.
  Qed.

  Lemma DiskOkW_fits : forall c nv sb pre dv sg, DiskOkW c nv sb pre dv sg -> sg_fits sg.
  Proof.
    intros c nv sb pre dv sg (ids & rf & sf & km_c & ops & D). exact (dw_sg _ _ _ _ _ _ _ _ _ _ _ D).
  Qed.

  (* the half of DiskW that speaks of the operations: [all] is the list of all records *)
  Definition LogOk (c nv : N) (sg : smap bytes) (all : list (N * bytes)) (km_c : smap item)
             (ops : list rawop) : Prop :=
    sg_fits sg /\ filter (fun r => c <? fst r) all = enc_from (c + 1) ops /\
    nv = c + 1 + N.of_nat (length ops) /\ nv <= 2 ^ 64 /\ Forall op_good ops /\
    ops_ok km_c ops /\ fold_left kstep ops km_c = km_of sg.

  Lemma dw_log : forall {c nv sb pre dv sg ids rf sf km_c ops},
    DiskW c nv sb pre dv sg ids rf sf km_c ops -> LogOk c nv sg (flat_map rf ids) km_c ops.
  Proof.
    intros c nv sb pre dv sg ids rf sf km_c ops [Sg _ _ _ _ _ _ _ Fl Nv Nf Of Oo Fo].
    exact (conj Sg (conj Fl (conj Nv (conj Nf (conj Of (conj Oo Fo)))))).
  Qed.

  Lemma LogOk_snoc : forall c nv sg sg' all km_c ops o,
    LogOk c nv sg all km_c ops -> op_good o -> nv < 2 ^ 64 ->
    kresp (km_of sg) o -> kstep (km_of sg) o = km_of sg' -> sg_fits sg' ->
    LogOk c (nv + 1) sg' (all ++ [(nv, enc_op o)]) km_c (ops ++ [o]).
  Proof.
    intros c nv sg sg' all km_c ops o (_ & Fl & Nv & _ & Og & Ok0 & Fo) Go Lnv Kr Ks Sf'.
    split; [exact Sf'|]. split; [|split; [|split; [lia|split; [|split]]]].
    - rewrite filter_app, Fl, enc_from_app. cbn [filter fst enc_from].
      replace (c <? nv) with true by lia. do 3 f_equal. lia.
    - rewrite app_length. cbn [length]. lia.
    - apply Forall_app. split; [exact Og|]. now constructor.
    - apply ops_ok_app. split; [exact Ok0|]. rewrite Fo. cbn [ops_ok]. tauto.
    - rewrite fold_left_app, Fo. exact Ks.
  Qed.

  (* two views that agree on the files the invariant reads *)
  Definition disk_path (q : path) : Prop :=
    match q with PSettings | PIndex | PWal _ => True | _ => False end.
  Definition meta_eq (dv dv' : path -> option bytes) : Prop :=
    forall q, disk_path q -> dv' q = dv q.

  Lemma meta_eq_refl : forall dv, meta_eq dv dv.
  Proof. intros dv q _. reflexivity. Qed.
  Lemma SegOk_mono : forall nv nv' sb sb' i recs b, nv <= nv' -> sb <= sb' ->
    SegOk nv sb i recs b -> SegOk nv' sb' i recs b.
  Proof.
    intros nv nv' sb sb' i recs b Ln Ls (S1 & S2 & S3 & S4 & S5).
    repeat split; try assumption.
    - exact (N.le_trans _ _ _ S4 (seg_of_mono nv nv' Ln)).
    - intros X. exact (N.lt_le_trans _ _ _ (S5 X) Ls).
  Qed.

  Lemma DiskW_mono : forall {c nv sb sb' pre dv dv' sg ids rf sf km_c ops},
    meta_eq dv dv' -> sb <= sb' ->
    DiskW c nv sb pre dv sg ids rf sf km_c ops -> DiskW c nv sb' pre dv' sg ids rf sf km_c ops.
  Proof.
    intros c nv sb sb' pre dv dv' sg ids rf sf km_c ops E L []. constructor; try assumption.
    - now rewrite E.
    - unfold snap_ok. now rewrite E.
    - intros i Ii. rewrite E; [auto|exact I].
    - intros i Ii. rewrite E; [auto|exact I].
    - intros i Ii. destruct (dw_seg0 i Ii) as (S1 & S2 & S3 & S4 & S5).
      repeat split; try assumption. intros X. exact (N.lt_le_trans _ _ _ (S5 X) L).
  Qed.

  Lemma DiskOkW_meta : forall c nv sb pre dv dv' sg, meta_eq dv dv' ->
    DiskOkW c nv sb pre dv sg -> DiskOkW c nv sb pre dv' sg.
  Proof.
    intros c nv sb pre dv dv' sg E (ids & rf & sf & km_c & ops & D).
    exists ids, rf, sf, km_c, ops. exact (DiskW_mono E (N.le_refl sb) D).
  Qed.

  Lemma DiskOkW_ext : forall c nv sb pre dv dv' sg,
    dv' PSettings = dv PSettings -> dv' PIndex = dv PIndex ->
    (forall i, dv' (PWal i) = dv (PWal i)) ->
    DiskOkW c nv sb pre dv sg -> DiskOkW c nv sb pre dv' sg.
  Proof.
    intros c nv sb pre dv dv' sg Es Ei Ew. apply DiskOkW_meta.
    intros [] Dq; try destruct Dq; auto.
  Qed.

  Lemma DiskOkW_weaken_sb : forall c nv sb sb' pre dv sg, sb <= sb' ->
    DiskOkW c nv sb pre dv sg -> DiskOkW c nv sb' pre dv sg.
  Proof using H_len H_byte n_pos.
    intros c nv sb sb' pre dv sg L (ids & rf & sf & km_c & ops & D).
    exists ids, rf, sf, km_c, ops. exact (DiskW_mono (meta_eq_refl dv) L D).
  Qed.

  (* the segment file [t] gets the records [rx] and the sealed flag [bx]; every other file,
     segment and flag stays: what is left to show concerns segment [t] and the log *)
  Lemma DiskW_set_seg : forall {c nv sb pre dv sg ids rf sf km_c ops t rx bx nv' sb' dv' sg' ids' ops'},
    DiskW c nv sb pre dv sg ids rf sf km_c ops ->
    dv' (PWal t) = Some (render H rx ++ tailb bx) -> (forall q, q <> PWal t -> dv' q = dv q) ->
    asc ids' -> (forall i, In i ids' <-> i = t \/ In i ids) ->
    SegOk nv' sb' t rx bx -> nv <= nv' -> sb <= sb' ->
    LogOk c nv' sg' (flat_map (fun i => if i =? t then rx else rf i) ids') km_c ops' ->
    DiskW c nv' sb' pre dv' sg' ids' (fun i => if i =? t then rx else rf i)
          (fun i => if i =? t then bx else sf i) km_c ops'.
  Proof.
    intros c nv sb pre dv sg ids rf sf km_c ops t rx bx nv' sb' dv' sg' ids' ops'
           [] Gt Go A Iff St Ln Ls (L1 & L2 & L3 & L4 & L5 & L6 & L7).
    assert (Old : forall i, i <> t -> In i ids' -> In i ids).
    { intros i Ne Ii. apply Iff in Ii. destruct Ii; [contradiction|assumption]. }
    assert (Nw : forall i, i <> t -> PWal i <> PWal t) by (intros i Ne X; now inversion X).
    constructor; try assumption.
    - now rewrite Go.
    - unfold snap_ok. now rewrite Go.
    - intros i Ii. destruct (N.eqb_spec i t) as [->|Ne]; [exact Gt|]. rewrite Go; auto.
    - intros i Ni. rewrite Go.
      + apply dw_out0. intros Ii. apply Ni, Iff. now right.
      + intros X. inversion X. apply Ni, Iff. now left.
    - intros i Ii. destruct (N.eqb_spec i t) as [->|Ne]; [exact St|].
      eapply SegOk_mono; [exact Ln|exact Ls|auto].
  Qed.

  (* a new, empty segment file for the next version *)
  Lemma V_add_seg : forall c nv sb pre dv dv' sg,
    DiskOkW c nv sb pre dv sg ->
    dv (PWal (seg_of nv)) = None -> dv' (PWal (seg_of nv)) = Some [] ->
    (forall q, q <> PWal (seg_of nv) -> dv' q = dv q) ->
    DiskOkW c nv sb pre dv' sg.
  Proof.
    intros c nv sb pre dv dv' sg (ids & rf & sf & km_c & ops & D) G0 G1 Go.
    set (t := seg_of nv) in *.
    assert (Nt : ~ In t ids) by (intros It; now apply (dw_ids D) in It).
    assert (Le : forall y, In y ids -> y < t).
    { intros y Iy. pose proof (dw_le D y Iy). assert (y <> t) by (intros ->; contradiction). lia. }
    exists (ids ++ [t]), (fun i => if i =? t then [] else rf i),
           (fun i => if i =? t then false else sf i), km_c, ops.
    apply (DiskW_set_seg (rx := []) (bx := false) D G1 Go); try apply N.le_refl.
    - apply asc_snoc; [exact (dw_asc _ _ _ _ _ _ _ _ _ _ _ D)|exact Le].
    - intros i. rewrite in_app_iff. cbn [In]. intuition.
    - repeat split; try constructor; [apply N.le_refl|discriminate].
    - rewrite flat_map_app. cbn [flat_map]. rewrite N.eqb_refl, !app_nil_r.
      rewrite (flat_map_ext_in _ rf); [exact (dw_log D)|].
      intros a Ia. destruct (N.eqb_spec a t) as [->|]; [contradiction|reflexivity].
  Qed.

  (* the sentinel appended to the segment of the last written version *)
  Lemma V_seal : forall c nv pre dv dv' sg d0,
    DiskOkW c nv (seg_of (nv - 1)) pre dv sg ->
    seg_of (nv - 1) < seg_of nv ->
    dv (PWal (seg_of (nv - 1))) = Some d0 ->
    dv' (PWal (seg_of (nv - 1))) = Some (d0 ++ sentinel) ->
    (forall q, q <> PWal (seg_of (nv - 1)) -> dv' q = dv q) ->
    DiskOkW c nv (seg_of nv) pre dv' sg.
  Proof using H_len H_byte n_pos.
    intros c nv pre dv dv' sg d0 (ids & rf & sf & km_c & ops & D) Lt G0 G1 Go.
    set (t := seg_of (nv - 1)) in *.
    destruct (dw_open_seg D t d0 G0 (N.le_refl t)) as (It & -> & S1 & S2 & S3 & S4 & _).
    exists ids, (fun i => if i =? t then rf t else rf i),
           (fun i => if i =? t then true else sf i), km_c, ops.
    apply (DiskW_set_seg (bx := true) D G1 Go (dw_asc _ _ _ _ _ _ _ _ _ _ _ D)).
    - intros i. split; [now right|]. now intros [->|Ii].
    - exact (conj S1 (conj S2 (conj S3 (conj S4 (fun _ => Lt))))).
    - apply N.le_refl.
    - exact S4.
    - rewrite (flat_map_ext_in _ rf); [exact (dw_log D)|].
      intros a _. destruct (N.eqb_spec a t) as [->|]; reflexivity.
  Qed.

  Lemma flat_map_upd_last : forall (rf : N -> list (N * bytes)) t x ids,
    asc ids -> In t ids -> (forall i, In i ids -> i <= t) ->
    flat_map (fun i => if i =? t then rf t ++ x else rf i) ids = flat_map rf ids ++ x.
  Proof.
    intros rf t x. induction ids as [|a ids IH]; intros A It Le; [contradiction|].
    destruct A as [Ha A]. cbn [flat_map]. destruct (N.eqb_spec a t) as [->|Ne].
    - destruct ids as [|b ids].
      + cbn [flat_map]. now rewrite !app_nil_r.
      + exfalso. specialize (Ha b (or_introl eq_refl)). specialize (Le b (or_intror (or_introl eq_refl))). lia.
    - destruct It as [->|It]; [contradiction|]. rewrite IH; auto.
      + now rewrite app_assoc.
      + intros i Ii. apply Le. now right.
  Qed.

  (* one more record, for the operation [o], in the segment of its version *)
  Lemma V_append : forall c nv sb pre dv dv' sg sg' o d,
    DiskOkW c nv sb pre dv sg -> sb <= seg_of nv ->
    dv (PWal (seg_of nv)) = Some d ->
    dv' (PWal (seg_of nv)) = Some (d ++ enc_record H nv (enc_op o)) ->
    (forall q, q <> PWal (seg_of nv) -> dv' q = dv q) ->
    op_good o -> len (enc_op o) < 2 ^ 32 -> nv < 2 ^ 64 ->
    kresp (km_of sg) o -> kstep (km_of sg) o = km_of sg' -> sg_fits sg' ->
    DiskOkW c (nv + 1) (seg_of nv) pre dv' sg'.
  Proof.
    intros c nv sb pre dv dv' sg sg' o d (ids & rf & sf & km_c & ops & D) Lsb G0 G1 Go
           Og Lp Lnv Kr Ks Sf'.
    set (t := seg_of nv) in *. set (r := (nv, enc_op o)).
    destruct (dw_open_seg D t d G0 Lsb) as (It & -> & S1 & S2 & S3 & _).
    pose proof (dw_log D) as Lo.
    assert (Lt : 0 < nv /\ forall x, In x (rf t) -> fst x < nv).
    { destruct Lo as (_ & Fl & Nv & _). split; [lia|]. intros x Ix.
      apply (all_lt_nv c nv _ ops Fl Nv). apply in_flat_map. now exists t. }
    destruct Lt as [Pos Lt].
    exists ids, (fun i => if i =? t then rf t ++ [r] else rf i),
           (fun i => if i =? t then false else sf i), km_c, (ops ++ [o]).
    apply (DiskW_set_seg (bx := false) D); [|exact Go|exact (dw_asc _ _ _ _ _ _ _ _ _ _ _ D)| | | |exact Lsb|].
    - rewrite G1, render_app. unfold render at 3. cbn [flat_map fst snd r tailb].
      now rewrite !app_nil_r.
    - intros i. split; [now right|]. now intros [->|Ii].
    - clear D Lo. split; [|split; [|split; [|split]]].
      + apply Forall_app. split; [exact S1|]. constructor; [|constructor].
        exact (conj (conj Pos Lnv) (conj (enc_op_nonempty o) Lp)).
      + apply Forall_app. split; [exact S2|]. now constructor.
      + rewrite map_app. apply asc_snoc; [exact S3|].
        intros y Iy. apply in_map_iff in Iy. destruct Iy as (x & <- & Ix). now apply Lt.
      + apply seg_of_mono, N.le_add_r.
      + discriminate.
    - apply N.le_add_r.
    - rewrite flat_map_upd_last; [|exact (dw_asc _ _ _ _ _ _ _ _ _ _ _ D)|exact It|exact (dw_le D)].
      now apply (LogOk_snoc c nv sg).
  Qed.

  Lemma km_of_good : forall sg, sorted cmp sg -> NoCollide (map snd sg) -> sg_fits sg ->
    km_good (km_of sg).
  Proof.
    intros sg Ss Nc [Ln Fa]. split; [|split; [|split]].
    - now apply (sorted_km_of H cfg).
    - intros k1 k2 i1 i2 I1 I2 E.
      apply (In_km_of H) in I1. apply (In_km_of H) in I2.
      destruct I1 as (c1 & I1 & ->). destruct I2 as (c2 & I2 & ->).
      cbn [StoreInv.item_of ihash isize] in *.
      assert (c1 = c2); [|now subst].
      apply Nc; [apply in_map_iff; now exists (k1, c1)|apply in_map_iff; now exists (k2, c2)|exact E].
    - apply Forall_forall. intros [k i] Ik. apply (In_km_of H) in Ik. destruct Ik as (c0 & Ik & ->).
      rewrite Forall_forall in Fa. destruct (Fa _ Ik) as (F1 & F2 & F3). cbn [fst snd] in *.
      split; [|exact F2]. unfold entry_fits, key_fits, hash_ok. cbn [fst snd StoreInv.item_of ihash isize].
      split; [lia|]. split; [apply H_len|exact F3].
    - unfold StoreInv.km_of. now rewrite map_length.
  Qed.

  (* a snapshot of the current map at version nv-1, segments below [b] removed *)
  Lemma V_checkpoint : forall c nv sb pre dv dv' sg b,
    DiskOkW c nv sb pre dv sg -> sorted cmp sg -> NoCollide (map snd sg) ->
    0 < nv - 1 -> b <= seg_of (nv - 1) ->
    dv' PIndex = Some (enc_snapshot (nv - 1) (km_of sg)) ->
    dv' PSettings = dv PSettings ->
    (forall i, dv' (PWal i) = if i <? b then None else dv (PWal i)) ->
    DiskOkW (nv - 1) nv sb pre dv' sg.
  Proof.
    intros c nv sb pre dv dv' sg b (ids & rf & sf & km_c & ops & D) Ss Nc Pos Lb Gi Gs Gw.
    destruct D.
    assert (Lt : forall x, In x (flat_map rf ids) -> fst x < nv)
      by (eapply all_lt_nv; eassumption).
    exists (filter (fun i => negb (i <? b)) ids), rf, sf, (km_of sg), [].
    constructor; try assumption.
    - now rewrite Gs.
    - unfold snap_ok. rewrite Gi. split; [exact Pos|reflexivity].
    - now apply km_of_good.
    - now apply asc_filter.
    - intros i Ii. apply filter_In in Ii. destruct Ii as [Ii Nb]. rewrite Gw.
      destruct (i <? b); [discriminate|auto].
    - intros i Ni. rewrite Gw. destruct (i <? b) eqn:E; [reflexivity|].
      apply dw_out0. intros I. apply Ni, filter_In. split; [exact I|now rewrite E].
    - intros i Ii. apply filter_In in Ii. destruct Ii as [Ii Nb]. auto.
    - cbn [enc_from]. apply filter_none. intros x Ix.
      assert (I2 : In x (flat_map rf ids)).
      { apply in_flat_map in Ix. destruct Ix as (i & Ii & Ix). apply filter_In in Ii.
        apply in_flat_map. exists i. tauto. }
      specialize (Lt x I2). lia.
    - cbn [length]. lia.
    - constructor.
    - exact I.
    - reflexivity.
  Qed.

  (* what flush and sync_data leave in the segment file *)
  Lemma wal_write_view : forall seg data d dv, dv (PWal seg) = Some d ->
    forall q, calls_view (wal_write seg data) dv q = vset dv (PWal seg) (Some (d ++ data)) q.
  Proof.
    intros seg data d dv G q. unfold wal_write.
    destruct data as [|x data]; cbn [append_calls app calls_view call_view].
    - rewrite app_nil_r. unfold vset. destruct (path_eqb_spec q (PWal seg)) as [->|]; auto.
    - now rewrite G.
  Qed.

  (* atomic write: the target holds the data, the temporary file is gone *)
  Lemma aw_calls_view : forall target tmp data dv q,
    calls_view (aw_calls target tmp data) dv q = vset (vset dv tmp None) target (Some data) q.
  Proof.
    intros target tmp data dv q. unfold aw_calls.
    destruct data; cbn [append_calls app calls_view call_view]; unfold vset;
      rewrite ?path_eqb_refl; cbn [option_map app]; now destruct (path_eqb q target), (path_eqb q tmp).
  Qed.

  Definition not_wal (q : path) : Prop := match q with PWal _ => False | _ => True end.

  (* the segment of the next version is opened for appending, and created if missing *)
  Lemma V_open_seg : forall c nv sb pre dv dv' sg,
    DiskOkW c nv sb pre dv sg ->
    (forall q, dv' q = call_view (COpenAppend (PWal (seg_of nv))) dv q) ->
    DiskOkW c nv sb pre dv' sg /\ dv' (PWal (seg_of nv)) <> None /\
    (forall q, not_wal q -> dv' q = dv q).
  Proof.
    intros c nv sb pre dv dv' sg D V. cbn [call_view] in V.
    destruct (dv (PWal (seg_of nv))) as [d|] eqn:G.
    - split; [eapply DiskOkW_meta; [|exact D]; intros q _; apply V|].
      split; [rewrite V, G; discriminate|intros q _; apply V].
    - split; [|split].
      + eapply V_add_seg; [exact D|exact G|rewrite V; apply vset_same|].
        intros q Nq. rewrite V. now apply vset_other.
      + rewrite V, vset_same. discriminate.
      + intros q Nq. rewrite V. apply vset_other. intros ->. exact Nq.
  Qed.

  Lemma append_op_calls_disk : forall wl c pre sg sg' o s s',
    Okc (append_op_calls H cfg wl (enc_op o)) s s' -> FsWf s ->
    DiskOkW c (nextv wl) (seg_of (nextv wl - 1)) pre (fdat s) sg ->
    match writer wl with
    | None => True
    | Some (s0, buf) => buf = [] /\ fdat s (PWal s0) <> None /\ s0 = seg_of (nextv wl - 1)
    end ->
    op_good o -> len (enc_op o) < 2 ^ 32 -> nextv wl < 2 ^ 64 ->
    kresp (km_of sg) o -> kstep (km_of sg) o = km_of sg' -> sg_fits sg' ->
    DiskOkW c (nextv wl + 1) (seg_of (nextv wl)) pre (fdat s') sg'.
  Proof.
    intros wl c pre sg sg' o s s' R W D Hw Og Lp Lnv Kr Ks Sf'. unfold append_op_calls in R.
    set (ver := nextv wl) in *. set (t := seg_of ver) in *.
    apply okc_app_inv in R. destruct R as (s1 & R1 & R2).
    assert (Le : seg_of (ver - 1) <= t) by (apply seg_of_mono; lia).
    (* the roll-over leaves the target segment in place, everything below it sealed or closed *)
    assert (P1 : FsWf s1 /\ DiskOkW c ver t pre (fdat s1) sg /\ fdat s1 (PWal t) <> None).
    { assert (Open : forall s0, FsWf s0 -> DiskOkW c ver t pre (fdat s0) sg ->
                Okc [COpenAppend (PWal t)] s0 s1 ->
                FsWf s1 /\ DiskOkW c ver t pre (fdat s1) sg /\ fdat s1 (PWal t) <> None).
      { intros s0 W0 D0 (s1' & E1 & ->). split; [exact (apply_call_wf _ _ _ E1 W0)|].
        destruct (V_open_seg _ _ _ _ _ _ _ D0 (apply_call_fdat _ _ _ W0 E1)) as (D1 & G1 & _).
        now split. }
      unfold roll_calls in R1. destruct (writer wl) as [[s2 b]|].
      - destruct Hw as (_ & Gs & ->). destruct (N.eqb_spec (seg_of (ver - 1)) t) as [Est|Nst].
        + cbn [Okc] in R1. subst s1. rewrite <- Est. auto.
        + apply okc_app_inv in R1. destruct R1 as (s0 & R0 & R1).
          destruct (fdat s (PWal (seg_of (ver - 1)))) as [d0|] eqn:G0; [|contradiction].
          pose proof (okc_view _ _ _ R0 W) as V0.
          apply (Open s0 (okc_wf _ _ _ R0 W)); [|exact R1].
          eapply V_seal; [exact D|unfold t in *; lia|exact G0| |].
          * now rewrite V0, (wal_write_view _ _ _ _ G0), vset_same.
          * intros q Nq. rewrite V0, (wal_write_view _ _ _ _ G0). now apply vset_other.
      - apply (Open s W); [|exact R1].
        eapply DiskOkW_weaken_sb; [exact Le|exact D]. }
    destruct P1 as (W1 & D1 & G1).
    destruct (fdat s1 (PWal t)) as [d|] eqn:Gt; [|contradiction].
    pose proof (okc_view _ _ _ R2 W1) as V2.
    eapply (V_append c ver t pre (fdat s1) _ sg sg' o d); try eassumption; [apply N.le_refl| |].
    - now rewrite V2, (wal_write_view _ _ _ _ Gt), vset_same.
    - intros q Nq. rewrite V2, (wal_write_view _ _ _ _ Gt). now apply vset_other.
  Qed.

  Lemma unlinks_view : forall ps dv q,
    (In q ps -> calls_view (map CUnlink ps) dv q = None) /\
    (~ In q ps -> calls_view (map CUnlink ps) dv q = dv q).
  Proof.
    induction ps as [|p ps IH]; intros dv q; cbn [map calls_view call_view In]; [tauto|].
    destruct (IH (vset dv p None) q) as [I1 I2]. split.
    - intros [->|Iq]; [|auto]. destruct (in_dec path_eq_dec q ps) as [Iq|Nq]; [auto|].
      rewrite I2 by exact Nq. apply vset_same.
    - intros Nq. rewrite I2 by tauto. apply vset_other. intros ->. tauto.
  Qed.

  Lemma prune_calls_view : forall b s, FsWf s ->
    (forall i, calls_view (prune_calls b s) (fdat s) (PWal i)
               = if i <? b then None else fdat s (PWal i)) /\
    (forall q, not_wal q -> calls_view (prune_calls b s) (fdat s) q = fdat s q).
  Proof.
    intros b s W. unfold prune_calls. set (ids := filter (fun i => i <? b) (sort_ids (wal_ids s))).
    destruct (sort_ids_spec (wal_ids s)) as [A E0]; [apply wal_ids_nodup, W|].
    assert (Iid : forall i, In (PWal i) (map PWal ids) <-> (i <? b) = true /\ fdat s (PWal i) <> None).
    { intros i. rewrite in_map_iff. unfold ids. split.
      - intros (j & [= ->] & Ij). apply filter_In in Ij. rewrite E0, In_wal_ids in Ij.
        pose proof (fdat_none s (PWal i)). tauto.
      - intros [Lb G]. exists i. split; [reflexivity|]. apply filter_In. rewrite E0, In_wal_ids.
        pose proof (fdat_none s (PWal i)). tauto. }
    rewrite unlink_calls_all; [|exact W|apply NoDup_map_PWal, NoDup_filter, asc_nodup, A|].
    2:{ intros p Ip. pose proof Ip as Ip'. apply in_map_iff in Ip'. destruct Ip' as (i & <- & _).
        apply Iid in Ip. intros X. now apply (proj2 Ip), fdat_none. }
    split.
    - intros i. destruct (unlinks_view (map PWal ids) (fdat s) (PWal i)) as [V1 V2].
      destruct (i <? b) eqn:Lb.
      + destruct (fdat s (PWal i)) as [d|] eqn:G.
        * apply V1, Iid. split; [exact Lb|]. rewrite G. discriminate.
        * apply V2. intros Ii. apply Iid in Ii. now destruct Ii.
      + apply V2. intros Ii. apply Iid in Ii. destruct Ii. congruence.
    - intros q Nq. apply unlinks_view. intros Iq. apply in_map_iff in Iq.
      now destruct Iq as (j & <- & _).
  Qed.

  (* the calls of checkpoint_inner: either there are none, or the snapshot of the current map at
     version nextv-1 replaces the index file and the segments below its segment are removed *)
  Lemma ck_calls_disk : forall reason m sb sg s s1 s',
    Okc (ck_write_calls reason m) s s1 -> Okc (ck_prune_calls cfg reason m s1) s1 s' -> FsWf s ->
    DiskOkW (lpv (idx m)) (nextv (mwal m)) sb (mpre m) (fdat s) sg ->
    km (idx m) = km_of sg -> sorted cmp sg -> NoCollide (map snd sg) ->
    DiskOkW (lpv (idx (ck_mem reason m))) (nextv (mwal m)) sb (mpre m) (fdat s') sg /\
    (forall q, ~ is_meta q -> fdat s' q = fdat s q) /\
    (ck_skips reason m = false -> fdat s' PIndex = Some (ck_data m)).
  Proof.
    intros reason m sb sg s s1 s' R1 R2 W D Km Ss Nc.
    pose proof (okc_wf _ _ _ R1 W) as W1.
    pose proof (okc_view _ _ _ R1 W) as V1. pose proof (okc_view _ _ _ R2 W1) as V2.
    unfold ck_write_calls, ck_prune_calls, ck_mem in *. set (nv := nextv (mwal m)) in *.
    destruct (ck_skips reason m) eqn:Sk; cbn [orb] in V2.
    - cbn [calls_view] in V1, V2.
      assert (V : forall q, fdat s' q = fdat s q) by (intros q; now rewrite V2, V1).
      split; [eapply DiskOkW_meta; [|exact D]; intros q _; apply V|]. split; [auto|discriminate].
    - assert (Pos : 0 < nv - 1).
      { apply orb_false_iff in Sk. destruct Sk as [_ Sk]. fold nv in Sk. lia. }
      cbn [idx lpv].
      assert (V1' : forall q, fdat s1 q
                              = vset (vset (fdat s) PIndexTmp None) PIndex (Some (ck_data m)) q).
      { intros q. rewrite V1. apply aw_calls_view. }
      assert (Dk : forall b, b <= seg_of (nv - 1) ->
                (forall i, fdat s' (PWal i) = if i <? b then None else fdat s1 (PWal i)) ->
                (forall q, not_wal q -> fdat s' q = fdat s1 q) ->
                DiskOkW (nv - 1) nv sb (mpre m) (fdat s') sg /\
                (forall q, ~ is_meta q -> fdat s' q = fdat s q) /\
                (false = false -> fdat s' PIndex = Some (ck_data m))).
      { intros b Lb Vw Vo. split; [|split].
        - eapply V_checkpoint; [exact D|exact Ss|exact Nc|exact Pos|exact Lb| | |].
          + rewrite Vo, V1' by exact I. unfold ck_data. now rewrite Km.
          + now rewrite Vo, V1' by exact I.
          + intros i. rewrite Vw. destruct (i <? b); [reflexivity|]. now rewrite V1'.
        - intros q Nq. destruct q; try (now contradiction Nq); rewrite Vo, V1' by exact I; reflexivity.
        - intros _. now rewrite Vo, V1' by exact I. }
      destruct (negb (lpv (idx m) =? 0) && (nv - 1 <=? lpv (idx m))).
      + cbn [calls_view] in V2. apply (Dk 0); [apply N.le_0_l| |intros q _; apply V2].
        intros i. rewrite V2. now destruct i.
      + destruct (prune_calls_view (seg_of (nv - 1)) s1 W1) as [Pw Po].
        apply (Dk (seg_of (nv - 1))); [apply N.le_refl| |]; intros; rewrite V2; auto.
  Qed.

  Lemma ck_disk : forall reason m sb sg w,
    wfault w = None -> FsWf (wfs w) ->
    DiskOkW (lpv (idx m)) (nextv (mwal m)) sb (mpre m) (fdat (wfs w)) sg ->
    km (idx m) = km_of sg -> sorted cmp sg -> NoCollide (map snd sg) ->
    exists w', checkpoint_inner cfg reason m w = ((Ok tt, ck_mem reason m), w') /\ Eff w w' /\
      DiskOkW (lpv (idx (ck_mem reason m))) (nextv (mwal m)) sb (mpre m) (fdat (wfs w')) sg /\
      (forall q, ~ is_meta q -> fdat (wfs w') q = fdat (wfs w) q) /\
      (ck_skips reason m = false -> fdat (wfs w') PIndex = Some (ck_data m)).
  Proof.
    intros reason m sb sg w F W D Km Ss Nc.
    destruct (checkpoint_inner_run cfg reason m w F) as (w1 & w' & E & R1 & R2).
    exists w'. split; [exact E|]. split.
    - apply (ran_eff _ _ _ (ran_app _ _ _ _ _ R1 R2) W). now apply (ck_calls_in cfg (fun _ => True)).
    - now apply (ck_calls_disk reason m sb sg _ _ _ (ran_okc _ _ _ R1) (ran_okc _ _ _ R2)).
  Qed.

  Lemma DiskOk_ext : forall m s s' sg,
    fdat s' PSettings = fdat s PSettings -> fdat s' PIndex = fdat s PIndex ->
    (forall i, fdat s' (PWal i) = fdat s (PWal i)) ->
    DiskOk m s sg -> DiskOk m s' sg.
  Proof. intros m s s' sg E1 E2 E3. unfold DiskOk. now apply DiskOkW_ext. Qed.

  Lemma wal_ok_fdat : forall m s, wal_ok cfg m s ->
    match writer (mwal m) with
    | None => True
    | Some (s0, buf) => buf = [] /\ fdat s (PWal s0) <> None /\ s0 = seg_of (nextv (mwal m) - 1)
    end.
  Proof.
    intros m s [_ Hw]. destruct (writer (mwal m)) as [[s0 buf]|]; [|exact I].
    destruct Hw as (B & G & _ & Es). split; [exact B|]. split; [|exact Es].
    intros X. apply G. now apply fdat_none.
  Qed.

  (* the three properties carried along a history *)
  Definition Inv (m : mem) (s : fs) (sg : smap bytes) : Prop :=
    Live0 m s sg /\ DiskOk m s sg /\ FsWf s.

  (* logging one operation keeps them: Live0 by StoreWrite.log_and_apply_ok, the disk by the lists *)
  Lemma log_and_apply_inv : forall m sg sg' o w,
    Live0 m (wfs w) sg -> DiskOk m (wfs w) sg -> FsWf (wfs w) -> wfault w = None ->
    op_respects_sizes (idx m) o ->
    sorted cmp sg' -> km_of sg' = km_expected cmp (idx m) o -> NoCollide (map snd sg') ->
    (forall k c, In (k, c) sg' ->
       exists f, fget (wfs w) (cas_path (H c)) = Some f /\ fdata f = c) ->
    sg_fits sg' -> op_good o -> len (enc_op o) < 2 ^ 32 -> nextv (mwal m) < 2 ^ 64 ->
    exists m' w', log_and_apply H cfg m o w = ((Ok tt, m'), w') /\ wfault w' = None /\
      Inv m' (wfs w') sg' /\ nextv (mwal m') = nextv (mwal m) + 1.
  Proof.
    intros m sg sg' o w L D Wf F Hop Ssg' Kexp Nc' Hcas' Sf' Og Lp Lnv.
    destruct (log_and_apply_ok H H_len H_byte cfg n_pos m _ sg sg' o w L eq_refl F Hop Ssg' Kexp Nc'
                Hcas') as (m0 & w0 & E0 & _ & L' & _).
    pose proof L as [_ Hkm Hidx _ _ _ _ Hwal].
    destruct (KX C12_apply (idx m) o Hidx Hop) as (i' & un & Eap & Inv' & Ki' & Li' & _).
    destruct (log_and_apply_run H cfg m o i' un w F) as (w1 & w2 & w3 & w' & E & R1 & R2 & R3 & R4);
      [|exact Eap|].
    { destruct Hwal as [_ Hw]. destruct (writer (mwal m)) as [[s0 b]|]; [|exact I]. split; apply Hw. }
    rewrite E in E0. inversion E0; subst m0 w0.
    exists (lap_res cfg m i'), w'. split; [exact E|]. split; [exact (ran_fault _ _ _ R4)|].
    apply ran_okc in R1, R2, R3, R4.
    pose proof (okc_wf _ _ _ R1 Wf) as W1. pose proof (okc_wf _ _ _ R2 W1) as W2.
    pose proof (okc_wf _ _ _ R3 W2) as W3.
    (* the record is logged ... *)
    pose proof (append_op_calls_disk _ _ _ sg sg' o _ _ R1 Wf D (wal_ok_fdat _ _ Hwal) Og Lp Lnv) as D1.
    rewrite <- Hkm, <- kstep_expected in D1.
    specialize (D1 (proj1 (kresp_respects _ _) Hop) (eq_sym Kexp) Sf').
    (* ... the blobs that became unreferenced are deleted ... *)
    assert (D2 : DiskOk (lap_mem cfg m i') (wfs w2) sg').
    { unfold DiskOk, lap_mem. cbn [idx mwal mpre nextv]. rewrite Li'.
      replace (nextv (mwal m) + 1 - 1) with (nextv (mwal m)) by lia.
      eapply DiskOkW_meta; [|exact D1]. intros q Dq. apply fdat_of_fget.
      destruct (fr_get _ _ _ (okc_frame _ _ _ _ (delete_calls_in un _) R2) q) as [(h & _ & ->)|X];
        [destruct Dq|exact X]. }
    (* ... and after a roll-over the index is checkpointed *)
    split; [split; [exact L'|split; [|exact (okc_wf _ _ _ R4 W3)]]|];
      unfold lap_res; destruct (lap_rolled cfg (mwal m)).
    - destruct (ck_mem_same RRollover (lap_mem cfg m i')) as (_ & _ & _ & _ & Wl & P).
      unfold DiskOk. rewrite Wl, P. cbv zeta.
      apply (ck_calls_disk RRollover (lap_mem cfg m i') _ sg' _ _ _ R3 R4 W2 D2); [|assumption..].
      cbn [lap_mem idx]. rewrite Ki'. now symmetry.
    - cbn [Okc] in R3, R4. now rewrite R4, R3.
    - now destruct (ck_mem_same RRollover (lap_mem cfg m i')) as (_ & _ & _ & _ & -> & _).
    - reflexivity.
  Qed.

  Lemma run_det : forall {A} (r1 r2 : A * world), r1 = r2 -> fst r1 = fst r2 /\ snd r1 = snd r2.
  Proof. intros A r1 r2 ->. now split. Qed.

  Lemma sg_fits_sub : forall sg sg', sg_fits sg -> (forall e, In e sg' -> In e sg) ->
    (length sg' <= length sg)%nat -> sg_fits sg'.
  Proof.
    intros sg sg' [Ln Fa] Sub Le. split; [lia|]. apply Forall_forall. intros e Ie.
    rewrite Forall_forall in Fa. apply Fa, Sub, Ie.
  Qed.

  Lemma len_enc_put : forall k h sz, length h = 32%nat -> len (enc_op (RPut k h sz)) = len k + 45.
  Proof.
    intros k h sz Lh. unfold len. cbn [enc_op length].
    rewrite !app_length, enc_key_length, length_u64, Lh. lia.
  Qed.

  Lemma len_enc_remove1 : forall k, len (enc_op (RRemove [k])) = len k + 9.
  Proof.
    intros k. unfold len. cbn [enc_op length flat_map].
    rewrite !app_length, enc_key_length. unfold u32. rewrite length_le_enc. cbn [length]. lia.
  Qed.

  (* Fitting hypotheses of put: the key is accepted by the key type and short enough for a
     put record, the content length fits a u64, there is room for one more key and one more
     version *)
  Theorem put_disk : forall m s sg k chunks w,
    Inv m s sg -> wfs w = s -> wfault w = None ->
    NoCollide (concat chunks :: map snd sg) ->
    len k + 45 < 2 ^ 32 -> key_valid (c_kt cfg) k = true -> len (concat chunks) < 2 ^ 64 ->
    N.of_nat (length sg) + 1 < 2 ^ 32 -> nextv (mwal m) < 2 ^ 64 ->
    exists m' w', put H cfg m k chunks w = ((Ok tt, m'), w') /\ wfault w' = None /\
                  Inv m' (wfs w') (sm_ins cmp sg k (concat chunks)) /\
                  nextv (mwal m') = nextv (mwal m) + 1.
  Proof.
    intros m s sg k chunks w (L & D & Wf) Ws F NC Lk Vk Lc Ln Lv. subst s.
    destruct (put_stage_ok H H_len H_byte cfg n_pos m _ sg k chunks w L eq_refl F NC)
      as (w5 & E5 & X5 & L5 & C5 & W5 & _ & _ & M5).
    destruct (put_next H cfg m sg k (concat chunks) (lv_sorted _ _ _ _ _ L) (lv_km _ _ _ _ _ L) NC)
      as (Hop & Ss' & Ke & Nc').
    cbv zeta in *. set (c := concat chunks) in *. set (sg' := sm_ins cmp sg k c) in *.
    rewrite E5. apply (log_and_apply_inv m sg sg' (RPut k (H c) (len c)) w5 L5); try assumption.
    - eapply DiskOk_ext; [| | |exact D]; intros; apply fdat_of_fget, M5; try exact I; intros X; exact X.
    - exact (W5 Wf).
    - exact (proj1 X5).
    - destruct (DiskOkW_fits _ _ _ _ _ _ D) as [Ln0 Fa0].
      split.
      + pose proof (length_sm_ins_le cmp sg k c) as Hl. fold sg' in Hl. lia.
      + apply Forall_forall. intros e Ie. apply (In_sm_ins _) in Ie. destruct Ie as [->|Ie].
        * cbn [fst snd]. auto.
        * rewrite Forall_forall in Fa0. now apply Fa0.
    - split.
      + cbn [op_fits]. unfold key_fits, hash_ok. split; [lia|]. split; [apply H_len|exact Lc].
      + cbn [op_keys]. constructor; [exact Vk|constructor].
    - rewrite len_enc_put by apply H_len. exact Lk.
  Qed.

  Lemma removal_inv : forall m s sg sg' ks w,
    Inv m s sg -> wfs w = s -> wfault w = None ->
    sorted cmp sg' -> (forall e, In e sg' -> In e sg) -> (length sg' <= length sg)%nat ->
    km_of sg' = fold_left (fun mm k => sm_del cmp mm k) ks (km_of sg) ->
    (forall k, In k ks -> In k (map fst sg)) -> N.of_nat (length ks) < 2 ^ 32 ->
    len (enc_op (RRemove ks)) < 2 ^ 32 -> nextv (mwal m) < 2 ^ 64 ->
    exists m' w', log_and_apply H cfg m (RRemove ks) w = ((Ok tt, m'), w') /\ wfault w' = None /\
                  Inv m' (wfs w') sg' /\ nextv (mwal m') = nextv (mwal m) + 1.
  Proof.
    intros m s sg sg' ks w (L & D & Wf) Ws F Ssg' Sub Le Kd Kin Lks Lp Lv. subst s.
    pose proof L as [_ Hkm _ Hnc Hcas _ _ _].
    pose proof (DiskOkW_fits _ _ _ _ _ _ D) as Sf.
    apply (log_and_apply_inv m sg sg' (RRemove ks) w L D Wf F); try assumption.
    - exact I.
    - cbn [km_expected]. now rewrite Hkm.
    - eapply (NoCollide_incl H); [|exact Hnc]. intros x Ix. apply in_map_iff in Ix.
      destruct Ix as (e & <- & Ie). apply in_map, Sub, Ie.
    - intros k c Ik. apply (Hcas k), Sub, Ik.
    - eapply sg_fits_sub; eassumption.
    - destruct Sf as [_ Fa]. rewrite Forall_forall in Fa. split.
      + cbn [op_fits]. split; [exact Lks|]. apply Forall_forall. intros k Ik.
        apply Kin, in_map_iff in Ik. destruct Ik as (e & <- & Ie). specialize (Fa e Ie).
        unfold key_fits. lia.
      + cbn [op_keys]. apply Forall_forall. intros k Ik.
        apply Kin, in_map_iff in Ik. destruct Ik as (e & <- & Ie). now apply Fa.
  Qed.

  (* remove needs room for one more version only *)
  Theorem remove_disk : forall m s sg k w,
    Inv m s sg -> wfs w = s -> wfault w = None -> nextv (mwal m) < 2 ^ 64 ->
    exists m' w',
      remove H cfg m k w
      = ((Ok (match sm_get cmp sg k with Some _ => true | None => false end), m'), w') /\
      wfault w' = None /\ Inv m' (wfs w') (sm_del cmp sg k) /\
      nextv (mwal m') <= nextv (mwal m) + 1.
  Proof.
    intros m s sg k w IV Ws F Lv. pose proof IV as (L & D & Wf).
    pose proof L as [Ssg Hkm _ _ _ _ _ _].
    unfold remove. fold cmp. rewrite Hkm, (km_of_get H cfg). fold cmp.
    destruct (sm_get cmp sg k) as [c0|] eqn:G; cbn [option_map].
    - assert (Ik : In (k, c0) sg) by now apply (KX get_in _ _ _ Ssg).
      destruct (removal_inv m s sg (sm_del cmp sg k) [k] w IV Ws F)
        as (m' & w' & E & F' & IV' & N'); try assumption.
      + apply (KX sorted_del), Ssg.
      + intros e. apply (In_sm_del _).
      + apply length_sm_del_le.
      + cbn [fold_left]. apply (km_of_del H cfg).
      + intros k' [<-|[]]. apply in_map_iff. now exists (k, c0).
      + cbn [length]. pow_consts. lia.
      + rewrite len_enc_remove1. destruct (DiskOkW_fits _ _ _ _ _ _ D) as [_ Fa].
        rewrite Forall_forall in Fa. specialize (Fa _ Ik). cbn [fst] in Fa. lia.
      + exists m', w'. rewrite (bind_eq _ _ _ _ _ E). split; [reflexivity|].
        split; [exact F'|]. split; [exact IV'|]. rewrite N'. apply N.le_refl.
    - exists m, w. split; [reflexivity|]. split; [exact F|]. rewrite (sm_del_absent _ _ _ G).
      split; [now rewrite Ws|]. apply N.le_add_r.
  Qed.

  (* remove_range: the record naming the removed keys must fit (payload < 2^32 bytes) *)
  Theorem remove_range_disk : forall m s sg lo hi w,
    Inv m s sg -> wfs w = s -> wfault w = None ->
    (nonempty (km (idx m)) && range_panics cmp lo hi) = false ->
    let inr := fun e : bytes * bytes => in_range cmp lo hi (fst e) in
    len (enc_op (RRemove (map fst (filter inr sg)))) < 2 ^ 32 -> nextv (mwal m) < 2 ^ 64 ->
    exists m' w',
      remove_range H cfg m lo hi w = ((Ok (N.of_nat (length (filter inr sg))), m'), w') /\
      wfault w' = None /\ Inv m' (wfs w') (filter (fun e => negb (inr e)) sg) /\
      nextv (mwal m') <= nextv (mwal m) + 1.
  Proof.
    intros m s sg lo hi w IV Ws F NP inr Lp Lv. pose proof IV as (L & D & Wf).
    pose proof L as [Ssg Hkm _ _ _ _ _ _].
    unfold remove_range. fold cmp. rewrite NP. unfold keys_in_range. fold cmp.
    rewrite Hkm, <- (km_of_filter H (in_range cmp lo hi)), km_of_keys. fold inr.
    destruct (map fst (filter inr sg)) as [|k0 ks0] eqn:Eks.
    - apply map_eq_nil in Eks. rewrite Eks, (filter_none_all inr sg Eks).
      exists m, w. split; [reflexivity|]. split; [exact F|]. split; [now rewrite Ws|apply N.le_add_r].
    - rewrite <- Eks in *.
      destruct (removal_inv m s sg (filter (fun e => negb (inr e)) sg) (map fst (filter inr sg)) w
                  IV Ws F) as (m' & w' & E & F' & IV' & N'); try assumption.
      + apply (KX sorted_filter), Ssg.
      + intros e Ie. apply filter_In in Ie. tauto.
      + apply filter_length_le.
      + apply (km_of_del_range H cfg (in_range cmp lo hi)), Ssg.
      + intros k Ik. apply in_map_iff in Ik. destruct Ik as (e & <- & Ie).
        apply filter_In in Ie. apply in_map. tauto.
      + rewrite map_length. pose proof (filter_length_le inr sg).
        destruct (DiskOkW_fits _ _ _ _ _ _ D) as [Ln _]. lia.
      + exists m', w'. rewrite (bind_eq _ _ _ _ _ E), map_length. split; [reflexivity|].
        split; [exact F'|]. split; [exact IV'|]. rewrite N'. apply N.le_refl.
  Qed.

  Theorem checkpoint_disk : forall m s sg w,
    Inv m s sg -> wfs w = s -> wfault w = None ->
    exists m' w', checkpoint cfg m w = ((Ok tt, m'), w') /\ wfault w' = None /\
                  Inv m' (wfs w') sg /\ nextv (mwal m') = nextv (mwal m).
  Proof.
    intros m s sg w (L & D & Wf) Ws F.
    destruct (checkpoint_spec H H_len H_byte cfg n_pos m s sg w L Ws F) as (m' & w' & E & F' & P).
    exists m', w'. split; [exact E|]. split; [exact F'|]. subst s.
    pose proof L as [Ssg Hkm _ Hnc _ _ _ _].
    destruct (ck_disk RExplicit m _ sg w F Wf D Hkm Ssg Hnc) as (w2 & E2 & X2 & D2 & _).
    unfold checkpoint in E. rewrite E2 in E. inversion E; subst m' w2.
    destruct (ck_mem_same RExplicit m) as (_ & _ & _ & _ & Wl2 & P2).
    split; [|now rewrite Wl2]. split; [exact (proj1 (proj2 P))|]. split; [|exact (eff_wf _ _ X2)].
    unfold DiskOk. rewrite Wl2, P2. exact D2.
  Qed.

  (* abort touches no meta file *)
  Theorem abort_disk : forall m s sg k chunks w,
    Inv m s sg -> wfs w = s -> wfault w = None ->
    exists w', abort m k chunks w = ((Ok tt, m), w') /\ wfault w' = None /\ Inv m (wfs w') sg.
  Proof.
    intros m s sg k chunks w (L & D & Wf) Ws F.
    destruct (abort_post H H_len H_byte cfg n_pos m s sg k chunks w L Ws F) as (w' & E & F' & P).
    destruct (abort_spec H H_len H_byte cfg n_pos m s sg k chunks w L Ws F)
      as (w2 & E2 & _ & Fi & _).
    rewrite E in E2. inversion E2; subst w2.
    exists w'. split; [exact E|]. split; [exact F'|].
    split; [exact (proj1 (proj2 P))|]. split.
    - eapply DiskOk_ext; [| | |exact D]; intros; unfold fdat, fget; now rewrite Fi.
    - unfold FsWf. now rewrite Fi.
  Qed.
End DiskInv.

Print Assumptions put_disk.
Print Assumptions remove_disk.
Print Assumptions remove_range_disk.
Print Assumptions checkpoint_disk.
Print Assumptions abort_disk.
