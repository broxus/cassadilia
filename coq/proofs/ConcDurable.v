(* ConcDurable.v -- the bridge between the concurrent model (theories/Conc.v, which carries no
   bytes of the write-ahead log) and the recovery of the sequential model (theories/Store.v):

     the records that the WLockW steps of ANY concurrent run append -- version i+1 and the encoded
     operation for the i-th entry of the write log of proofs/ConcLin.v -- are replayed by
     Store.replay_records (the inner loop of WalReplayer::replay) into exactly the index the
     threads built in memory: same key map, same reference counts, same statistics; and the next
     version the recovered store hands out is the concurrent run's next version.

   So a clean restart (C02), and the recovery after a kill (C03: the log is only ever appended to,
   one record per WLockW step, under the W lock) see the linearisation order of C05, whatever the
   interleaving was.  Versions are dense and follow the log order ([wlog_versions]), every logged
   operation is applicable where the replay meets it ([wlog_respects]).

   Hypothesis [Forall op_good]: every logged operation fits the format's size fields and its
   keys are valid for the key type (Recover.v needs it for decode (encode o) = o).  It is a
   hypothesis on the thread programs' keys and contents ([logged_good] derives it from them and
   from a bound on the size of the key map); [C02_conc_ex] shows a run meeting it. *)
From Cas Require Import SMap Index Conc Store.
From CasProofs Require Import BaseProofs CodecProofs SMapProofs IndexProofs ConcInv ConcProofs ConcProgress ConcExamples ConcLin DiskInv Recover.
From Coq Require Import List NArith Lia Bool Arith.
Import ListNotations.
Open Scope N_scope.

Arguments N.max : simpl never.

Lemma enc_from_max : forall ops v hi, hi < v ->
  fold_left N.max (map fst (enc_from v ops)) hi =
  match ops with [] => hi | _ => v + N.of_nat (length ops) - 1 end.
Proof.
  induction ops as [|o ops IH]; intros v hi L; [reflexivity|].
  cbn [enc_from map fst fold_left].
  rewrite IH by lia. destruct ops as [|o2 ops]; cbn [length]; lia.
Qed.

Lemma filter_all_true {A} (f : A -> bool) (l : list A) :
  (forall x, In x l -> f x = true) -> filter f l = l.
Proof. exact (CodecBase.filter_all f l). Qed.

Section ConcDurable.
  Variable H : bytes -> bytes.
  Hypothesis H_len : forall b, length (H b) = 32%nat.
  Hypothesis H_byte : forall b, Forall (fun x => x < 256) (H b).
  Variable cfg : config.
  Hypothesis n_pos : 0 < c_n cfg.
  Let cmp := key_cmp (c_kt cfg).
  Variable bad : bytes -> bool.
  Variable ckbad : bool.
  Variable thr0 : list (nat * list ccall).
  Hypothesis thr0_nodup : NoDup (map fst thr0).
  Variable cas0 : smap bytes.
  Hypothesis cas0_sorted : sorted lex_cmp cas0.
  Hypothesis cas0_named : forall h c, In (h, c) cas0 -> H c = h.
  Hypothesis NoCollideC :
    forall a b, In a (allc thr0 cas0) -> In b (allc thr0 cas0) -> H a = H b -> a = b.
  Variable sched : list nat.

  (* a lemma about an ordered key type, at the order of the configuration; a theorem about the
     runs of the programs, at this run *)
  Local Notation at_cmp L :=
    (L cmp (key_cmp_refl _) (key_cmp_eq _) (key_cmp_antisym _) (key_cmp_trans _)) (only parsing).
  Local Notation at_run L :=
    (at_cmp (L H) (c_n cfg) bad ckbad thr0 thr0_nodup cas0 cas0_sorted cas0_named NoCollideC sched)
    (only parsing).
  Local Notation stN := (st H cmp (c_n cfg) bad ckbad thr0 cas0 sched).
  Local Notation wlogN := (wlog H cmp (c_n cfg) bad ckbad thr0 cas0 sched).

  (* the operations logged up to position n, in log order *)
  Definition logged (n : nat) : list rawop := map wl_o (wlogN n).
  (* the records on disk: one per logged operation, versions 1, 2, ... *)
  Definition records (n : nat) : list (N * bytes) := enc_from 1 (logged n).

  Lemma ops_resp_ok : forall ops m, ops_resp cmp m ops -> ops_ok cfg m ops.
  Proof.
    induction ops as [|o ops IH]; intros m R; [exact I|].
    cbn [ops_resp] in R. destruct R as [R1 R2]. cbn [ops_ok]. split.
    - destruct o; exact R1.
    - apply IH. destruct o; exact R2.
  Qed.

  Lemma kstep_agree : forall ops m, fold_left (DiskInv.kstep cfg) ops m = fold_left (ConcLin.kstep cmp) ops m.
  Proof.
    induction ops as [|o ops IH]; intros m; [reflexivity|]. cbn [fold_left].
    rewrite IH. destruct o; reflexivity.
  Qed.

  Lemma st_conc_inv q : ConcInv H cmp bad thr0 cas0 (stN q).
  Proof using thr0_nodup cas0_sorted cas0_named NoCollideC.
    apply (at_cmp (reachable_inv H) (c_n cfg) bad ckbad thr0 thr0_nodup cas0 cas0_sorted cas0_named NoCollideC).
    eexists. reflexivity.
  Qed.

  Theorem C02_concurrent_log_replays n : (n <= NN sched)%nat ->
    Forall (op_good cfg) (logged n) ->
    exists st',
      replay_records cfg 0 (records n) empty_istate 0 0
        = Ok (st', N.of_nat (length (logged n)), N.of_nat (length (logged n))) /\
      km st' = km (g_idx (stN n)) /\ rc st' = rc (g_idx (stN n)) /\
      ub st' = ub (g_idx (stN n)) /\ tb st' = tb (g_idx (stN n)) /\
      g_nextv (stN n) = N.of_nat (length (logged n)) + 1.
  Proof.
    intros Hn Good.
    assert (Fl : filter (fun r : N * bytes => 0 <? fst r) (records n) = enc_from 1 (logged n)).
    { apply filter_all_true. intros r Ir. apply enc_from_bound in Ir. apply N.ltb_lt. lia. }
    pose proof (ops_resp_ok _ _ (at_run wlog_respects n Hn)) as Ok0.
    destruct (replay_records_ok H H_len H_byte cfg n_pos 0 (records n) 1 (logged n) empty_istate 0 0
                Fl Good (C12_empty cmp) Ok0) as (st' & E & Iv & K & _ & _).
    exists st'.
    assert (Hhi : fold_left N.max (map fst (records n)) 0 = N.of_nat (length (logged n))).
    { unfold records. rewrite enc_from_max by lia. destruct (logged n); cbn [length]; lia. }
    rewrite Hhi, N.add_0_l in E. split; [exact E|].
    assert (Kn : km st' = km (g_idx (stN n))).
    { rewrite K. cbn [km empty_istate]. rewrite kstep_agree.
      symmetry. exact (at_run C05_km_is_fold_of_writes n Hn). }
    pose proof (ci_idx _ _ _ _ _ _ (st_conc_inv n)) as In.
    destruct (IdxInv_unique cfg st' (g_idx (stN n)) Iv In Kn) as (R1 & R2 & R3).
    split; [exact Kn|]. split; [exact R1|]. split; [exact R2|]. split; [exact R3|].
    rewrite (at_run wlog_versions n Hn). unfold logged. rewrite map_length. lia.
  Qed.

  (* C03 for concurrent use: a kill at ANY position n of ANY schedule.  The disk then holds the
     records of the write log up to n (the WLockW step appends and applies in one critical
     section; nothing else touches the log) and the blobs g_cas.  Recovery replays them into the
     key map of position n; every recovered key has its blob, complete, on disk; every writing call
     that had returned before the kill is in the replayed log, each call at most once
     (ConcLin.wlog_key_unique), and every entry of the log is the write of a call that was taken
     before the kill (ConcLin.wlog_entry_call): acknowledged operations survive, in-flight ones
     are all-or-nothing, nothing else appears. *)
  Theorem C03_concurrent_kill_any_position n : (n <= NN sched)%nat ->
    Forall (op_good cfg) (logged n) ->
    exists st',
      replay_records cfg 0 (records n) empty_istate 0 0
        = Ok (st', N.of_nat (length (logged n)), N.of_nat (length (logged n))) /\
      km st' = km (g_idx (stN n)) /\
      (forall k it, sm_get cmp (km st') k = Some it ->
         exists c, sm_get lex_cmp (g_cas (stN n)) (ihash it) = Some c /\ H c = ihash it /\ len c = isize it) /\
      (forall t ts j c r,
         tst H cmp (c_n cfg) bad ckbad thr0 cas0 sched n t = Some ts ->
         nth_error (prog thr0 cas0 t) j = Some c -> nth_error (t_res ts) j = Some r ->
         writes c r = true -> exists p o, In (mkWl p t j o) (wlogN n)).
  Proof.
    intros Hn Good.
    destruct (C02_concurrent_log_replays n Hn Good) as (st' & E & K & _).
    exists st'. split; [exact E|]. split; [exact K|]. split.
    - intros k it G. rewrite K in G.
      exact (at_cmp (inv_no_dangling H) bad thr0 cas0 _ k it (st_conc_inv n) G).
    - intros t ts j c r Ht Hc Hr W.
      destruct (at_run C05_calls_linearizable n t ts j c r Hn Ht Hc Hr)
        as (s & e & q & _ & _ & _ & _ & _ & _ & _ & L).
      destruct (L W) as (p & o & _ & I). exists p, o. exact I.
  Qed.

  (* [Forall op_good (logged n)] from a hypothesis on the PROGRAMS (every key that is put is
     accepted by the key type and fits a u32 length, every content fits a u64 length) and one on
     the run (the store never holds 2^32 keys: a remove record counts its keys in a u32), which
     kmap_small derives from the number of puts in the programs *)
  Definition key_good (k : bytes) : Prop := key_fits k /\ key_valid (c_kt cfg) k = true.
  Hypothesis prog_good : forall t k x, In (KPut k x) (prog thr0 cas0 t) -> key_good k /\ len x < 2 ^ 64.

  Lemma fold_keys (ops : list rawop) : forall (m : smap item) e,
    In e (fold_left (ConcLin.kstep cmp) ops m) ->
    In e m \/ exists h sz, In (RPut (fst e) h sz) ops.
  Proof.
    induction ops as [|o ops IH]; intros m e I; [left; exact I|]. cbn [fold_left] in I.
    destruct (IH _ _ I) as [I1|(h & sz & I1)].
    - destruct o as [k h sz|ks]; cbn [ConcLin.kstep] in I1.
      + apply In_sm_ins in I1. destruct I1 as [->|I1]; [|left; exact I1].
        right. exists h, sz. left. reflexivity.
      + left. exact (In_fold_del cmp ks _ _ I1).
    - right. exists h, sz. right. exact I1.
  Qed.

  Lemma put_entries_good n : (n <= NN sched)%nat ->
    forall k h sz, In (RPut k h sz) (logged n) -> key_good k /\ hash_ok h /\ sz < 2 ^ 64.
  Proof.
    intros Hn k h sz I. unfold logged in I. apply in_map_iff in I. destruct I as (e & Eo & Ie).
    destruct (at_run wlog_entry_call n e Hn Ie) as (c & s & Hc & _ & _ & Op & _).
    rewrite Eo in Op. cbn [op_of_call] in Op. destruct Op as (x & -> & -> & ->).
    apply nth_error_In in Hc. destruct (prog_good _ _ _ Hc) as [G L].
    split; [exact G|]. split; [apply H_len|exact L].
  Qed.

  Lemma kmap_keys_good q : (q <= NN sched)%nat ->
    forall e, In e (kmap H cmp (c_n cfg) bad ckbad thr0 cas0 sched q) -> key_good (fst e).
  Proof.
    intros Hq e I. rewrite (at_run C05_km_is_fold_of_writes q Hq) in I.
    destruct (fold_keys _ _ _ I) as [[]|(h & sz & I1)].
    exact (proj1 (put_entries_good q Hq _ _ _ I1)).
  Qed.

  (* the store never holds more keys than the programs put *)
  Lemma kmap_small q : N.of_nat (length (contents thr0)) < 2 ^ 32 ->
    N.of_nat (length (kmap H cmp (c_n cfg) bad ckbad thr0 cas0 sched q)) < 2 ^ 32.
  Proof using.
    intros Sm.
    assert (KB : KmBound thr0 (stN q)).
    { apply (km_bound H cmp (c_n cfg) bad ckbad thr0 cas0). eexists. reflexivity. }
    unfold KmBound, B in KB. unfold kmap. clear - Sm KB. lia.
  Qed.

  Theorem logged_good n : (n <= NN sched)%nat ->
    (forall q, (q <= n)%nat -> N.of_nat (length (kmap H cmp (c_n cfg) bad ckbad thr0 cas0 sched q)) < 2 ^ 32) ->
    Forall (op_good cfg) (logged n).
  Proof.
    intros Hn Small. apply Forall_forall. intros o Io.
    destruct o as [k h sz|ks].
    - destruct (put_entries_good n Hn _ _ _ Io) as ((F & V) & Hh & L).
      split; [split; [exact F|split; [exact Hh|exact L]]|].
      constructor; [exact V|constructor].
    - unfold logged in Io. apply in_map_iff in Io. destruct Io as (e & Eo & Ie).
      destruct (at_run wlog_entry_call n e Hn Ie) as (c & s & _ & _ & _ & Op & _).
      rewrite Eo in Op. cbn [op_of_call] in Op. destruct Op as (q & r & Bq & _ & Sc).
      pose proof (wlog_lt _ _ _ _ _ _ _ _ _ _ Ie) as Lp. cbn beta in Lp.
      assert (Hq : (q <= n)%nat) by lia.
      pose proof (Small q Hq) as Sm. pose proof (kmap_keys_good q ltac:(lia)) as Good.
      set (m := kmap H cmp (c_n cfg) bad ckbad thr0 cas0 sched q) in *.
      assert (Keys : forall k, In k ks -> exists it, In (k, it) m).
      { destruct Sc as [(k0 & _ & -> & _ & G)|(lo & hi & _ & -> & _ & _)].
        - intros k [<-|[]]. destruct (sm_get cmp m k0) as [it|] eqn:E; [|destruct (G E)].
          exists it. exact (at_cmp get_some_In _ _ _ E).
        - intros k Ik. unfold keys_in in Ik. apply in_map_iff in Ik. destruct Ik as ([k1 it] & <- & If).
          apply filter_In in If. exists it. exact (proj1 If). }
      assert (Len : (length ks <= length m)%nat).
      { destruct Sc as [(k0 & _ & -> & _ & G)|(lo & hi & _ & -> & _ & _)].
        - destruct (Keys k0 (or_introl eq_refl)) as (it & Iit).
          destruct m; [destruct Iit|cbn [length]; lia].
        - apply keys_in_len. }
      split; [split; [lia|]|]; apply Forall_forall; intros k Ik;
        destruct (Keys k Ik) as (it & Iit); apply (Good _ Iit).
  Qed.

  (* C02_concurrent_log_replays with [Forall op_good] discharged by logged_good: what is assumed
     is prog_good and the bound on the number of keys at every position up to n *)
  Corollary C03_concurrent_kill_any_position_programs n : (n <= NN sched)%nat ->
    (forall q, (q <= n)%nat -> N.of_nat (length (kmap H cmp (c_n cfg) bad ckbad thr0 cas0 sched q)) < 2 ^ 32) ->
    exists st',
      replay_records cfg 0 (records n) empty_istate 0 0
        = Ok (st', N.of_nat (length (logged n)), N.of_nat (length (logged n))) /\
      km st' = km (g_idx (stN n)) /\ rc st' = rc (g_idx (stN n)) /\
      g_nextv (stN n) = N.of_nat (length (logged n)) + 1.
  Proof.
    intros Hn Small.
    destruct (C02_concurrent_log_replays n Hn (logged_good n Hn Small)) as (st' & E & K & R & _ & _ & V).
    exists st'. repeat split; assumption.
  Qed.
End ConcDurable.

(* the hypotheses are satisfiable: the reader/writer program of ConcLin.v (two overwriting
   puts racing a get) under its first schedule; two records are logged and replay to the final
   index *)
Definition cfg_ex : config := mkConfig KBytes 100 true false true false false.

Lemma toyH_len b : length (toyH b) = 32%nat.
Proof. apply repeat_length. Qed.
Lemma toyH_byte b : Forall (fun x => x < 256) (toyH b).
Proof. apply Forall_forall. intros x Ix. apply repeat_spec in Ix. subst x. apply N.mod_lt. discriminate. Qed.

Example logged_ex :
  logged toyH cfg_ex nobad false progR [] schedR1 (NN schedR1)
  = [RPut [1] (toyH [10]) 1; RPut [1] (toyH [20; 21]) 2].
Proof. vm_compute. reflexivity. Qed.

Example C02_conc_ex :
  exists st',
    replay_records cfg_ex 0 (records toyH cfg_ex nobad false progR [] schedR1 (NN schedR1)) empty_istate 0 0
      = Ok (st', 2, 2) /\
    km st' = [([1], mkItem (toyH [20; 21]) 2)] /\
    g_nextv (st toyH lex_cmp 100 nobad false progR [] schedR1 (NN schedR1)) = 3.
Proof.
  destruct (C02_concurrent_log_replays toyH toyH_len toyH_byte cfg_ex eq_refl nobad false progR progR_nodup []
              ltac:(constructor) ltac:(intros ? ? []) progR_nocollide schedR1 (NN schedR1) (le_n _))
    as (st' & E & K & _ & _ & _ & V).
  - rewrite logged_ex. repeat constructor; cbn; try lia; reflexivity.
  - exists st'. rewrite logged_ex in E, V. split; [exact E|]. split; [|exact V].
    rewrite K. vm_compute. reflexivity.
Qed.

(* the program-level hypotheses are satisfiable as well *)
Example progR_good : forall t k x, In (KPut k x) (prog progR [] t) -> key_good cfg_ex k /\ len x < 2 ^ 64.
Proof.
  intros t k x I. destruct t as [|[|[|t]]]; vm_compute in I;
    repeat match goal with
           | Hx : _ \/ _ |- _ => destruct Hx
           | Hx : False |- _ => destruct Hx
           | Hx : KPut _ _ = KPut _ _ |- _ => injection Hx as <- <-
           | Hx : _ = KPut _ _ |- _ => discriminate Hx
           end;
    (split; [split; [unfold key_fits, len; cbn; lia|reflexivity]|unfold len; cbn; lia]).
Qed.

Example C03_conc_programs_ex :
  exists st',
    replay_records cfg_ex 0 (records toyH cfg_ex nobad false progR [] schedR1 (NN schedR1)) empty_istate 0 0
      = Ok (st', 2, 2).
Proof.
  destruct (C03_concurrent_kill_any_position_programs toyH toyH_len toyH_byte cfg_ex eq_refl nobad false progR
              progR_nodup [] ltac:(constructor) ltac:(intros ? ? []) progR_nocollide schedR1 progR_good
              (NN schedR1) (le_n _)) as (st' & E & _).
  - intros q _. apply kmap_small. reflexivity.
  - rewrite logged_ex in E. exists st'. exact E.
Qed.
