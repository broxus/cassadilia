(* PowerLossOpen.v -- power-loss durability (C09), part 3: recovery itself.  From a state of the
   sync-aware invariant, every intermediate filesystem of open_with_recover survives power loss
   for every victim set (recovery writes the settings file and the snapshot through
   atomic_write -- synced before the rename -- and creates the next segment empty), and the
   recovered handle is again sync-clean: Inv' and SyncedFor.  Also: power loss at rest, and
   power loss during recovery, to any depth of nesting. *)
From Cas Require Import History.
From CasProofs Require Import Recover CrashInv CrashOpen PowerLoss PowerLossOps.
Open Scope N_scope.


Section OpenTriples.
  Variable H : bytes -> bytes.
  Variable cfg : config.
  Variable C : Ctx.
  Hypothesis Tmp : forall p, tmp_path p -> ~ cR C p /\ cJp C p.

  Local Notation HR := (HR C).
  Local Notation Good := (SynOn (cR C)).

  Lemma hr_load_tail : forall pre s st0, HR Good (load_tail H cfg pre s st0) (fun _ => Good).
  Proof.
    intros pre s st0. unfold load_tail. cbv zeta.
    destruct (replay_segments H cfg (lpv st0) s (sort_ids (wal_ids s)) st0 (lpv st0) 0)
      as [[[st hi] cnt]|e]; [|apply hr_ret; auto].
    apply hr_seq; [|intros _|auto].
    - destruct (fget s (PWal ((hi + 1 - 1) / c_n cfg))); [apply hr_ret; auto|].
      apply hr_seq; [apply hr_call_mono; exact I|intros _; apply hr_call_mono; exact I|auto].
    - destruct (0 <? cnt); [|apply hr_ret; auto].
      eapply hr_bind; [apply (hr_checkpoint_inner cfg C Tmp)|].
      intros [[u2|e2] m']; cbv beta iota; apply hr_ret; auto.
  Qed.

  Lemma hr_index_load : forall pre, HR Good (index_load H cfg pre) (fun _ => Good).
  Proof.
    intros pre w F. rewrite index_load_split.
    destruct (loaded_of cfg (wfs w)) as [st0|e].
    - now apply hr_load_tail.
    - exact (hr_ret C Good (Err e) (fun _ => Good) (fun x Y => Y) w F).
  Qed.

  Lemma hr_open : HR Good (open_with_recover H cfg) (fun _ => Good).
  Proof.
    unfold open_with_recover.
    apply hr_seq; [apply hr_mkdir_p|intros _|auto].
    apply hr_seq; [apply hr_mkdir_p|intros _|auto].
    apply hr_seq; [apply hr_call_mono; exact I|intros _|auto].
    eapply hr_bind; [apply hr_read_file|]. intros sf. cbv beta.
    apply hr_seq; [|intros pre|auto].
    - destruct sf as [data|].
      + destruct (dec_settings data) as [[[ver pre] n]|]; [|apply hr_ret; auto].
        destruct (negb (ver =? CURRENT_DB_VERSION)); [apply hr_ret; auto|].
        destruct (negb (n =? c_n cfg)); apply hr_ret; auto.
      + apply hr_seq; [|intros _|auto].
        * destruct (c_pre cfg); [apply hr_mkdirs_pre|apply hr_ret; auto].
        * apply hr_seq; [apply (hr_atomic_write C Tmp); exact I|intros _; apply hr_ret; auto|auto].
    - apply hr_seq; [apply hr_index_load|intros m|auto].
      eapply hr_bind; [apply hr_get_fs|]. intros s. apply hr_ret. auto.
  Qed.
End OpenTriples.

Section PowerOpen.
  Variable H : bytes -> bytes.
  Hypothesis H_len : forall b, length (H b) = 32%nat.
  Hypothesis H_byte : forall b, Forall (fun x => x < 256) (H b).
  Variable cfg : config.
  Hypothesis n_pos : 0 < c_n cfg.
  Let cmp := key_cmp (c_kt cfg).

  Local Notation DX L := (L H H_len H_byte cfg n_pos) (only parsing).
  Local Notation Inv' := (Inv' H cfg).
  Local Notation RestB := (RestB H cfg).
  Local Notation SyncedFor := (SyncedFor H).
  Local Notation RestS := (RestS H cfg).
  Local Notation RestSB := (RestSB H cfg).
  Local Notation PLD := (PLD H cfg).
  Local Notation PL1 := (PL1 H cfg).

  (* the sync status along a recovery: holds in both sync modes, recovery always syncs what it
     writes *)
  Lemma open_sync : forall B sg w a w', wfault w = None -> open_with_recover H cfg w = (a, w') ->
    Along (fun x => RestB B x sg) w w' -> SyncedFor sg (wfs w) ->
    Walk (PLD B sg sg) w w' /\ SyncedFor sg (wfs w').
  Proof.
    intros B sg w a w' F E K Y.
    exact (sync_same H cfg B sg _ w a w' (hr_open H cfg _ (ctx_db_tmp H cfg B sg sg)) F E K Y).
  Qed.

  (* recovery from the sync-aware invariant: succeeds, every intermediate filesystem survives
     power loss (any victim set), the handle is again sync-clean *)
  Theorem open_powerloss_b : forall B s sg w,
    RestSB B s sg -> 1 <= B -> wfault w = None -> wfs w = s ->
    exists m' os w', open_with_recover H cfg w = (Ok (m', os), w') /\ wfault w' = None /\
      Inv' m' (wfs w') sg /\ SyncedFor sg (wfs w') /\ writer (mwal m') = None /\
      nextv (mwal m') <= B /\ Walk (PLD B sg sg) w w'.
  Proof.
    intros B s sg w [RB Y] B1 F Ws.
    destruct (DX rest_open_b B s sg w RB B1 F Ws) as (m' & os & w' & E & F' & IV & Wr & Nv & K).
    subst s. destruct (open_sync B sg w _ w' F E K Y) as [KP Y'].
    exists m', os, w'. split; [exact E|]. split; [exact F'|]. split; [exact IV|]. split; [exact Y'|].
    split; [exact Wr|]. split; [exact Nv|exact KP].
  Qed.

  (* the same as a statement about every intermediate filesystem of the open (Along) *)
  Theorem open_powerloss : forall s sg w, RestS s sg -> wfault w = None -> wfs w = s ->
    exists m' os w', open_with_recover H cfg w = (Ok (m', os), w') /\ Along (PL1 sg) w w'.
  Proof.
    intros s sg w [R Y] F Ws. destruct (rest_restb H cfg n_pos _ _ R) as (B & B1 & RB).
    destruct (open_powerloss_b B s sg w (conj RB Y) B1 F Ws)
      as (m' & os & w' & E & _ & _ & _ & _ & _ & K).
    exists m', os, w'. split; [exact E|exact (walk_pld_along1 H cfg _ _ _ _ K)].
  Qed.

  (* reopening a state of the invariant; if its relevant files are synced, so are those of the
     recovered state *)
  Lemma reopen_b : forall B y sg, RestB B y sg -> 1 <= B ->
    exists m2 os2 w2, open_with_recover H cfg (init_world y None) = (Ok (m2, os2), w2) /\
      wfault w2 = None /\ Inv' m2 (wfs w2) sg /\ nextv (mwal m2) <= B /\
      (SyncedFor sg y -> SyncedFor sg (wfs w2)).
  Proof.
    intros B y sg RB B1.
    destruct (DX rest_open_b B y sg (init_world y None) RB B1 eq_refl eq_refl)
      as (m2 & os2 & w2 & E & F2 & IV & _ & Nv & K).
    exists m2, os2, w2. split; [exact E|]. split; [exact F2|]. split; [exact IV|]. split; [exact Nv|].
    intros Y. exact (proj2 (open_sync B sg (init_world y None) _ w2 eq_refl E K Y)).
  Qed.

  Theorem loss_at_rest : forall x sg victims, RestS x sg ->
    exists m' os w', open_with_recover H cfg (init_world (lose victims x) None) = (Ok (m', os), w') /\
      Inv' m' (wfs w') sg /\ SyncedFor sg (wfs w').
  Proof.
    intros x sg v RS. destruct (lose_restS H cfg n_pos x sg RS v) as [R Y].
    destruct (rest_restb H cfg n_pos _ _ R) as (B & B1 & RB).
    destruct (reopen_b B _ sg RB B1) as (m' & os & w' & E & _ & IV & _ & Y').
    exists m', os, w'. split; [exact E|]. split; [exact IV|exact (Y' Y)].
  Qed.

  (* power loss during recovery: the process is killed after n calls of the recovery and the
     files in [victims] lose their unsynced bytes *)
  Definition loss_open (n : nat) (victims : path -> bool) (x : fs) : fs :=
    lose victims (crash_open H cfg n x).

  Lemma recovery_pld : forall B n x sg, RestSB B x sg -> 1 <= B -> PLD B sg sg (crash_open H cfg n x).
  Proof.
    intros B n x sg RS B1. unfold crash_open.
    destruct (open_powerloss_b B x sg (init_world x None) RS B1 eq_refl eq_refl)
      as (m' & os & w' & E & _ & _ & _ & _ & _ & K).
    rewrite E. cbn [snd]. exact (along_crash cfg n_pos (PLD B sg sg) x w' n (walk_along _ _ _ K)).
  Qed.

  Theorem loss_open_restb : forall B n v x sg, RestSB B x sg -> 1 <= B ->
    RestB B (loss_open n v x) sg.
  Proof.
    intros B n v x sg RS B1. exact (proj1 (pld_same H cfg _ _ _ (recovery_pld B n x sg RS B1)) v).
  Qed.

  (* when the victims include every segment file, the state after a power loss during
     recovery is again a state of the sync-aware invariant *)
  Theorem loss_open_restsb : forall B n v x sg, RestSB B x sg -> 1 <= B -> wal_victims v ->
    RestSB B (loss_open n v x) sg.
  Proof.
    intros B n v x sg RS B1. exact (proj2 (pld_same H cfg _ _ _ (recovery_pld B n x sg RS B1)) v).
  Qed.

  Theorem loss_open_then_open : forall n v x sg, RestS x sg ->
    exists m' os w', open_with_recover H cfg (init_world (loss_open n v x) None) = (Ok (m', os), w') /\
      Inv' m' (wfs w') sg.
  Proof.
    intros n v x sg [R Y]. destruct (rest_restb H cfg n_pos _ _ R) as (B & B1 & RB).
    destruct (reopen_b B _ sg (loss_open_restb B n v x sg (conj RB Y) B1) B1)
      as (m' & os & w' & E & _ & IV & _).
    now exists m', os, w'.
  Qed.

  (* the empty directory is a state of the sync-aware invariant, for either choice of
     pre_create_cas_dirs *)
  Lemma restsb_empty : c_n cfg < 2 ^ 64 -> forall B, RestSB B empty_fs [].
  Proof.
    intros Nfit B. split; [exact (restb_empty H cfg Nfit B)|].
    assert (E : forall p, syn empty_fs p) by (intros p f G; discriminate).
    split; [apply E|]. split; [apply E|]. split; intros; apply E.
  Qed.

  (* power loss during the FIRST open of an empty directory, after any number of its calls
     (also in the middle of the mkdir loop of the fan-out tree when pre_create_cas_dirs = true),
     any victim set: the next open succeeds with a handle for the empty map *)
  Theorem first_open_powerloss : c_n cfg < 2 ^ 64 -> forall n v,
    exists m' os w',
      open_with_recover H cfg (init_world (loss_open n v empty_fs) None) = (Ok (m', os), w') /\
      Inv' m' (wfs w') [].
  Proof.
    intros Nfit n v.
    exact (loss_open_then_open n v empty_fs [] (restsb_rests H cfg 1 _ _ (restsb_empty Nfit 1))).
  Qed.
End PowerOpen.

Print Assumptions open_powerloss_b.
Print Assumptions open_powerloss.
Print Assumptions loss_at_rest.
Print Assumptions loss_open_then_open.
Print Assumptions first_open_powerloss.
