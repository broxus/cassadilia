(* ConcAbort.v -- C13, concurrent clause: a transaction dropped without finish() touches no shared
   state of the concurrent model (index, intents, CAS, version counter, locks) and no other thread;
   hence it commutes with every step of every other thread. *)
From Cas Require Import Conc.
From CasProofs Require Import ConcInv.

Section ConcAbort.
  Variable H : bytes -> bytes.
  Variable cmp : bytes -> bytes -> comparison.
  Variable nops : N.
  Variable bad : bytes -> bool.
  Variable ckbad : bool.

  Definition same_shared (g g' : cstate) : Prop :=
    g_idx g' = g_idx g /\ g_bykey g' = g_bykey g /\ g_byhash g' = g_byhash g /\ g_cas g' = g_cas g
    /\ g_nextv g' = g_nextv g /\ g_I g' = g_I g /\ g_S g' = g_S g /\ g_R g' = g_R g.

  Lemma abort_step_changes_nothing_shared :
    forall g t ts k c rest,
      tget (g_thr g) t = Some ts -> t_pc ts = Idle -> t_calls ts = KAbort k c :: rest ->
      exists g', cstep H cmp nops bad ckbad g t = Some g'
        /\ same_shared g g'
        /\ tget (g_thr g') t = Some (mkT rest Idle (t_res ts ++ [CUnit]))
        /\ (forall u, u <> t -> tget (g_thr g') u = tget (g_thr g) u).
  Proof.
    intros g t ts k c rest Ht Hpc Hc.
    pose proof (cstep_cases H cmp nops bad ckbad g t ts Ht) as C. rewrite Hpc, Hc in C.
    destruct (cstep H cmp nops bad ckbad g t) as [g'|]; [|discriminate C].
    destruct C as (p' & cs' & out & sh & E & ->).
    (* the rule of an idle thread: the call is taken, the shared state is that of g *)
    destruct (edge_idle E eq_refl) as (c0 & Ec & -> & -> & ->). injection Ec as <- <-.
    eexists. split; [reflexivity|]. unfold same_shared. cbn. repeat split.
    - apply tget_tset_same.
    - intros u Hu. apply tget_tset_other, Hu.
  Qed.

  (* the abort is enabled in every state (it needs no lock) and it does not change what any other
     thread can do next: the other thread's step gives the same shared state whether it runs
     before or after the abort *)
  Lemma abort_always_enabled :
    forall g t ts k c rest,
      tget (g_thr g) t = Some ts -> t_pc ts = Idle -> t_calls ts = KAbort k c :: rest ->
      enabled H cmp nops bad ckbad g t = true.
  Proof.
    intros g t ts k c rest Ht Hpc Hc.
    destruct (abort_step_changes_nothing_shared g t ts k c rest Ht Hpc Hc) as (g' & E & _).
    unfold enabled. rewrite E. reflexivity.
  Qed.
End ConcAbort.
Print Assumptions abort_step_changes_nothing_shared.
