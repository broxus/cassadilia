(* WorldRel.v -- what a single do_call does in any world (call_run), the programs of
   theories/Store.v as a syntactic class, and two facts about every member of it:
     IsProg C m : m is built from ret, bind, get_fs, read_file and do_call c with C c (the case
                  analyses and recursions of the programs are those of Coq); each program is
                  walked once, in a lemma prog_<program> that asks of C the calls the program
                  may issue; prog_weaken enlarges C;
     (1) Resp m : in fault-free worlds the result of m and the filesystem it leaves depend on the
         filesystem only -- never on the recorded trace or the call counter (resp_prog, any C);
     (2) Pres P m : m preserves the filesystem predicate P (any fault plan), given that every call
         it may issue does (pres_prog, C := call_keeps P).
   The resp_ and pres_ lemmas are the instances, for open_with_recover / open_store, every API
   operation and whole histories (run_ops).  At the end, two frame facts about single calls: which
   calls leave the content of a path alone (call_avoids), and that no call removes a directory. *)
From Cas Require Import History.
From CasProofs Require Import StoreFS.
Open Scope N_scope.

(* a single call; Resp and Pres *)
Definition weq (w1 w2 : world) : Prop :=
  wfs w1 = wfs w2 /\ wfault w1 = None /\ wfault w2 = None.

Definition Resp {A} (m : M A) : Prop :=
  forall w1 w2, weq w1 w2 -> fst (m w1) = fst (m w2) /\ weq (snd (m w1)) (snd (m w2)).

Lemma weq_refl : forall w, wfault w = None -> weq w w.
Proof. intros w F. repeat split; assumption. Qed.

Lemma resp_fault_free : forall {A} (k : M A) w, Resp k -> wfault w = None ->
  wfault (snd (k w)) = None.
Proof. intros A k w R F. exact (proj1 (proj2 (proj2 (R w w (weq_refl w F))))). Qed.

Lemma resp_do_call : forall c, Resp (do_call c).
Proof.
  intros c w1 w2 (E & F1 & F2). unfold do_call. rewrite <- E, F1, F2.
  destruct (apply_call c (wfs w1)) as [s'|e]; cbn [fst snd].
  - split; [reflexivity|]. repeat split.
  - split; [reflexivity|]. repeat split; assumption.
Qed.

Lemma resp_get_fs : Resp get_fs.
Proof. intros w1 w2 E. unfold get_fs. cbn [fst snd]. split; [exact (proj1 E)|exact E]. Qed.

Lemma resp_read_file : forall p, Resp (read_file p).
Proof.
  intros p w1 w2 E. unfold read_file. cbn [fst snd]. split; [|exact E]. now rewrite (proj1 E).
Qed.

(* whatever a single call does, under any fault plan: refused by the filesystem (its own errno,
   nothing is counted), carried out, or hit by the injected fault (EIO, no effect) *)
Inductive call_run (c : call) (w : world) : res errno unit * world -> Prop :=
| run_refused : forall e, apply_call c (wfs w) = Err e -> call_run c w (Err e, w)
| run_done : forall s', apply_call c (wfs w) = Ok s' -> wfault w <> Some (wcount w) ->
    call_run c w (Ok tt, mkWorld s' (TCall c :: wtrace w) (S (wcount w)) (wfault w))
| run_hit : forall s', apply_call c (wfs w) = Ok s' -> wfault w = Some (wcount w) ->
    call_run c w (Err EIO, mkWorld (wfs w) (TFault c :: wtrace w) (S (wcount w)) (wfault w)).

Lemma do_call_run : forall c w, call_run c w (do_call c w).
Proof.
  intros c w. unfold do_call. destruct (apply_call c (wfs w)) as [s'|e] eqn:E; [|now constructor].
  destruct (wfault w) as [k|] eqn:F; [destruct (Nat.eqb_spec k (wcount w)) as [->|N]|]; rewrite <- F.
  - apply (run_hit _ _ s'); [exact E|exact F].
  - apply run_done; [exact E|congruence].
  - apply run_done; [exact E|congruence].
Qed.

Definition Pres (P : fs -> Prop) {A} (m : M A) : Prop :=
  forall w, P (wfs w) -> P (wfs (snd (m w))).

Lemma pres_elim : forall (P : fs -> Prop) {A} (m : M A) w a w',
  Pres P m -> m w = (a, w') -> P (wfs w) -> P (wfs w').
Proof. intros P A m w a w' Pm E X. specialize (Pm w X). now rewrite E in Pm. Qed.

Definition call_keeps (P : fs -> Prop) (c : call) : Prop :=
  forall s s', P s -> apply_call c s = Ok s' -> P s'.

Lemma pres_ret : forall P {A} (a : A), Pres P (ret a).
Proof. intros P A a w X. exact X. Qed.

Lemma pres_bind : forall P {A B} (m : M A) (f : A -> M B),
  Pres P m -> (forall a, Pres P (f a)) -> Pres P (bind m f).
Proof.
  intros P A B m f Pm Pf w X. unfold bind. specialize (Pm w X).
  destruct (m w) as [a w']. cbn [snd] in Pm. exact (Pf a w' Pm).
Qed.

Lemma pres_do_call : forall P c, call_keeps P c -> Pres P (do_call c).
Proof.
  intros P c K w X. destruct (do_call_run c w) as [e _|s' E _|s' _ _]; cbn [snd wfs];
    [exact X|exact (K _ _ X E)|exact X].
Qed.

Lemma pres_get_fs : forall P, Pres P get_fs.
Proof. intros P w X. exact X. Qed.

Lemma pres_read_file : forall P p, Pres P (read_file p).
Proof. intros P p w X. exact X. Qed.

(* a successful do_call really applied the call (any fault plan) *)
Lemma do_call_ok_inv : forall c w u w', do_call c w = (Ok u, w') ->
  apply_call c (wfs w) = Ok (wfs w').
Proof.
  intros c w u w'. destruct (do_call_run c w) as [e _|s' E _|s' _ _]; intros X; inversion X.
  exact E.
Qed.

(* the class of programs *)
Inductive IsProg (C : call -> Prop) : forall A, M A -> Prop :=
| prog_ret : forall A (a : A), IsProg C A (ret a)
| prog_bind : forall A B (m : M A) (f : A -> M B),
    IsProg C A m -> (forall a, IsProg C B (f a)) -> IsProg C B (bind m f)
| prog_call : forall c, C c -> IsProg C _ (do_call c)
| prog_get_fs : IsProg C _ get_fs
| prog_read_file : forall p, IsProg C _ (read_file p).
Arguments IsProg C {A} m.

Lemma resp_prog : forall C {A} (m : M A), IsProg C m -> Resp m.
Proof.
  intros C A m Pm. induction Pm as [A a|A B m f _ Rm _ Rf|c _| |p].
  - intros w1 w2 E. split; [reflexivity|exact E].
  - intros w1 w2 E. unfold bind. destruct (Rm w1 w2 E) as [E1 E2].
    destruct (m w1) as [a1 w1'], (m w2) as [a2 w2']. cbn [fst snd] in E1, E2. subst a2.
    exact (Rf a1 w1' w2' E2).
  - apply resp_do_call.
  - exact resp_get_fs.
  - apply resp_read_file.
Qed.

Lemma pres_prog : forall P {A} (m : M A), IsProg (call_keeps P) m -> Pres P m.
Proof.
  intros P A m Pm. induction Pm as [A a|A B m f _ Rm _ Rf|c K| |p].
  - apply pres_ret.
  - now apply pres_bind.
  - now apply pres_do_call.
  - apply pres_get_fs.
  - apply pres_read_file.
Qed.

Lemma prog_weaken : forall (C C' : call -> Prop) {A} (m : M A),
  (forall c, C c -> C' c) -> IsProg C m -> IsProg C' m.
Proof.
  intros C C' A m I Pm. induction Pm; [apply prog_ret|now apply prog_bind|apply prog_call; auto
                                      |apply prog_get_fs|apply prog_read_file].
Qed.

Create HintDb prog.
#[export] Hint Resolve prog_get_fs prog_read_file : prog.

(* [prog leaf]: structural decomposition of a goal [IsProg C m].  A sub-program that has a prog_
   lemma in the hint database is closed by it, and what that lemma asks of C by auto from the
   hypotheses about C in the context; [leaf] proves [C c] at the calls. *)
Ltac prog leaf :=
  repeat (cbv beta iota zeta;
          first
            [ solve [auto with prog]
            | lazymatch goal with
              | |- forall _, _ => intro
              | |- IsProg _ (ret _) => apply prog_ret
              | |- IsProg _ (bind _ _) => apply prog_bind
              | |- IsProg _ (do_call _) => apply prog_call; solve [leaf]
              | |- IsProg _ (match ?x with _ => _ end) => destruct x
              end ]).

(* the store programs and the calls they may issue *)
(* Each prog_ lemma asks of C exactly the calls its program may issue: listed one by one for
   the small programs, as one of the classes below for the composite ones.  IsProg knows nothing
   of results, so the path that new_staging returns is an arbitrary path to put and abort; they,
   and what contains them, are stated for a C that holds of every call. *)

(* appending to the log: opening, appending to and syncing a segment *)
Definition wal_call (c : call) : bool :=
  match c with COpenAppend (PWal _) | CAppend (PWal _) _ | CSync (PWal _) => true | _ => false end.

(* Index::load and a checkpoint: create + sync of the target segment, the atomic rewrite of the
   index file, pruning of segments *)
Definition load_call (c : call) : bool :=
  match c with
  | CCreate q | CAppend q _ | CSync q => match q with PIndexTmp | PWal _ => true | _ => false end
  | CRename PIndexTmp PIndex => true
  | CUnlink (PWal _) => true
  | _ => false
  end.

(* a logged operation: the log, a checkpoint after a roll-over, unlinking unreferenced blobs *)
Definition log_call (c : call) : bool :=
  wal_call c || load_call c || match c with CUnlink (PCas _) => true | _ => false end.

Lemma wal_log_call : forall c, wal_call c = true -> log_call c = true.
Proof. intros c E. unfold log_call. now rewrite E. Qed.

Lemma load_log_call : forall c, load_call c = true -> log_call c = true.
Proof. intros c E. unfold log_call. rewrite E. now rewrite orb_true_r. Qed.

(* the settings part of open (first-time creation) *)
Definition gate_call (c : call) : bool :=
  match c with
  | CMkdir _ => true
  | CCreate PSettingsTmp | CAppend PSettingsTmp _ | CSync PSettingsTmp => true
  | CRename PSettingsTmp PSettings => true
  | _ => false
  end.

Section Progs.
  Variable H : bytes -> bytes.
  Variable cfg : config.
  Variable C : call -> Prop.

  Lemma prog_mkdir_p : forall d, C (CMkdir d) -> IsProg C (mkdir_p d).
  Proof. intros d K. unfold mkdir_p. prog ltac:(exact K). Qed.
  Hint Resolve prog_mkdir_p : prog.

  Lemma prog_mkdir_cas2 : forall a b, C (CMkdir [s_cas; a]) -> C (CMkdir [s_cas; a; b]) ->
    IsProg C (mkdir_cas2 a b).
  Proof. intros a b K1 K2. unfold mkdir_cas2. prog fail. Qed.
  Hint Resolve prog_mkdir_cas2 : prog.

  Lemma prog_mkdirs_pre : forall ds, (forall d, C (CMkdir d)) -> IsProg C (mkdirs_pre ds).
  Proof. intros ds K. induction ds as [|[i j] ds IH]; cbn [mkdirs_pre]; prog fail. Qed.

  Lemma prog_pre_create_all : (forall d, C (CMkdir d)) -> IsProg C pre_create_all.
  Proof. intros K. now apply prog_mkdirs_pre. Qed.
  Hint Resolve prog_pre_create_all : prog.

  Lemma prog_atomic_write : forall t tmp data,
    C (CCreate tmp) -> (forall b, C (CAppend tmp b)) -> C (CSync tmp) -> C (CRename tmp t) ->
    IsProg C (atomic_write t tmp data).
  Proof. intros t tmp data K1 K2 K3 K4. unfold atomic_write. prog ltac:(auto). Qed.
  Hint Resolve prog_atomic_write : prog.

  Lemma prog_bw_flush : forall p buf, (forall b, C (CAppend p b)) -> IsProg C (bw_flush p buf).
  Proof. intros p buf K. unfold bw_flush. prog ltac:(apply K). Qed.
  Hint Resolve prog_bw_flush : prog.

  Lemma prog_bw_write_all : forall p buf data, (forall b, C (CAppend p b)) ->
    IsProg C (bw_write_all p buf data).
  Proof. intros p buf data K. unfold bw_write_all. prog ltac:(apply K). Qed.
  Hint Resolve prog_bw_write_all : prog.

  Section Segment.
    Variable seg : N.
    Hypothesis KA : forall b, C (CAppend (PWal seg) b).
    Hypothesis KS : C (CSync (PWal seg)).

    Lemma prog_writer_close : forall buf, IsProg C (writer_close seg buf).
    Proof. intros. unfold writer_close. prog ltac:(exact KS). Qed.
    Hint Resolve prog_writer_close : prog.

    Lemma prog_writer_seal : forall buf, IsProg C (writer_seal seg buf).
    Proof. intros. unfold writer_seal. prog fail. Qed.

    Lemma prog_write_entry : forall buf ver payload, IsProg C (write_entry H seg buf ver payload).
    Proof. intros. unfold write_entry. prog ltac:(exact KS). Qed.
  End Segment.
  Hint Resolve prog_writer_close prog_writer_seal prog_write_entry : prog.

  Lemma prog_unlink_all : forall ps, (forall p, In p ps -> C (CUnlink p)) -> IsProg C (unlink_all ps).
  Proof.
    induction ps as [|p ps IH]; intros K; cbn [unlink_all]; prog ltac:(apply K; now left).
    apply IH. intros q Iq. apply K. now right.
  Qed.

  Lemma prog_unlink_wals : forall ids, (forall i, In i ids -> C (CUnlink (PWal i))) ->
    IsProg C (unlink_all (map PWal ids)).
  Proof.
    intros ids K. apply prog_unlink_all. intros p Ip. apply in_map_iff in Ip.
    destruct Ip as (i & <- & Ii). now apply K.
  Qed.

  Lemma prog_prune_below : forall bound, (forall i, i < bound -> C (CUnlink (PWal i))) ->
    IsProg C (prune_below bound).
  Proof.
    intros bound K. unfold prune_below. prog fail. apply prog_unlink_wals. intros i Ii.
    apply filter_In in Ii. apply K, N.ltb_lt, Ii.
  Qed.
  Hint Resolve prog_prune_below : prog.

  Lemma prog_delete_blobs : forall hs, (forall h, In h hs -> C (CUnlink (cas_path h))) ->
    IsProg C (delete_blobs hs).
  Proof.
    induction hs as [|h hs IH]; intros K; cbn [delete_blobs]; prog ltac:(apply K; now left);
      apply IH; intros x Ix; apply K; now right.
  Qed.
  Hint Resolve prog_delete_blobs : prog.

  Lemma prog_new_staging : (forall i, C (CCreateExcl (PStaging i))) -> IsProg C new_staging.
  Proof. intros K. unfold new_staging. prog ltac:(apply K). Qed.
  Hint Resolve prog_new_staging : prog.

  (* what the class cannot say: the path that new_staging returns is a staging file *)
  Lemma new_staging_shape : forall w,
    match fst (new_staging w) with Ok p => exists i, p = PStaging i | Err _ => True end.
  Proof.
    intros w. unfold new_staging, bind, get_fs.
    destruct (do_call (CCreateExcl (PStaging (nstage (wfs w)))) w) as [[u|e] w1]; [now eexists|exact I].
  Qed.

  Lemma prog_drop_staging : forall p, C (CUnlink p) -> IsProg C (drop_staging p).
  Proof. intros p K. unfold drop_staging. prog ltac:(exact K). Qed.
  Hint Resolve prog_drop_staging : prog.

  Section Wal.
    Hypothesis CW : forall c, wal_call c = true -> C c.
    Local Ltac leaf := apply CW; reflexivity.

    Lemma prog_append_op : forall wl payload, IsProg C (append_op H cfg wl payload).
    Proof. intros. unfold append_op. prog leaf. Qed.

    Lemma prog_close : forall m, IsProg C (close m).
    Proof. intros. unfold close. prog leaf. Qed.
  End Wal.
  Hint Resolve prog_append_op prog_close : prog.

  Section Load.
    Hypothesis CL : forall c, load_call c = true -> C c.
    Local Ltac leaf := apply CL; reflexivity.

    Lemma prog_checkpoint_inner : forall reason m, IsProg C (checkpoint_inner cfg reason m).
    Proof. intros. unfold checkpoint_inner. prog leaf. Qed.
    Hint Resolve prog_checkpoint_inner : prog.

    Lemma prog_index_load : forall pre, IsProg C (index_load H cfg pre).
    Proof. intros. unfold index_load. prog leaf. Qed.
  End Load.
  Hint Resolve prog_checkpoint_inner prog_index_load : prog.

  Section Log.
    Hypothesis CG : forall c, log_call c = true -> C c.

    Let CW : forall c, wal_call c = true -> C c.
    Proof. intros c E. apply CG, wal_log_call, E. Qed.
    Let CL : forall c, load_call c = true -> C c.
    Proof. intros c E. apply CG, load_log_call, E. Qed.

    Lemma prog_log_and_apply : forall m o, IsProg C (log_and_apply H cfg m o).
    Proof. intros. unfold log_and_apply. prog fail. Qed.
    Hint Resolve prog_log_and_apply : prog.

    Lemma prog_remove : forall m k, IsProg C (remove H cfg m k).
    Proof. intros. unfold remove. prog fail. Qed.

    Lemma prog_remove_range : forall m lo hi, IsProg C (remove_range H cfg m lo hi).
    Proof. intros. unfold remove_range. prog fail. Qed.
  End Log.
  Hint Resolve prog_log_and_apply : prog.

  Lemma prog_checkpoint : forall m, (forall c, load_call c = true -> C c) -> IsProg C (checkpoint cfg m).
  Proof. intros m CL. now apply prog_checkpoint_inner. Qed.

  (* the orphan operations unlink blobs of the scan's lists and the planted paths *)
  Lemma prog_delete_orphan_list : forall m hs acc, (forall h, In h hs -> C (CUnlink (cas_path h))) ->
    IsProg C (delete_orphan_list m hs acc).
  Proof.
    intros m hs. induction hs as [|h hs IH]; intros acc K; cbn [delete_orphan_list];
      prog ltac:(apply K; now left); apply IH; intros x Ix; apply K; now right.
  Qed.

  Lemma prog_remove_paths : forall ps a b, (forall p, In p ps -> C (CUnlink p)) ->
    IsProg C (remove_paths ps a b).
  Proof.
    induction ps as [|p ps IH]; intros a b K; cbn [remove_paths]; prog ltac:(apply K; now left);
      apply IH; intros x Ix; apply K; now right.
  Qed.

  Lemma prog_quarantine_list : forall m hs acc, (forall h, In h hs -> C (CUnlink (cas_path h))) ->
    IsProg C (quarantine_list m hs acc).
  Proof.
    intros m hs. induction hs as [|h hs IH]; intros acc K; cbn [quarantine_list];
      prog ltac:(apply K; now left); apply IH; intros x Ix; apply K; now right.
  Qed.

  Lemma prog_delete_orphans : forall m o, (forall p, C (CUnlink p)) -> IsProg C (delete_orphans m o).
  Proof.
    intros m o K. unfold delete_orphans. pose proof prog_delete_orphan_list. pose proof prog_remove_paths.
    prog fail.
  Qed.

  Lemma prog_quarantine_orphans : forall m o, (forall h, C (CUnlink (cas_path h))) ->
    IsProg C (quarantine_orphans m o).
  Proof. intros m o K. apply prog_quarantine_list. auto. Qed.

  Lemma prog_delete_orphan : forall m o h, C (CUnlink (cas_path h)) -> IsProg C (delete_orphan m o h).
  Proof. intros m o h K. unfold delete_orphan. prog ltac:(exact K). Qed.

  (* open: the two directories, LOCK, the settings gate, Index::load *)
  Lemma prog_open_with_recover : (forall c, gate_call c = true -> C c) -> C (CCreate PLock) ->
    (forall c, load_call c = true -> C c) -> IsProg C (open_with_recover H cfg).
  Proof. intros CG CK CL. unfold open_with_recover. prog ltac:(exact CK). Qed.
  Hint Resolve prog_open_with_recover : prog.

  (* Cas::open closes a rejected handle *)
  Lemma prog_open_store : (forall c, gate_call c = true -> C c) -> C (CCreate PLock) ->
    (forall c, load_call c = true -> C c) -> (forall c, wal_call c = true -> C c) ->
    IsProg C (open_store H cfg).
  Proof. intros CG CK CL CW. unfold open_store. prog fail. Qed.

  Hypothesis CA : forall c, C c.
  Local Ltac leaf := apply CA.

  Lemma prog_put : forall m k chunks, IsProg C (put H cfg m k chunks).
  Proof. intros. unfold put. prog leaf. Qed.

  Lemma prog_abort : forall m k chunks, IsProg C (abort m k chunks).
  Proof. intros. unfold abort. prog leaf. Qed.
End Progs.

Section ProgHist.
  Variable H : bytes -> bytes.
  Variable C : call -> Prop.
  Hypothesis CA : forall c, C c.
  Hint Resolve prog_put prog_abort prog_remove prog_remove_range prog_checkpoint prog_close
       prog_open_store prog_open_with_recover prog_delete_orphans prog_quarantine_orphans
       prog_delete_orphan : prog.

  Lemma prog_step : forall hd o, IsProg C (step H hd o).
  Proof. intros hd o. destruct o, hd; cbn [step]; prog ltac:(apply CA). Qed.
  Hint Resolve prog_step : prog.

  Lemma prog_run_ops : forall ops hd, IsProg C (run_ops H hd ops).
  Proof. induction ops as [|o ops IH]; intros hd; cbn [run_ops]; prog ltac:(apply CA). Qed.
End ProgHist.

#[export] Hint Resolve prog_mkdir_p prog_mkdir_cas2 prog_pre_create_all prog_atomic_write prog_bw_flush
  prog_bw_write_all prog_writer_close prog_writer_seal prog_write_entry prog_prune_below
  prog_delete_blobs prog_new_staging prog_drop_staging prog_append_op prog_close
  prog_checkpoint_inner prog_index_load prog_log_and_apply prog_open_with_recover : prog.

(* Resp and Pres for the store programs *)
(* [of_prog walk p]: the fact that [walk] derives from IsProg, for the program whose walk is [p];
   for facts that ask nothing of the calls: the class of all calls *)
Ltac of_prog walk p := intros; apply (walk (fun _ => True)), p; repeat intro; exact I.

Section RespStore.
  Variable H : bytes -> bytes.

  Lemma resp_mkdir_p : forall d, Resp (mkdir_p d).
  Proof. of_prog resp_prog prog_mkdir_p. Qed.

  Lemma resp_mkdir_cas2 : forall a b, Resp (mkdir_cas2 a b).
  Proof. of_prog resp_prog prog_mkdir_cas2. Qed.

  Lemma resp_atomic_write : forall t tmp data, Resp (atomic_write t tmp data).
  Proof. of_prog resp_prog prog_atomic_write. Qed.

  Lemma resp_bw_flush : forall p buf, Resp (bw_flush p buf).
  Proof. of_prog resp_prog prog_bw_flush. Qed.

  Lemma resp_bw_write_all : forall p buf data, Resp (bw_write_all p buf data).
  Proof. of_prog resp_prog prog_bw_write_all. Qed.

  Lemma resp_writer_close : forall seg buf, Resp (writer_close seg buf).
  Proof. of_prog resp_prog prog_writer_close. Qed.

  Lemma resp_writer_seal : forall seg buf, Resp (writer_seal seg buf).
  Proof. of_prog resp_prog prog_writer_seal. Qed.

  Lemma resp_write_entry : forall seg buf ver payload, Resp (write_entry H seg buf ver payload).
  Proof. of_prog resp_prog prog_write_entry. Qed.

  Lemma resp_unlink_all : forall ps, Resp (unlink_all ps).
  Proof. of_prog resp_prog prog_unlink_all. Qed.

  Lemma resp_mkdirs_pre : forall ds, Resp (mkdirs_pre ds).
  Proof. of_prog resp_prog prog_mkdirs_pre. Qed.

  Lemma resp_pre_create_all : Resp pre_create_all.
  Proof. of_prog resp_prog prog_pre_create_all. Qed.

  Lemma resp_close : forall m, Resp (close m).
  Proof. of_prog resp_prog prog_close. Qed.

  Section Cfg.
    Variable cfg : config.

    Lemma resp_append_op : forall wl payload, Resp (append_op H cfg wl payload).
    Proof. of_prog resp_prog prog_append_op. Qed.

    Lemma resp_prune_below : forall bound, Resp (prune_below bound).
    Proof. of_prog resp_prog prog_prune_below. Qed.

    Lemma resp_checkpoint_inner : forall reason m, Resp (checkpoint_inner cfg reason m).
    Proof. of_prog resp_prog prog_checkpoint_inner. Qed.

    Lemma resp_delete_blobs : forall hs, Resp (delete_blobs hs).
    Proof. of_prog resp_prog prog_delete_blobs. Qed.

    Lemma resp_log_and_apply : forall m o, Resp (log_and_apply H cfg m o).
    Proof. of_prog resp_prog prog_log_and_apply. Qed.

    Lemma resp_new_staging : Resp new_staging.
    Proof. of_prog resp_prog prog_new_staging. Qed.

    Lemma resp_drop_staging : forall p, Resp (drop_staging p).
    Proof. of_prog resp_prog prog_drop_staging. Qed.

    Lemma resp_put : forall m k chunks, Resp (put H cfg m k chunks).
    Proof. of_prog resp_prog prog_put. Qed.

    Lemma resp_abort : forall m k chunks, Resp (abort m k chunks).
    Proof. of_prog resp_prog prog_abort. Qed.

    Lemma resp_remove : forall m k, Resp (remove H cfg m k).
    Proof. of_prog resp_prog prog_remove. Qed.

    Lemma resp_remove_range : forall m lo hi, Resp (remove_range H cfg m lo hi).
    Proof. of_prog resp_prog prog_remove_range. Qed.

    Lemma resp_checkpoint : forall m, Resp (checkpoint cfg m).
    Proof. of_prog resp_prog prog_checkpoint. Qed.

    Lemma resp_delete_orphan_list : forall m hs acc, Resp (delete_orphan_list m hs acc).
    Proof. of_prog resp_prog prog_delete_orphan_list. Qed.

    Lemma resp_remove_paths : forall ps a b, Resp (remove_paths ps a b).
    Proof. of_prog resp_prog prog_remove_paths. Qed.

    Lemma resp_delete_orphans : forall m o, Resp (delete_orphans m o).
    Proof. of_prog resp_prog prog_delete_orphans. Qed.

    Lemma resp_quarantine_list : forall m hs acc, Resp (quarantine_list m hs acc).
    Proof. of_prog resp_prog prog_quarantine_list. Qed.

    Lemma resp_quarantine_orphans : forall m o, Resp (quarantine_orphans m o).
    Proof. of_prog resp_prog prog_quarantine_orphans. Qed.

    Lemma resp_delete_orphan : forall m o h, Resp (delete_orphan m o h).
    Proof. of_prog resp_prog prog_delete_orphan. Qed.

    Lemma resp_index_load : forall pre, Resp (index_load H cfg pre).
    Proof. of_prog resp_prog prog_index_load. Qed.

    Theorem resp_open_with_recover : Resp (open_with_recover H cfg).
    Proof. of_prog resp_prog prog_open_with_recover. Qed.

    Theorem resp_open_store : Resp (open_store H cfg).
    Proof. of_prog resp_prog prog_open_store. Qed.
  End Cfg.

  Theorem resp_step : forall hd o, Resp (step H hd o).
  Proof. of_prog resp_prog prog_step. Qed.

  Theorem resp_run_ops : forall ops hd, Resp (run_ops H hd ops).
  Proof. of_prog resp_prog prog_run_ops. Qed.
End RespStore.

Section PresStore.
  Variable cfg : config.
  Variable P : fs -> Prop.

  Section Mkdirs.
    Hypothesis K : forall d, call_keeps P (CMkdir d).

    Lemma pres_mkdir_p : forall d, Pres P (mkdir_p d).
    Proof. intros. apply pres_prog, prog_mkdir_p, K. Qed.
    Lemma pres_mkdirs_pre : forall ds, Pres P (mkdirs_pre ds).
    Proof. intros. apply pres_prog, prog_mkdirs_pre, K. Qed.
  End Mkdirs.

  Section Load.
    Hypothesis K : forall c, load_call c = true -> call_keeps P c.

    Lemma pres_unlink_wals : forall ids, Pres P (unlink_all (map PWal ids)).
    Proof. intros. apply pres_prog, prog_unlink_wals. intros i _. now apply K. Qed.

    Lemma pres_prune_below : forall bound, Pres P (prune_below bound).
    Proof. intros. apply pres_prog, prog_prune_below. intros i _. now apply K. Qed.

    Lemma pres_write_index : forall data, Pres P (atomic_write PIndex PIndexTmp data).
    Proof. intros. apply pres_prog, prog_atomic_write; intros; now apply K. Qed.

    Lemma pres_checkpoint_inner : forall reason m, Pres P (checkpoint_inner cfg reason m).
    Proof. intros. apply pres_prog, prog_checkpoint_inner, K. Qed.
  End Load.
End PresStore.

(* calls that keep a file, a directory: which calls keep [fget s p = o] *)
Definition call_avoids (p : path) (c : call) : bool :=
  match c with
  | CMkdir _ => true
  | CCreate q | CCreateExcl q | COpenAppend q | CAppend q _ | CSync q | CUnlink q =>
    negb (path_eqb p q)
  | CRename a b => negb (path_eqb p a) && negb (path_eqb p b)
  end.

Lemma negb_path_eqb : forall p q, negb (path_eqb p q) = true -> p <> q.
Proof.
  intros p q E X. subst q. rewrite path_eqb_refl in E. discriminate.
Qed.

Lemma fget_with_files : forall s l q, fget (with_files s l) q = lookup l q.
Proof. reflexivity. Qed.

Lemma avoids_keeps : forall p o c, call_avoids p c = true ->
  call_keeps (fun s => fget s p = o) c.
Proof.
  intros p o c A s s' X E. destruct c; cbn [apply_call call_avoids] in E, A.
  - destruct (has_dir s d); [discriminate|].
    destruct (removelast d); [|destruct (has_dir s (b :: l))]; inversion E; exact X.
  - apply negb_path_eqb in A. destruct (parent_ok s p0); inversion E.
    rewrite <- X. exact (fget_upd_other s p0 _ p A).
  - apply negb_path_eqb in A. destruct (parent_ok s p0); [|discriminate].
    destruct (fget s p0); inversion E. rewrite <- X. unfold fget. cbn [files].
    rewrite lookup_set_path, path_eqb_neq by exact A. reflexivity.
  - apply negb_path_eqb in A. destruct (parent_ok s p0); [|discriminate].
    destruct (fget s p0); inversion E; [subst s'; exact X|].
    rewrite <- X. exact (fget_upd_other s p0 _ p A).
  - apply negb_path_eqb in A. destruct (fget s p0); inversion E.
    rewrite <- X. exact (fget_upd_other s p0 _ p A).
  - apply negb_path_eqb in A. destruct (fget s p0); inversion E.
    rewrite <- X. exact (fget_upd_other s p0 _ p A).
  - apply andb_prop in A. destruct A as [A1 A2]. apply negb_path_eqb in A1, A2.
    destruct (fget s p0); [|discriminate]. destruct (parent_ok s q); inversion E.
    rewrite <- X. change (fget (ren s p0 q f) p = fget s p).
    rewrite fget_ren, path_eqb_neq by exact A2. now apply fget_del_other.
  - apply negb_path_eqb in A. destruct (fget s p0); inversion E.
    rewrite <- X. exact (fget_del_other s p0 p A).
Qed.

(* directories never disappear *)
Lemma has_dir_keeps : forall d c, call_keeps (fun s => has_dir s d = true) c.
Proof.
  intros d c s s' X E.
  assert (G : forall s'', (forall x, In x (dirs s) -> In x (dirs s'')) -> has_dir s'' d = true).
  { intros s'' I. apply has_dir_iff, I, has_dir_iff, X. }
  destruct c; cbn [apply_call] in E;
    repeat match type of E with
           | (if ?b then _ else _) = _ => destruct b
           | match ?b with _ => _ end = _ => destruct b
           end; inversion E; subst; try exact X; apply G; cbn [dirs with_files]; intros x Ix;
      try exact Ix; apply in_or_app; now left.
Qed.

(* instances: which paths / directories the two call classes leave alone *)
Lemma load_call_avoids : forall p c,
  match p with PIndex | PIndexTmp | PWal _ => False | _ => True end ->
  load_call c = true -> call_avoids p c = true.
Proof.
  intros p c Np L. destruct c as [d|q|q|q|q b|q|a b|q]; cbn [load_call] in L; try discriminate;
    try (destruct q; try discriminate; destruct p; try contradiction; reflexivity).
  destruct a; try discriminate. destruct b; try discriminate.
  destruct p; try contradiction; reflexivity.
Qed.

Lemma gate_call_avoids : forall p c,
  match p with PSettings | PSettingsTmp => False | _ => True end ->
  gate_call c = true -> call_avoids p c = true.
Proof.
  intros p c Np L. destruct c as [d|q|q|q|q b|q|a b|q]; cbn [gate_call] in L; try discriminate;
    try reflexivity;
    try (destruct q; try discriminate; destruct p; try contradiction; reflexivity).
  destruct a; try discriminate. destruct b; try discriminate.
  destruct p; try contradiction; reflexivity.
Qed.

Print Assumptions resp_open_with_recover.
Print Assumptions resp_open_store.
Print Assumptions resp_run_ops.
