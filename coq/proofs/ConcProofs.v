(* ConcProofs.v -- properties of the concurrent model theories/Conc.v, derived from the
   invariant of ConcInv.v:

     C04  no dangling reference under any interleaving
            C04_no_dangling, C04_commit_window_protected, C04_never_deletes_protected,
            C04_apply_never_panics
     C15  concurrent calls always complete (lock discipline, deadlock freedom)
            C15_lock_order, C15_readers_shared_only, C15_iter_step,
            holds_sound, readers_sound, S_excludes_readers,
            acquires_sound, acquires_complete,
            C15_deadlock_free            (progress / termination: ConcProgress.v)
     C05  reads
            C05_read_never_fails  (no CMissing result in any reachable state, unconditionally),
            C05_read_returns_indexed_slice (get and get_range), C05_read_returns_indexed_content
            (get: pc_mode = MFull), C05_lookup_step, C05_retry_sees_current
            (these speak of single steps; the linearizability of the reads is in ConcLin.v)
            no_faults_no_errors  (without faults no call returns CErr)
     C07  exactness of the blob directory at quiescence
            C07_nothing_less (unconditional), C07_quiescent_exact (no obstructed path, or no
            call returned an error), C07_quiescent_exact_nofaults

   Faults: everything here holds for ARBITRARY fault parameters bad / ckbad of the model, except
   where a hypothesis says otherwise (C07_quiescent_exact, no_faults_no_errors). *)
From Cas Require Import SMap Index Conc.
From CasProofs Require Import SMapProofs IndexProofs ConcInv.
From Coq Require Import List NArith Lia Bool Arith.
Import ListNotations.
Open Scope N_scope.

Inductive lockname := LI | LS | LW.

(* the acquisition order I < S < W *)
Definition lock_lt (a b : lockname) : Prop :=
  match a, b with LI, LS | LI, LW | LS, LW => True | _, _ => False end.

(* locks held while parked at p; a reader parked at GOpenL holds S in SHARED mode *)
Definition holds (p : pc) : list lockname :=
  (if holdsI p then [LI] else []) ++ (if holdsS p || holdsR p then [LS] else []).

(* locks acquired by the step that leaves p (shared acquisitions of S included) *)
Definition acquires (p : pc) : list lockname :=
  match p with
  | PILock _ _ | PDropI _ _ _ | WLockI _ | OLockI (_ :: _) _ _ => [LI]
  | WLockS _ | WCkS _ _ | RRead _ | RRRead _ _ | GRead _ _ | GReread _ _ _ | IRead | ORead _ _ _ _ => [LS]
  | WLockW _ | WCkW _ _ => [LW]
  | _ => []
  end.

(* the steps that take S in EXCLUSIVE mode *)
Definition excl (p : pc) : bool :=
  match p with WLockS _ | WCkS _ _ => true | _ => false end.

(* lock l cannot be acquired by the step leaving p: I is a mutex; S is taken when it has an
   exclusive holder, and for an exclusive acquisition also when it has shared holders;
   W is never held across a step *)
Definition blocked (g : cstate) (p : pc) (l : lockname) : bool :=
  match l with
  | LI => negb (free (g_I g))
  | LS => negb (free (g_S g)) || (excl p && negb (noreaders g))
  | LW => false
  end.

Section ConcProofs.
  Variable H : bytes -> bytes.
  Variable cmp : bytes -> bytes -> comparison.
  Hypothesis cmp_refl : forall a, cmp a a = Eq.
  Hypothesis cmp_eq : forall a b, cmp a b = Eq -> a = b.
  Hypothesis cmp_antisym : forall a b, cmp b a = CompOpp (cmp a b).
  Hypothesis cmp_trans : forall a b c, cmp a b = Lt -> cmp b c = Lt -> cmp a c = Lt.
  Variable nops : N.
  Variable bad : bytes -> bool.
  Variable ckbad : bool.
  Variable thr0 : list (nat * list ccall).
  Hypothesis thr0_nodup : NoDup (map fst thr0).
  Variable cas0 : smap bytes.
  Hypothesis cas0_sorted : sorted lex_cmp cas0.
  Hypothesis cas0_named : forall h c, In (h, c) cas0 -> H c = h.
  Hypothesis NoCollideC :
    forall a b, In a (allc thr0 cas0) -> In b (allc thr0 cas0) -> H a = H b -> a = b.
  Collection Setting :=
    cmp_refl cmp_eq cmp_antisym cmp_trans thr0_nodup cas0_sorted cas0_named NoCollideC.

  Local Notation at_cmp L := (L cmp cmp_refl cmp_eq cmp_antisym cmp_trans) (only parsing).
  Local Notation at_setting L :=
    (L H cmp cmp_refl cmp_eq cmp_antisym cmp_trans nops bad ckbad thr0 thr0_nodup cas0 cas0_sorted
       cas0_named NoCollideC) (only parsing).
  Local Notation Reach := (reachable H cmp nops bad ckbad thr0 cas0).
  Local Notation step := (cstep H cmp nops bad ckbad).
  Local Notation edge := (edge H cmp nops bad ckbad).

  Theorem C04_no_dangling g : Reach g ->
    forall k it, sm_get cmp (km (g_idx g)) k = Some it ->
    exists c, sm_get lex_cmp (g_cas g) (ihash it) = Some c /\ H c = ihash it /\ len c = isize it.
  Proof using Setting.
    intros R k it G. exact (at_cmp (inv_no_dangling H) bad thr0 cas0 g k it (at_setting reachable_inv g R) G).
  Qed.

  (* after its rename and before its apply, a commit has its blob and the blob is protected *)
  Theorem C04_commit_window_protected g t ts k h sz : Reach g ->
    tget (g_thr g) t = Some ts -> in_window (t_pc ts) (WPut k h sz) ->
    (exists c, sm_get lex_cmp (g_cas g) h = Some c /\ H c = h /\ len c = sz) /\
    sm_get lex_cmp (g_byhash g) h <> None.
  Proof using Setting.
    intros R Ht W. pose proof (at_setting reachable_inv g R) as I.
    destruct (ci_pc _ _ _ _ _ _ I _ _ Ht) as [Pt _]. split.
    - destruct W as [E|[E|E]]; rewrite E in Pt; exact Pt.
    - eapply registered_protected; [exact I|exact Ht|].
      destruct W as [E|[E|E]]; rewrite E; cbn [reg]; apply beqb_refl.
  Qed.

  (* the index changes only in the WLockW step (append + apply) of a writer and in a checkpoint
     (WCkW), which records the persisted version and nothing else *)
  Lemma cstep_idx g t g' : step g t = Some g' ->
    g_idx g' = g_idx g \/
    exists ts, tget (g_thr g) t = Some ts /\
               ((exists w, t_pc ts = WLockW w) \/ (exists r e, t_pc ts = WCkW r e)).
  Proof using.
    intros St. destruct (cstep_tget St) as [ts Ht].
    destruct (cstep_spec Ht St) as (p' & cs' & out & sh & E & ->). cbn [set_thr g_idx].
    remember (t_pc ts) as p eqn:Hp.
    destruct E; try (left; reflexivity); right; exists ts; (split; [exact Ht|]); rewrite <- Hp.
    - left. eexists. reflexivity.
    - right. eexists _, _. reflexivity.
  Qed.

  (* no step removes a blob that a key references or that an in-flight commit needs *)
  Theorem C04_never_deletes_protected g t g' : Reach g -> step g t = Some g' ->
    forall h, sm_get lex_cmp (g_cas g) h <> None -> sm_get lex_cmp (g_cas g') h = None ->
    count_refs (km (g_idx g)) h = 0 /\ sm_get lex_cmp (g_byhash g) h = None.
  Proof using Setting.
    intros R St h H1 H2. pose proof (at_setting reachable_inv g R) as I.
    pose proof (ci_cas_sorted _ _ _ _ _ _ I) as S.
    destruct (cstep_tget St) as [[cs p res] Ht].
    destruct (cstep_spec Ht St) as (p' & cs' & out & sh & E & ->). cbn [set_thr g_cas] in H2.
    destruct (ci_pc _ _ _ _ _ _ I _ _ Ht) as [Pt _]. cbn [t_pc t_calls] in E, Pt.
    (* only the unlink rules remove a blob, and the hash they unlink is unreferenced and
       unprotected by pc_ok *)
    assert (Del : forall x, sm_get lex_cmp (sm_del lex_cmp (g_cas g) x) h = None ->
                    (count_refs (km (g_idx g)) x = 0 /\ sm_get lex_cmp (g_byhash g) x = None) ->
                    count_refs (km (g_idx g)) h = 0 /\ sm_get lex_cmp (g_byhash g) h = None).
    { intros x G Px. destruct (key_eq_dec h x) as [->|N]; [exact Px|].
      rewrite lex_get_del_other in G by assumption. contradiction. }
    destruct E; try contradiction; cbn [pc_ok g_cas set_cas set_I] in Pt, H2.
    - exfalso. destruct (key_eq_dec h (H c)) as [->|N].
      + rewrite lex_get_ins_same in H2. discriminate.
      + rewrite lex_get_ins_other in H2 by assumption. contradiction.
    - apply (Del h0 H2), Pt. left; reflexivity.
    - apply (Del h0 H2), Pt. left; reflexivity.
    - apply unlink_orphan_cas in Uo. subst cas'. destruct (bad h0); [contradiction|].
      exact (Del h0 H2 Pt).
    - apply unlink_orphan_cas in Uo. subst cas'. destruct (bad h0); [contradiction|].
      exact (Del h0 H2 Pt).
  Qed.

  (* the `None` branch of cstep at WLockW (a panic of apply) is unreachable; the thread
     parked there holds I and S *)
  Theorem C04_apply_never_panics g t ts w : Reach g ->
    tget (g_thr g) t = Some ts -> t_pc ts = WLockW w ->
    g_I g = Some t /\ g_S g = Some t /\
    exists idx' un, apply_op cmp (g_idx g) (wop w) = Ok (idx', un).
  Proof using Setting.
    intros R Ht Hpc. pose proof (at_setting reachable_inv g R) as I.
    split; [|split].
    - apply (holds_I_iff _ _ _ _ _ g t ts I Ht). rewrite Hpc. reflexivity.
    - apply (holds_S_iff _ _ _ _ _ g t ts I Ht). rewrite Hpc. reflexivity.
    - assert (Hresp : op_respects_sizes (g_idx g) (wop w)).
      { eapply window_respects; [exact I|exact Ht|right; right; exact Hpc]. }
      destruct (at_cmp C12_apply_ok (g_idx g) (wop w) (ci_idx _ _ _ _ _ _ I) Hresp) as (s' & un & E & _).
      exists s', un. exact E.
  Qed.

  (* every lock acquired by a step is above every lock held; W is never held across a step;
     a reader parked at GOpenL (holding S shared) acquires nothing *)
  Theorem C15_lock_order p :
    (forall a l, In a (acquires p) -> In l (holds p) -> lock_lt l a) /\ ~ In LW (holds p).
  Proof using.
    split.
    - intros a l Ia Il. destruct p; try destruct todo; cbn in Ia, Il;
        repeat match goal with
               | Hx : _ \/ _ |- _ => destruct Hx
               | Hx : False |- _ => destruct Hx
               end; subst; exact I.
    - intros Il. destruct p; cbn in Il;
        repeat match goal with
               | Hx : _ \/ _ |- _ => destruct Hx
               | Hx : False |- _ => destruct Hx
               end; discriminate.
  Qed.

  (* reads (get, get_size, get_range) and iteration take the state lock in SHARED mode only,
     and no other lock: the steps leaving GRead / GReread / IRead acquire S non-exclusively
     while holding nothing *)
  Theorem C15_readers_shared_only p :
    (exists k md, p = GRead k md) \/ (exists k it md, p = GReread k it md) \/ p = IRead ->
    acquires p = [LS] /\ excl p = false /\ holds p = [].
  Proof using.
    intros [(k & md & ->)|[(k & it & md & ->)| ->]]; repeat split.
  Qed.

  (* the iteration step: enabled exactly when nobody holds S exclusively (shared holders and
     the holder of I do not block it); it returns the key list of the current key map, changes
     no lock word and holds nothing afterwards (the read guard does not outlive the step) *)
  Theorem C15_iter_step g t ts : tget (g_thr g) t = Some ts -> t_pc ts = IRead ->
    (enabled H cmp nops bad ckbad g t = true <-> g_S g = None) /\
    forall g', step g t = Some g' ->
      g_I g' = g_I g /\ g_S g' = g_S g /\ g_R g' = g_R g /\ g_idx g' = g_idx g /\ g_cas g' = g_cas g /\
      tget (g_thr g') t =
        Some (mkT (t_calls ts) Idle (t_res ts ++ [CKeys (map fst (km (g_idx g)))])).
  Proof using.
    intros Ht Hpc. unfold enabled, cstep. rewrite Ht, Hpc. split.
    - destruct (g_S g); cbn [free]; split; intros X; try reflexivity; discriminate X.
    - intros g'. destruct (free (g_S g)); [|discriminate]. intros E. injection E as <-.
      unfold finish. cbn [g_I g_S g_R g_idx g_cas g_thr]. repeat split. apply tget_tset_same.
  Qed.

  (* an exclusive holder of S and shared holders never coexist *)
  Theorem S_excludes_readers g : Reach g -> ~ (g_S g <> None /\ g_R g <> []).
  Proof using Setting.
    intros R [A B]. apply B. apply (ci_SR _ _ _ _ _ _ (at_setting reachable_inv g R) A).
  Qed.

  (* the shared holders are exactly the readers parked at GOpenL *)
  Theorem readers_sound g t : Reach g ->
    NoDup (g_R g) /\
    (In t (g_R g) <-> exists ts k it md, tget (g_thr g) t = Some ts /\ t_pc ts = GOpenL k it md).
  Proof using Setting.
    intros R. destruct (ci_R _ _ _ _ _ _ (at_setting reachable_inv g R)) as [ND HR]. split; [exact ND|].
    rewrite HR. split.
    - intros (ts & G & Hh). destruct (t_pc ts) eqn:Hpc; try discriminate.
      exists ts, k, it, md. split; assumption.
    - intros (ts & k & it & md & G & Hpc). exists ts. split; [exact G|rewrite Hpc; reflexivity].
  Qed.

  Lemma holds_LI p : In LI (holds p) <-> holdsI p = true.
  Proof using.
    unfold holds. destruct (holdsI p), (holdsS p || holdsR p); cbn [app In];
      intuition discriminate.
  Qed.

  Lemma holds_LS p : In LS (holds p) <-> holdsS p = true \/ holdsR p = true.
  Proof using.
    unfold holds. rewrite <- orb_true_iff.
    destruct (holdsI p), (holdsS p || holdsR p); cbn [app In]; intuition discriminate.
  Qed.

  (* [holds] agrees with the lock words of every reachable state *)
  Theorem holds_sound g t ts : Reach g -> tget (g_thr g) t = Some ts ->
    (In LI (holds (t_pc ts)) <-> g_I g = Some t) /\
    (In LS (holds (t_pc ts)) <-> g_S g = Some t \/ In t (g_R g)).
  Proof using Setting.
    intros R Ht. pose proof (at_setting reachable_inv g R) as I.
    rewrite holds_LI, holds_LS, (holds_I_iff _ _ _ _ _ g t ts I Ht),
      (holds_S_iff _ _ _ _ _ g t ts I Ht), (holds_R_iff _ _ _ _ _ g t ts I Ht).
    split; reflexivity.
  Qed.

  Lemma blocked_I g p : blocked g p LI = true <-> g_I g <> None.
  Proof using. cbn [blocked]. destruct (g_I g); cbn [free negb]; split; congruence. Qed.

  Lemma blocked_S g p :
    blocked g p LS = true <-> g_S g <> None \/ (excl p = true /\ g_R g <> []).
  Proof using.
    cbn [blocked]. unfold noreaders.
    destruct (g_S g), (excl p), (g_R g); cbn [free negb andb orb]; intuition congruence.
  Qed.

  (* [stuck], in the terms of the lock discipline *)
  Lemma stuck_cases g p cs : stuck cmp g p cs ->
    (p = Idle /\ cs = []) \/
    (exists l, hd_error (acquires p) = Some l /\ blocked g p l = true) \/
    (exists w e, p = WLockW w /\ apply_op cmp (g_idx g) (wop w) = Err e) \/
    (exists w r, p = WUnlink w [] r).
  Proof using.
    assert (BI : forall q, g_I g <> None -> acquires q = [LI] ->
                 exists l, hd_error (acquires q) = Some l /\ blocked g q l = true).
    { intros q S ->. exists LI. split; [reflexivity|apply blocked_I, S]. }
    assert (BS : forall q, g_S g <> None \/ (excl q = true /\ g_R g <> []) -> acquires q = [LS] ->
                 exists l, hd_error (acquires q) = Some l /\ blocked g q l = true).
    { intros q S ->. exists LS. split; [reflexivity|apply blocked_S, S]. }
    destruct p; try destruct todo; cbn [stuck]; intros S; try contradiction.
    (* the pcs that take I first, S shared, S exclusively *)
    all: try (right; left; apply BI; [exact S|reflexivity]).
    all: try (right; left; apply BS; [left; exact S|reflexivity]).
    all: try (right; left; apply BS; [destruct S; [left|right; split]; trivial|reflexivity]).
    - left. split; [reflexivity|exact S].
    - right; right; left. destruct S as [e S]. exists w, e. split; [reflexivity|exact S].
    - right; right; right. eexists _, _. reflexivity.
  Qed.

  Lemma blocked_stuck g p cs l :
    hd_error (acquires p) = Some l -> blocked g p l = true -> stuck cmp g p cs.
  Proof using.
    destruct p; try destruct todo; cbn [acquires hd_error stuck]; try discriminate;
      intros E; injection E as <-; intros B.
    (* I *)
    all: try (apply blocked_I in B; exact B).
    (* W is never held across a step *)
    all: try discriminate B.
    (* S, exclusively or shared *)
    all: apply blocked_S in B; cbn [excl] in B; destruct B as [B|[X B]]; try discriminate X; auto.
  Qed.

  (* a step is blocked only if the thread has finished or the first lock it acquires cannot
     be acquired *)
  Theorem acquires_sound g t ts : Reach g -> tget (g_thr g) t = Some ts ->
    step g t = None ->
    finished_t ts = true \/
    exists l, hd_error (acquires (t_pc ts)) = Some l /\ blocked g (t_pc ts) l = true.
  Proof using Setting.
    intros R Ht St. apply (cstep_none Ht) in St.
    destruct (stuck_cases _ _ _ St) as [[Hp Hc]|[B|[(w & e & Hp & A)|(w & r & Hp)]]].
    - left. unfold finished_t. rewrite Hp, Hc. reflexivity.
    - right. exact B.
    - destruct (C04_apply_never_panics g t ts w R Ht Hp) as (_ & _ & idx' & un & A'). congruence.
    - destruct (ci_pc _ _ _ _ _ _ (at_setting reachable_inv g R) _ _ Ht) as [Pt _]. rewrite Hp in Pt.
      destruct Pt as [NE _]. destruct (NE eq_refl).
  Qed.

  (* conversely, a step whose first lock cannot be acquired is blocked (no invariant needed) *)
  Theorem acquires_complete g t ts l : tget (g_thr g) t = Some ts ->
    hd_error (acquires (t_pc ts)) = Some l -> blocked g (t_pc ts) l = true -> step g t = None.
  Proof using.
    intros Ht Hl B. apply (cstep_none Ht). eapply blocked_stuck; eassumption.
  Qed.

  Corollary enabled_if_free g t ts : Reach g -> tget (g_thr g) t = Some ts ->
    finished_t ts = false ->
    (forall l, hd_error (acquires (t_pc ts)) = Some l -> blocked g (t_pc ts) l = false) ->
    enabled H cmp nops bad ckbad g t = true.
  Proof using Setting.
    intros R Ht NF Fr. unfold enabled. destruct (step g t) eqn:E; [reflexivity|].
    destruct (acquires_sound g t ts R Ht E) as [F|(l & Hl & Tk)]; [congruence|].
    rewrite (Fr l Hl) in Tk. discriminate.
  Qed.

  Lemma holding_not_finished ts l : In l (holds (t_pc ts)) -> finished_t ts = false.
  Proof using. unfold finished_t. destruct (t_pc ts); [intros []|reflexivity..]. Qed.

  (* the lock order at work: the first lock a step takes lies above every lock its thread holds *)
  Lemma first_above p l a : In l (holds p) -> hd_error (acquires p) = Some a -> lock_lt l a.
  Proof using.
    intros Il Ha. apply (proj1 (C15_lock_order p)); [|exact Il].
    destruct (acquires p); [discriminate Ha|]. injection Ha as ->. left; reflexivity.
  Qed.

  (* some thread can always move, unless every thread has finished: the holder of the highest
     held lock is never blocked *)
  Theorem C15_deadlock_free g : Reach g -> all_finished g = false ->
    exists t, enabled H cmp nops bad ckbad g t = true.
  Proof using Setting.
    intros R NF. pose proof (at_setting reachable_inv g R) as I.
    assert (Mv : forall u tsu l, tget (g_thr g) u = Some tsu -> In l (holds (t_pc tsu)) ->
                   (forall a, lock_lt l a -> blocked g (t_pc tsu) a = false) ->
                   exists t, enabled H cmp nops bad ckbad g t = true).
    { intros u tsu l G Il Fr. exists u. apply (enabled_if_free g u tsu R G).
      - exact (holding_not_finished tsu l Il).
      - intros a Ha. apply Fr. exact (first_above _ _ _ Il Ha). }
    assert (W : forall p a, lock_lt LS a -> blocked g p a = false).
    { intros p a La. destruct a; try destruct La. reflexivity. }
    destruct (g_S g) as [u|] eqn:ES.
    { (* the exclusive holder of S only needs W *)
      destruct (proj1 (ci_lockS _ _ _ _ _ _ I u) ES) as (tsu & G & Hh).
      apply (Mv u tsu LS G); [apply holds_LS; left; exact Hh|apply W]. }
    destruct (g_R g) as [|u rs] eqn:ER.
    2:{ (* so does a reader holding S shared *)
      destruct (proj1 (proj2 (ci_R _ _ _ _ _ _ I) u)) as (tsu & G & Hh);
        [rewrite ER; left; reflexivity|].
      apply (Mv u tsu LS G); [apply holds_LS; right; exact Hh|apply W]. }
    assert (FS : forall p, blocked g p LS = false).
    { intros p. cbn [blocked]. unfold noreaders. rewrite ES, ER. apply andb_false_r. }
    destruct (g_I g) as [u|] eqn:EI.
    { (* S is entirely free: the holder of I needs S or W *)
      destruct (proj1 (ci_lockI _ _ _ _ _ _ I u) EI) as (tsu & G & Hh).
      apply (Mv u tsu LI G); [apply holds_LI; exact Hh|].
      intros a La. destruct a; [destruct La|apply FS|reflexivity]. }
    (* all locks are free: any unfinished thread can move *)
    unfold all_finished in NF.
    assert (EX : exists p, In p (g_thr g) /\ finished_t (snd p) = false).
    { clear -NF. induction (g_thr g) as [|p r IH]; cbn [forallb] in NF; [discriminate|].
      destruct (finished_t (snd p)) eqn:F.
      - destruct (IH NF) as (q & Iq & Fq). exists q. split; [right; exact Iq|exact Fq].
      - exists p. split; [left; reflexivity|exact F]. }
    destruct EX as ([t ts] & Ip & Fp). cbn [snd] in Fp.
    exists t. apply (enabled_if_free g t ts R).
    - apply In_tget; [apply (ci_nodup _ _ _ _ _ _ I)|exact Ip].
    - exact Fp.
    - intros l _. destruct l; [cbn [blocked]; rewrite EI; reflexivity|apply FS|reflexivity].
  Qed.

  (* C05: what a step of a read returns *)

  (* results carried by the write path are never read results *)
  Definition plain (r : cres) : Prop :=
    match r with CUnit | CBool _ | CNum _ => True | _ => False end.
  Definition pc_res_ok (p : pc) : Prop :=
    match p with
    | WLockI w | WLockS w | WLockW w | WApplied w _ _ | WUnlink w _ _ | WReleased w _ =>
      plain (wres w)
    | WCkS r _ | WCkW r _ => plain r
    | _ => True
    end.
  Definition ResInv (g : cstate) : Prop :=
    forall t ts, tget (g_thr g) t = Some ts -> pc_res_ok (t_pc ts).

  Lemma edge_res_ok g t p cs p' cs' out sh :
    edge g t p cs p' cs' out sh -> pc_res_ok p -> pc_res_ok p'.
  Proof using.
    intros E. destruct E; cbn [pc_res_ok wres plain]; auto.
    destruct c as [| | | | | | | | |[|]]; exact (fun _ => I).
  Qed.

  Lemma res_inv g : Reach g -> ResInv g.
  Proof using.
    revert g. unfold ResInv.
    apply (reachable_thread_ind H cmp nops bad ckbad thr0 cas0 (fun ts => pc_res_ok (t_pc ts))).
    - intros cs. exact I.
    - intros g0 t ts p' cs' out sh _ IH Ht E. exact (edge_res_ok _ _ _ _ _ _ _ _ E (IH _ _ Ht)).
  Qed.

  (* the read mode carried by a reader's pc: MFull = get, MSize = get_size, MRange a b = get_range *)
  Definition pc_mode (p : pc) : option rmode :=
    match p with
    | GRead _ md | GLooked _ _ md | GOpen _ _ md | GReread _ _ md | GOpenL _ _ md => Some md
    | _ => None
    end.

  (* a step that appends [CBytes (Some c)] to the results of t is a step of a read (get or
     get_range).  Either it is an open_blob step: the thread was parked at GOpen k it md (first
     attempt) or at GOpenL k it md (the retry under the read lock, where it IS the current value
     of k); the blob x stored under ihash it hashes to ihash it, has the recorded size, and c
     is what [read_result md it] makes of x (x itself for a get, a slice of x for a get_range).
     Or it is the empty-range exit of a get_range, decided from the item alone: at GLooked
     with the item looked up one step before, or at GReread with the CURRENT item of k. *)
  Theorem C05_read_returns_indexed_slice g t ts g' ts' c : Reach g ->
    tget (g_thr g) t = Some ts -> step g t = Some g' -> tget (g_thr g') t = Some ts' ->
    t_res ts' = t_res ts ++ [CBytes (Some c)] ->
    exists k it md,
      ((t_pc ts = GOpen k it md \/
        (t_pc ts = GOpenL k it md /\ sm_get cmp (km (g_idx g)) k = Some it)) /\
       exists x, sm_get lex_cmp (g_cas g) (ihash it) = Some x /\ H x = ihash it /\
                 len x = isize it /\ read_result md it x = CBytes (Some c)) \/
      ((t_pc ts = GLooked k it md \/
        ((exists it0, t_pc ts = GReread k it0 md) /\ sm_get cmp (km (g_idx g)) k = Some it)) /\
       pre_open md it = Some (CBytes (Some c))).
  Proof using Setting.
    intros R Ht St Ht' X. pose proof (at_setting reachable_inv g R) as I.
    destruct (cstep_edge Ht St Ht') as (out & sh & E & Hres & _).
    rewrite Hres in X. apply emit_snoc in X.
    pose proof (proj1 (ci_pc _ _ _ _ _ _ I _ _ Ht)) as Pt. pose proof (res_inv g R _ _ Ht) as Pr.
    clear Ht St Ht' Hres. remember (t_pc ts) as p eqn:Ep. clear Ep.
    destruct E; try discriminate X; try injection X as X; cbn [pc_ok pc_res_ok] in Pt, Pr.
    - destruct c0 as [| | | | | | | | |[|]]; discriminate X.
    - rewrite X in Pr. destruct Pr.
    - rewrite X in Pr. destruct Pr.
    - destruct ckbad; [discriminate X|]. rewrite X in Pr. destruct Pr.
    - destruct md; discriminate X.
    - subst r. exists k, it, md. right. split; [left; reflexivity|exact Po].
    - (* GOpen: the blob found under the hash of a valid item is the one the item stands for *)
      exists k, it, md. left. split; [left; reflexivity|]. exists c0. split; [exact Gc|].
      apply (lex_get_in _ _ _ (ci_cas_sorted _ _ _ _ _ _ I)) in Gc.
      destruct (ci_cas_named _ _ _ _ _ _ I _ _ Gc) as [Hh Ic]. split; [exact Hh|]. split; [|exact X].
      destruct Pt as (c1 & Ic1 & Hh1 & Hl1).
      assert (c1 = c0) by (apply NoCollideC; try assumption; congruence).
      subst c1. exact Hl1.
    - destruct md; discriminate X.
    - subst r. exists k, cur, md. right. split; [right; split; [exists it; reflexivity|exact Gk]|exact Po].
    - (* GOpenL: the item is still the value of the key *)
      exists k, it, md. left. split; [right; split; [reflexivity|exact Pt]|].
      destruct (C04_no_dangling g R _ _ Pt) as (c1 & G1 & Hh & Hl).
      rewrite Gc in G1. injection G1 as <-.
      exists c0. split; [exact Gc|]. split; [exact Hh|]. split; [exact Hl|exact X].
  Qed.

  (* the statement for get (mode MFull): the step is an open_blob step and the returned
     content is the WHOLE blob stored under the hash of the item *)
  Theorem C05_read_returns_indexed_content g t ts g' ts' c : Reach g ->
    tget (g_thr g) t = Some ts -> step g t = Some g' -> tget (g_thr g') t = Some ts' ->
    t_res ts' = t_res ts ++ [CBytes (Some c)] -> pc_mode (t_pc ts) = Some MFull ->
    exists k it, (t_pc ts = GOpen k it MFull \/
                  (t_pc ts = GOpenL k it MFull /\ sm_get cmp (km (g_idx g)) k = Some it)) /\
                 sm_get lex_cmp (g_cas g) (ihash it) = Some c /\
                 H c = ihash it /\ len c = isize it.
  Proof using Setting.
    intros R Ht St Ht' Hres Hm.
    destruct (C05_read_returns_indexed_slice g t ts g' ts' c R Ht St Ht' Hres)
      as (k & it & md & [(Hp & x & G & Hh & Hl & Hr)|(Hp & Hr)]).
    - assert (md = MFull).
      { destruct Hp as [Hp|[Hp _]]; rewrite Hp in Hm; cbn [pc_mode] in Hm; congruence. }
      subst md. cbn [read_result] in Hr. injection Hr as ->.
      exists k, it. split; [exact Hp|]. split; [exact G|]. split; assumption.
    - exfalso. assert (md = MFull).
      { destruct Hp as [Hp|[[it0 Hp] _]]; rewrite Hp in Hm; cbn [pc_mode] in Hm; congruence. }
      subst md. discriminate.
  Qed.

  (* how a read pc is entered *)
  Definition entered_from (g : cstate) (p p' : pc) : Prop :=
    match p' with
    | GLooked k it md => p = GRead k md /\ sm_get cmp (km (g_idx g)) k = Some it
    | GOpen k it md => p = GLooked k it md /\ pre_open md it = None
    | GReread k it md => p = GOpen k it md /\ sm_get lex_cmp (g_cas g) (ihash it) = None
    | GOpenL k it md =>
      exists it0, p = GReread k it0 md /\ sm_get cmp (km (g_idx g)) k = Some it /\
                  pre_open md it = None
    | _ => True
    end.

  Lemma edge_entered g t p cs p' cs' out sh :
    edge g t p cs p' cs' out sh -> entered_from g p p'.
  Proof using.
    intros E. destruct E; cbn [entered_from]; auto.
    - destruct c as [| | | | | | | | |[|]]; exact I.
    - exists it. auto.
  Qed.

  (* the item carried by a reader was the value of the key at the thread's last lookup step:
     GLooked k it is entered only by a GRead step that found km(k) = it; GOpen k it only from
     GLooked k it; GReread k it only from GOpen k it when the blob of it was not in the
     directory; GOpenL k it only by a GReread step that found km(k) = it (and from then on
     the thread holds the state lock shared, so km(k) = it still holds when it opens the
     blob: clause GOpenL of pc_ok) *)
  Theorem C05_lookup_step g t ts g' ts' : 
    tget (g_thr g) t = Some ts -> step g t = Some g' -> tget (g_thr g') t = Some ts' ->
    (forall k it md, t_pc ts' = GLooked k it md ->
       t_pc ts = GRead k md /\ sm_get cmp (km (g_idx g)) k = Some it) /\
    (forall k it md, t_pc ts' = GOpen k it md ->
       t_pc ts = GLooked k it md /\ pre_open md it = None) /\
    (forall k it md, t_pc ts' = GReread k it md ->
       t_pc ts = GOpen k it md /\ sm_get lex_cmp (g_cas g) (ihash it) = None) /\
    (forall k it md, t_pc ts' = GOpenL k it md ->
       exists it0, t_pc ts = GReread k it0 md /\ sm_get cmp (km (g_idx g)) k = Some it /\
                   pre_open md it = None).
  Proof using.
    intros Ht St Ht'. destruct (cstep_edge Ht St Ht') as (out & sh & E & _).
    apply edge_entered in E.
    split; [|split; [|split]]; intros k it md X; rewrite X in E; exact E.
  Qed.

  (* a reader parked at GOpenL k it (holding the state lock shared) sees the current item of
     k, and the blob of that item is in the directory *)
  Theorem C05_retry_sees_current g t ts k it md : Reach g ->
    tget (g_thr g) t = Some ts -> t_pc ts = GOpenL k it md ->
    In t (g_R g) /\ g_S g = None /\ sm_get cmp (km (g_idx g)) k = Some it /\
    exists c, sm_get lex_cmp (g_cas g) (ihash it) = Some c /\ H c = ihash it /\ len c = isize it.
  Proof using Setting.
    intros R Ht Hpc. pose proof (at_setting reachable_inv g R) as I.
    destruct (ci_pc _ _ _ _ _ _ I _ _ Ht) as [Pt _]. rewrite Hpc in Pt. cbn [pc_ok] in Pt.
    assert (IR : In t (g_R g)).
    { apply (proj2 (ci_R _ _ _ _ _ _ I) t). exists ts. split; [exact Ht|rewrite Hpc; reflexivity]. }
    split; [exact IR|]. split.
    - destruct (g_S g) eqn:ES; [|reflexivity]. exfalso.
      assert (E : g_R g = []) by (apply (ci_SR _ _ _ _ _ _ I); rewrite ES; discriminate).
      rewrite E in IR. destruct IR.
    - split; [exact Pt|]. apply (C04_no_dangling g R _ _ Pt).
  Qed.

  (* the answers computed from the index item alone *)
  Lemma pre_open_cases md it r : pre_open md it = Some r ->
    r = CSize (Some (isize it)) \/ r = CBytes (Some []) \/ r = CInvalid.
  Proof using.
    destruct md as [| |a b]; cbn [pre_open]; [discriminate|intros E; injection E as <-; auto|].
    destruct (isize it <=? a); [intros E; injection E as <-; auto|].
    destruct (N.min b (isize it) <? a); [intros E; injection E as <-; auto|discriminate].
  Qed.

  (* the two results that report a failure, and the only steps that return them *)
  Definition failure (r : cres) : bool := match r with CMissing | CErr => true | _ => false end.

  Lemma edge_failure g t p cs p' cs' out sh x :
    edge g t p cs p' cs' out sh -> pc_res_ok p ->
    out = Some x -> failure x = true ->
    (x = CMissing /\ exists k it md, p = GOpenL k it md /\
                                     sm_get lex_cmp (g_cas g) (ihash it) = None) \/
    (x = CErr /\ ((exists k h repl, p = PDropI k h repl) \/ (exists h, bad h = true) \/
                  ckbad = true)).
  Proof using.
    intros E Pr X F.
    destruct E; try discriminate X; try injection X as <-; cbn [pc_res_ok] in Pr;
      try discriminate F.
    - destruct c as [| | | | | | | | |[|]]; try discriminate X; injection X as <-; discriminate F.
    - right. split; [reflexivity|]. left. eexists _, _, _. reflexivity.
    - right. split; [reflexivity|]. right; left. exists h. exact Bd.
    - destruct (wres w); try destruct Pr; discriminate F.
    - destruct r; try destruct Pr; discriminate F.
    - destruct ckbad; [right; split; [reflexivity|right; right; reflexivity]|].
      destruct r; try destruct Pr; discriminate F.
    - destruct md; discriminate F.
    - destruct (pre_open_cases _ _ _ Po) as [->|[->| ->]]; discriminate F.
    - right. split; [reflexivity|]. right; left. exists (ihash it). exact Bd.
    - destruct md; discriminate F.
    - destruct md; discriminate F.
    - destruct (pre_open_cases _ _ _ Po) as [->|[->| ->]]; discriminate F.
    - right. split; [reflexivity|]. right; left. exists (ihash it). exact Bd.
    - destruct md; discriminate F.
    - left. split; [reflexivity|]. exists k, it, md. split; [reflexivity|exact Gc].
  Qed.

  (* what a step of a read returns, by the mode of the read *)
  Lemma edge_read_result g t p cs p' cs' out sh md r :
    edge g t p cs p' cs' out sh -> pc_mode p = Some md -> out = Some r ->
    r = absent_result md \/ (exists it, pre_open md it = Some r) \/
    (exists it c, r = read_result md it c) \/ failure r = true.
  Proof using.
    intros E M X. destruct E; try discriminate M; try discriminate X;
      injection M as <-; injection X as <-.
    - left. reflexivity.
    - right; left. exists it. exact Po.
    - right; right; right. reflexivity.
    - right; right; left. exists it, c. reflexivity.
    - left. reflexivity.
    - right; left. exists cur. exact Po.
    - right; right; right. reflexivity.
    - right; right; left. exists it, c. reflexivity.
    - right; right; right. reflexivity.
  Qed.

  (* a result that no step of a reachable state returns is in no thread's results *)
  Lemma never_returned x :
    (forall g t ts p' cs' sh, Reach g -> tget (g_thr g) t = Some ts ->
       edge g t (t_pc ts) (t_calls ts) p' cs' (Some x) sh -> False) ->
    forall g, Reach g -> forall t ts, tget (g_thr g) t = Some ts -> ~ In x (t_res ts).
  Proof using.
    intros A.
    apply (reachable_thread_ind H cmp nops bad ckbad thr0 cas0 (fun ts => ~ In x (t_res ts))).
    - intros cs [].
    - intros g t ts p' cs' out sh R IH Ht E Hin. cbn [t_res] in Hin.
      destruct out as [r|]; [|exact (IH _ _ Ht Hin)].
      apply in_app_or in Hin. destruct Hin as [Hin|[->|[]]]; [exact (IH _ _ Ht Hin)|].
      exact (A _ _ _ _ _ _ R Ht E).
  Qed.

  (* C05: reads never fail.  No step ever produces BlobDataMissing: the only step that can is
     the open under the read lock (GOpenL), and there the key is still bound to the item
     (the index cannot change while the lock is held shared), so its blob is present
     (C04_no_dangling). *)
  Theorem C05_read_never_fails g : Reach g ->
    forall t ts, tget (g_thr g) t = Some ts -> ~ In CMissing (t_res ts).
  Proof using Setting.
    revert g. apply never_returned. intros g t ts p' cs' sh R Ht E.
    destruct (edge_failure _ _ _ _ _ _ _ _ _ E (res_inv g R _ _ Ht) eq_refl eq_refl)
      as [(_ & k & it & md & Hp & Gc)|(X & _)]; [|discriminate X].
    destruct (ci_pc _ _ _ _ _ _ (at_setting reachable_inv g R) _ _ Ht) as [Pt _]. rewrite Hp in Pt.
    destruct (C04_no_dangling g R _ _ Pt) as (c1 & G1 & _). congruence.
  Qed.

  (* without faults no call ever returns the I/O error: the pc PDropI is unreachable
     (pc_ok: it is only entered when the rename target is obstructed), no unlink or open
     fails, and the results carried by the write path are never CErr (res_inv) *)
  Theorem no_faults_no_errors g : (forall h, bad h = false) -> ckbad = false -> Reach g ->
    forall t ts, tget (g_thr g) t = Some ts -> ~ In CErr (t_res ts).
  Proof using Setting.
    intros NB NC. revert g. apply never_returned. intros g t ts p' cs' sh R Ht E.
    destruct (edge_failure _ _ _ _ _ _ _ _ _ E (res_inv g R _ _ Ht) eq_refl eq_refl)
      as [(X & _)|(_ & [(k & h & repl & Hp)|[(h & Bd)|Ck]])]; [discriminate X| | |congruence].
    - destruct (ci_pc _ _ _ _ _ _ (at_setting reachable_inv g R) _ _ Ht) as [Pt _]. rewrite Hp in Pt.
      cbn [pc_ok] in Pt. rewrite NB in Pt. discriminate Pt.
    - rewrite NB in Bd. discriminate Bd.
  Qed.

  (* C07 at quiescence: with no initial orphans, once every thread has finished the blob
     directory holds exactly the referenced hashes (KDelOrphans calls are allowed) *)
  (* the half that needs no side condition: every referenced hash has its blob (C04) *)
  Lemma C07_nothing_less g : Reach g ->
    forall h, (exists k it, In (k, it) (km (g_idx g)) /\ ihash it = h) ->
              sm_get lex_cmp (g_cas g) h <> None.
  Proof using Setting.
    intros R h (k & it & Ii & <-). pose proof (at_setting reachable_inv g R) as I.
    destruct (ci_nodangling _ _ _ _ _ _ I _ _ Ii) as (c & Gc & _). congruence.
  Qed.

  (* a blob that nobody references can only survive quiescence when a deletion (or a rename)
     has failed: then some path is obstructed AND some call has returned an error.  So the
     directory is exact when no path is obstructed, and also in every run in which no call
     returned an error (ckbad plays no role: a failed checkpoint leaves no blob behind) *)
  Theorem C07_quiescent_exact g : cas0 = [] -> Reach g -> all_finished g = true ->
    (forall h, bad h = false) \/
    (forall t ts, tget (g_thr g) t = Some ts -> ~ In CErr (t_res ts)) ->
    forall h, sm_get lex_cmp (g_cas g) h <> None <->
              exists k it, In (k, it) (km (g_idx g)) /\ ihash it = h.
  Proof using Setting.
    intros E0 R AF NF h. pose proof (at_setting reachable_inv g R) as I. split.
    - intros G. destruct (sm_get lex_cmp (g_cas g) h) as [c|] eqn:Gc; [|contradiction].
      destruct (ci_accounted _ _ _ _ _ _ I _ _ Gc)
        as [A|[A|[(u & tsu & Gu & P)|[A|((x & Bx) & u & tsu & Gu & P)]]]].
      + apply count_pos_ex, A.
      + exfalso. apply A. apply (rcrep_none _ _ _ (ci_intents _ _ _ _ _ _ I)).
        apply intents_zero. intros u s Iu. rewrite (proj1 (all_finished_In _ _ _ AF Iu)). reflexivity.
      + rewrite (proj1 (all_finished_In _ _ _ AF (tget_In _ _ _ Gu))) in P. destruct P.
      + rewrite E0 in A. destruct A.
      + exfalso. destruct NF as [NF|NF]; [rewrite NF in Bx; discriminate|exact (NF _ _ Gu P)].
    - apply C07_nothing_less, R.
  Qed.

  Corollary C07_quiescent_exact_nofaults g : cas0 = [] -> Reach g -> all_finished g = true ->
    (forall h, bad h = false) ->
    forall h, sm_get lex_cmp (g_cas g) h <> None <->
              exists k it, In (k, it) (km (g_idx g)) /\ ihash it = h.
  Proof using Setting.
    intros E0 R AF NF. apply C07_quiescent_exact; auto.
  Qed.

End ConcProofs.

Print Assumptions C04_no_dangling.
Print Assumptions C04_commit_window_protected.
Print Assumptions C04_never_deletes_protected.
Print Assumptions C04_apply_never_panics.
Print Assumptions C15_lock_order.
Print Assumptions C15_readers_shared_only.
Print Assumptions C15_iter_step.
Print Assumptions holds_sound.
Print Assumptions acquires_sound.
Print Assumptions acquires_complete.
Print Assumptions C15_deadlock_free.
Print Assumptions C05_read_returns_indexed_slice.
Print Assumptions C05_read_returns_indexed_content.
Print Assumptions C05_lookup_step.
Print Assumptions C05_retry_sees_current.
Print Assumptions C05_read_never_fails.
Print Assumptions no_faults_no_errors.
Print Assumptions S_excludes_readers.
Print Assumptions readers_sound.
Print Assumptions C07_nothing_less.
Print Assumptions C07_quiescent_exact.
Print Assumptions C07_quiescent_exact_nofaults.
